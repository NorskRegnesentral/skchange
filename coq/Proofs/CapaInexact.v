(** The CAPA loop over R with inexact arithmetic, measured against an optimal-value function.

    The loop is [crun Rn Vc Vp Wk] of Proofs/CapaSkeleton.v (it is Model/CapaA.v, and with
    exact sums Model/CapaR.v: Proofs/GenericCapaR.v).  If every arithmetic step is within
    [eps] of the exact real operation AT THE VALUES THE RUN ITSELF PRODUCES, then

    - the stored value [cG e] is within [e * eps] of the true total of its own back-pointer
      chain ([chainK_close]);
    - the stored value is at most [2 * e * eps] below the optimum [Go e] ([Gk_lower]):
      a start that is pruned because its computed candidate looked too low loses at most
      [2 * eps] per hop of the chain of starts that replace it.

    The optimum and the total enter through the equations they satisfy ([Go_step],
    [tot_pt], [tot_coll]), so that the exact theory of Proofs/CapaReal.v (eps = 0) and the
    robustness theorems of Proofs/CapaApprox.v are both instances. *)
From Coq Require Import Reals Lra List Lia.
From SK Require Import Proofs.RealLib Proofs.CapaSpec Model.PeltR Model.Generic Model.GenericCapa
                       Proofs.GenericR Proofs.PeltLoop Proofs.CapaSkeleton.
Import ListNotations.
Open Scope R_scope.

(** accumulated error budget after i steps *)
Definition Eb (eps : R) (i : nat) : R := INR i * eps.

Lemma Eb_0 eps : Eb eps 0 = 0.
Proof. unfold Eb. simpl. lra. Qed.
Lemma Eb_S eps i : Eb eps (S i) = Eb eps i + eps.
Proof. unfold Eb. rewrite S_INR. lra. Qed.
Lemma Eb_mono eps i j : 0 <= eps -> (i <= j)%nat -> Eb eps i <= Eb eps j.
Proof.
  intros Heps H. unfold Eb. apply Rmult_le_compat_r; [exact Heps|]. now apply le_INR.
Qed.
Lemma Eb_lt eps i j : 0 <= eps -> (i < j)%nat -> Eb eps i + eps <= Eb eps j.
Proof. intros Heps H. rewrite <- Eb_S. apply Eb_mono; [exact Heps|lia]. Qed.

(** [Rltb] decides the order of R *)
Lemma Rltb_true_le x y : Rltb x y = true -> x <= y.
Proof. intros H. apply Rltb_true in H. lra. Qed.
Lemma Rltb_false_le x y : Rltb x y = false -> y <= x.
Proof. apply Rltb_false. Qed.

(** the exact arithmetic meets the hypotheses below with any eps >= 0 *)
Lemma exact_steps_ok (pc : nat -> nat -> R) (pp : nat -> R) (K eps : R) : 0 <= eps ->
  (forall a T g, Rabs ((fun a T g => g + pc a T) a T g - (g + pc a T)) <= eps) /\
  (forall t g, Rabs ((fun t g => g + pp t) t g - (g + pp t)) <= eps) /\
  (forall (a T : nat) c, Rabs ((fun (_ _ : nat) c => c + K) a T c - (c + K)) <= eps).
Proof.
  intros Heps. repeat split; intros; cbv beta;
    match goal with |- Rabs ?x <= _ => replace x with 0 by lra end;
    rewrite Rabs_R0; exact Heps.
Qed.

Section Approx.
Variable Vc : nat -> nat -> R -> R.
Variable Vp : nat -> R -> R.
Variable Wk : nat -> nat -> R -> R.
Variables (m M delay : nat).
Variable pc : nat -> nat -> R.    (* TRUE penalised saving of the collective anomaly [s,e) *)
Variable pp : nat -> R.           (* TRUE penalised saving of the point anomaly at t *)
Variable K : R.                   (* the prune constant alpha + sum beta *)
Variable eps : R.
Variable N : nat.                 (* length of the run *)
Variable Go : nat -> R.           (* optimal total over the anomaly sets of each prefix *)
Variable tot : list anom -> R.    (* TRUE total penalised saving of an anomaly set *)
Hypothesis Hm2 : (2 <= m)%nat.
Hypothesis HmM : (m <= M)%nat.
Hypothesis Go_0 : Go 0 = 0.
Hypothesis Go_step : forall t,
  Go (S t) = Go t \/ Go (S t) = Go t + pp t \/
  exists s, (s + m <= S t)%nat /\ (S t <= s + M)%nat /\ Go (S t) = Go s + pc s (S t).
Hypothesis tot_nil : tot [] = 0.
Hypothesis tot_pt : forall l i, tot (l ++ [Pt i]) = tot l + pp i.
Hypothesis tot_coll : forall l a e, tot (l ++ [Coll a e]) = tot l + pc a e.

Notation runK := (crun Rn Vc Vp Wk m M delay).
Notation G := (cG Rn Vc Vp Wk m M delay).

Hypothesis Heps : 0 <= eps.
(** the two steps that produce stored values, at the values the run itself produces; the
    prune step [Wk_ok] is only needed for the lower bound *)
Hypothesis Vc_ok : forall a T, (a < T <= N)%nat -> Rabs (Vc a T (G a) - (G a + pc a T)) <= eps.
Hypothesis Vp_ok : forall t, (t < N)%nat -> Rabs (Vp t (G t) - (G t + pp t)) <= eps.

Notation Eb := (Eb eps).

Lemma chainK_close n : (n <= N)%nat -> forall fuel e, (e <= fuel)%nat -> (e <= n)%nat ->
  G e - Eb e <= tot (map to_anom (chain fuel (gcastart Rn (runK n)) e)) <= G e + Eb e.
Proof using Hm2 HmM tot_nil tot_pt tot_coll Heps Vc_ok Vp_ok.
  intros HnN. induction fuel as [|f IH]; intros e Hf HT.
  - replace e with 0%nat by lia. cbn [chain map]. rewrite tot_nil, cG_0, Eb_0. cbn. lra.
  - destruct e as [|i].
    + cbn [chain map]. rewrite tot_nil, cG_0, Eb_0. cbn. lra.
    + cbn [chain].
      pose proof (crun_as Rn Vc Vp Wk m M delay Hm2 HmM n i ltac:(lia)) as Hok.
      destruct (nth i (gcastart Rn (runK n)) None) as [a|].
      * destruct Hok as [[-> E]|(H1 & H2 & E)].
        -- rewrite Nat.ltb_irrefl, Nat.eqb_refl, map_app. cbn [map].
           rewrite to_anom_pt, tot_pt.
           pose proof (IH i ltac:(lia) ltac:(lia)) as P.
           pose proof (Rabs_le_both _ _ (Vp_ok i ltac:(lia))) as B.
           rewrite Eb_S. lra.
        -- replace (a <? i)%nat with true by (symmetry; apply Nat.ltb_lt; lia).
           rewrite map_app. cbn [map]. rewrite to_anom_coll, tot_coll by lia.
           pose proof (IH a ltac:(lia) ltac:(lia)) as P.
           pose proof (Rabs_le_both _ _ (Vc_ok a (S i) ltac:(lia))) as B.
           pose proof (Eb_lt eps a (S i) Heps ltac:(lia)) as Hb.
           lra.
      * pose proof (IH i ltac:(lia) ltac:(lia)) as P. rewrite Eb_S. lra.
Qed.

(** that the stored value is not far below the optimum needs, in addition, what pruning rests on *)
Hypothesis Hd : (m <= delay + 1)%nat.
Hypothesis Hsub : forall s k e, (s + m <= k)%nat -> (k + m <= e)%nat -> (e <= s + M)%nat ->
  pc s e <= pc s k + K + pc k e.
Hypothesis Wk_ok : forall a T, (a < T <= N)%nat ->
  Rabs (Wk a T (Vc a T (G a)) - (Vc a T (G a) + K)) <= eps.

(** start [a] was found too low at end [tau], by the COMPUTED prune test: in exact terms
    this only says "too low up to 2 eps" *)
Definition condemnedA (a tau : nat) : Prop :=
  (a + m <= tau)%nat /\ G a + pc a tau + K < G tau + 2 * eps.

(** replacing a condemned start [a] by [tau] loses less than 2 eps at any later end *)
Lemma condemnedA_worse a tau T' :
  condemnedA a tau -> (tau + m <= T')%nat -> (T' <= a + M)%nat ->
  G a + pc a T' < G tau + pc tau T' + 2 * eps.
Proof using Hsub.
  intros [H1 H2] H3 H4.
  pose proof (Hsub a tau T' H1 H3 H4) as Hs. lra.
Qed.

Definition OInvA (T : nat) (g : gcst Rn) : Prop :=
  (forall i, (i <= T)%nat -> Go i <= G i + 2 * Eb i) /\
  CQInv m M delay condemnedA T (gcstarts Rn g) (gcpending Rn g).

Lemma stepK_OInv t : (S t <= N)%nat -> OInvA t (runK t) -> OInvA (S t) (runK (S t)).
Proof using Hm2 HmM Go_step Heps Vc_ok Vp_ok Hd Hsub Wk_ok.
  intros HtN [Hlow Q].
  pose proof (crun_CLInv Rn Vc Vp Wk m M delay Hm2 HmM t) as W.
  pose proof (cG_S Rn Vc Vp Wk m M delay t) as HGS.
  rewrite crun_S. set (g := runK t) in *.
  assert (Hg : forall j, (j <= t)%nat -> nthV Rn (gcopt Rn g) j = G j)
    by (intros j Hj; now apply (crun_opt_nth Rn)).
  pose proof (cchoose_max Rn Vc Vp m Rle Rle_refl Rle_trans Rltb_true_le Rltb_false_le g t)
    as (Hb1 & Hb2 & Hb3).
  pose proof (CLInv_starts1 Rn Vc Vp m M HmM t g W) as Hrange.
  pose proof (CQInv_starts1 m M delay condemnedA t _ _ Q) as Hmiss0.
  unfold cstep. destruct (cchoose Rn Vc Vp m g t) as [choice best]. cbn [snd] in *.
  rewrite Hg in Hb1, Hb2 by lia.
  (* every current start contributes its computed candidate *)
  assert (Hb3' : forall a, In a (cstarts1 m (gcstarts Rn g) t) -> Vc a (S t) (G a) <= best).
  { intros a Ha. destruct (Hrange a Ha). apply Hb3.
    apply in_map_iff. exists a. split; [|exact Ha]. now rewrite Hg by lia. }
  (* every admissible start is represented in the current list up to 2 eps per hop *)
  assert (Hstar : forall k a, (S t - a <= k)%nat -> (a + m <= S t)%nat -> (S t <= a + M)%nat ->
            exists s', In s' (cstarts1 m (gcstarts Rn g) t) /\ (a <= s')%nat /\
              G a + pc a (S t) <= G s' + pc s' (S t) + 2 * (Eb s' - Eb a)).
  { induction k as [|k IHk]; intros a Hk A1 A2; [lia|].
    destruct (in_dec Nat.eq_dec a (cstarts1 m (gcstarts Rn g) t)) as [Hin|Hn].
    - exists a. split; [exact Hin|]. split; [lia|]. lra.
    - destruct (Hmiss0 a A1 A2 Hn) as (tau & Htau & Hc). rewrite Nat.add_1_r in Htau.
      pose proof Hc as [Hc1 _].
      destruct (IHk tau ltac:(lia) Htau ltac:(lia)) as (s' & Hs' & Hle & Hv).
      exists s'. split; [exact Hs'|]. split; [lia|].
      pose proof (condemnedA_worse a tau (S t) Hc Htau A2) as Hw.
      pose proof (Eb_lt eps a tau Heps ltac:(lia)) as Hb.
      lra. }
  (* the pruned, rounded maximum is within 2 (t+1) eps of the unpruned exact one *)
  assert (Hbest : Go (S t) <= best + 2 * Eb (S t)).
  { pose proof (Hlow t ltac:(lia)) as Ht.
    destruct (Go_step t) as [E|[E|(a & A1 & A2 & E)]].
    - rewrite E, Eb_S. lra.
    - pose proof (Rabs_le_both _ _ (Vp_ok t ltac:(lia))) as B.
      rewrite E, Eb_S. lra.
    - destruct (Hstar (S t) a ltac:(lia) A1 A2) as (s' & Hs' & Hle & Hv).
      destruct (Hrange s' Hs') as [R1 R2].
      pose proof (Hb3' s' Hs') as Hc.
      pose proof (Rabs_le_both _ _ (Vc_ok s' (S t) ltac:(lia))) as B.
      pose proof (Hlow a ltac:(lia)) as Ha.
      pose proof (Eb_lt eps s' (S t) Heps ltac:(lia)) as Hb.
      rewrite E. lra. }
  split.
  - intros i Hi. destruct (Nat.eq_dec i (S t)) as [->|Hne]; [|apply Hlow; lia].
    now rewrite HGS.
  - destruct (pop delay (gcpending Rn g ++ [clow Rn Vc Wk m g t best])) as [now pend'] eqn:Epop.
    cbn [gcstarts gcpending].
    eapply cqueue_step; [exact Hd|exact Q| |exact Epop].
    (* starts recorded as too low at this end are condemned at S t *)
    intros a Ha. apply in_clow in Ha as [Hin Hc]. apply Rltb_true in Hc.
    destruct (Hrange a Hin) as [R1 R2]. rewrite Hg in Hc by lia.
    pose proof (Rabs_le_both _ _ (Vc_ok a (S t) ltac:(lia))) as B1.
    pose proof (Rabs_le_both _ _ (Wk_ok a (S t) ltac:(lia))) as B2.
    split; [lia|]. rewrite HGS. lra.
Qed.

Lemma runK_OInv n : (n <= N)%nat -> OInvA n (runK n).
Proof using Hm2 HmM Go_0 Go_step Heps Vc_ok Vp_ok Hd Hsub Wk_ok.
  induction n as [|n IH]; intros Hn; [|apply stepK_OInv; [exact Hn|apply IH; lia]].
  split; [|apply CQInv_init; lia].
  intros i Hi. replace i with 0%nat by lia. rewrite cG_0, Eb_0, Go_0. cbn. lra.
Qed.

(** the stored value is within 2 i eps of the exact optimum, from below *)
Lemma Gk_lower i : (i <= N)%nat -> Go i <= G i + 2 * Eb i.
Proof using Hm2 HmM Go_0 Go_step Heps Vc_ok Vp_ok Hd Hsub Wk_ok.
  intros Hi. apply (proj1 (runK_OInv N (le_n N))). exact Hi.
Qed.

End Approx.
