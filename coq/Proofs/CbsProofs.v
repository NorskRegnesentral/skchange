(** Circular binary segmentation: properties of Model/Cbs.v.
    1. inner (anomaly) intervals of a candidate interval,
    2. per-interval first-argmax [best_inner],
    3. the vocabulary of the greedy anomaly selection (its theorems: Proofs/AnyThreshold.v,
       Proofs/GenericSpec.v, and Proofs/GreedyZ.v for this model),
    4. sorting and extensionality of the assembled detector [cbs].
    [cbs] is the Z instance of the generic detector (Proofs/GenericZ.v): what is said about score
    values comes from Proofs/GenericOrder.v at [Zn]. *)
From Coq Require Import ZArith List Lia Bool Permutation.
From SK Require Import Lib.Base Model.Capa Model.Cbs Model.Generic.
From SK Require Import Proofs.ArgmaxLemmas Proofs.GenericZ Proofs.GenericOrder.
Import ListNotations.
Open Scope Z_scope.

(** * 1. Inner intervals *)

(** (no assumption on [m] is needed) *)
Theorem anomaly_intervals_spec : forall s e m a z,
  In (a, z) (anomaly_intervals s e m) <->
  (s < a /\ a + m <= z /\ z < e /\ m <= (e - z) + (a - s))%nat.
Proof.
  intros s e m a z. unfold anomaly_intervals. rewrite in_flat_map. split.
  - intros (i & Hi & H). apply in_seq in Hi. apply in_flat_map in H.
    destruct H as (j & Hj & H). apply in_seq in Hj.
    destruct (m <=? e - j + (i - s))%nat eqn:E; [|contradiction].
    destruct H as [H | []]. inversion H; subst. apply Nat.leb_le in E. lia.
  - intros (H1 & H2 & H3 & H4). exists a. split; [apply in_seq; lia|].
    apply in_flat_map. exists z. split; [apply in_seq; lia|].
    replace (m <=? e - z + (a - s))%nat with true by (symmetry; apply Nat.leb_le; lia).
    left; reflexivity.
Qed.

Theorem anomaly_intervals_nonempty : forall s e m,
  (1 <= m)%nat -> (s + 2 * m <= e)%nat -> (s + m + 2 <= e)%nat ->
  anomaly_intervals s e m <> [].
Proof.
  intros s e m Hm H1 H2 E.
  assert (Hin : In (s + 1, s + 1 + m)%nat (anomaly_intervals s e m))
    by (apply anomaly_intervals_spec; lia).
  rewrite E in Hin. contradiction.
Qed.

Theorem anomaly_intervals_empty : forall s e m,
  (e < s + m + 2 \/ e < s + 2 * m)%nat -> anomaly_intervals s e m = [].
Proof.
  intros s e m H. destruct (anomaly_intervals s e m) as [|[a z] t] eqn:E; [reflexivity|].
  assert (Hin : In (a, z) (anomaly_intervals s e m)) by (rewrite E; left; reflexivity).
  apply anomaly_intervals_spec in Hin. lia.
Qed.

(** * 2. Per-interval maximisation *)
Lemma gbest_inner_Z : forall LS m se, gbest_inner Zn LS m se = best_inner LS m se.
Proof. intros LS m [s e]. unfold gbest_inner, best_inner. rewrite gargmax_Z. reflexivity. Qed.

Theorem best_inner_spec : forall LS m s e a z v,
  best_inner LS m (s, e) = Some ((a, z), v) ->
  In (a, z) (anomaly_intervals s e m) /\ v = LS s a z e /\
  forall a' z', In (a', z') (anomaly_intervals s e m) -> LS s a' z' e <= v.
Proof.
  intros LS m s e a z v H. rewrite <- gbest_inner_Z in H.
  destruct (gbest_inner_first_max Zn _ swo_Z LS m s e a z v (fun _ _ _ => I) H) as (Hin & Hv & Hmax & _).
  split; [exact Hin|]. split; [exact Hv|]. intros a' z' Hin'. exact (proj1 (Z.ltb_ge _ _) (Hmax a' z' Hin')).
Qed.

Lemma best_inner_none : forall LS m s e,
  best_inner LS m (s, e) = None <-> anomaly_intervals s e m = [].
Proof. intros LS m s e. rewrite <- gbest_inner_Z. apply (gbest_inner_none Zn). Qed.

(** * 3. Greedy anomaly selection *)
Definition Kcbs (ivs inner : list (nat * nat)) (i j : nat) : bool :=
  overlaps (nth i inner (0, 0)%nat) (nth j ivs (0, 0)%nat).

Lemma overlaps_iff : forall ab se, overlaps ab se = true <-> (fst se < snd ab /\ fst ab < snd se)%nat.
Proof. intros ab se. unfold overlaps. rewrite andb_true_iff, !Nat.ltb_lt. reflexivity. Qed.

Definition nthP (l : list (nat * nat)) (i : nat) : nat * nat := nth i l (0, 0)%nat.

(** standing assumptions: three parallel lists of length [N], a non-negative
    threshold, and every above-threshold candidate overlaps its own inner interval.
    Candidates without inner interval (inner (0,0), score 0) are unconstrained. *)
Definition anoms_pre (thr : Z) (ivs inner : list (nat * nat)) (scores : list Z) (N : nat) : Prop :=
  length ivs = N /\ length inner = N /\ length scores = N /\ 0 <= thr /\
  (forall i, (i < N)%nat -> thr < nthZ scores i ->
     overlaps (nthP inner i) (nthP ivs i) = true).

(** disjointness of half-open intervals (and distinctness) *)
Definition disj (p q : nat * nat) : Prop := (snd p <= fst q \/ snd q <= fst p)%nat.
Definition sepd (p q : nat * nat) : Prop := p <> q /\ disj p q.

(** * 4. The assembled detector *)
Lemma insert_pair_ins : forall x l, insert_pair x l = ins pair_ltb x l.
Proof.
  intros x. induction l as [|y t IH]; simpl; [reflexivity|]. rewrite IH. reflexivity.
Qed.

Lemma sort_pairs_isort : forall l, sort_pairs l = isort pair_ltb l.
Proof.
  unfold sort_pairs, isort. induction l as [|x t IH]; simpl; [reflexivity|].
  rewrite IH, insert_pair_ins. reflexivity.
Qed.

Lemma sort_pairs_perm : forall l, Permutation (sort_pairs l) l.
Proof. intros l. rewrite sort_pairs_isort. apply isort_perm. Qed.

Lemma pair_ltb_true : forall x y, pair_ltb x y = true <->
  (fst x < fst y \/ (fst x = fst y /\ snd x < snd y))%nat.
Proof.
  intros x y. unfold pair_ltb.
  rewrite orb_true_iff, andb_true_iff, !Nat.ltb_lt, Nat.eqb_eq. reflexivity.
Qed.

(** consecutive elements are in (non-strict) lexicographic order *)
Lemma sort_pairs_sorted : forall l i, (S i < length (sort_pairs l))%nat ->
  (fst (nthP (sort_pairs l) i) < fst (nthP (sort_pairs l) (S i)) \/
   (fst (nthP (sort_pairs l) i) = fst (nthP (sort_pairs l) (S i)) /\
    snd (nthP (sort_pairs l) i) <= snd (nthP (sort_pairs l) (S i))))%nat.
Proof.
  intros l i Hi. rewrite sort_pairs_isort in *. unfold nthP.
  pose proof (Sorted_nth _ _ (0, 0)%nat (isort_sorted pair_ltb l) i Hi) as [H | H].
  - apply pair_ltb_true in H. lia.
  - destruct (pair_ltb (nth (S i) (isort pair_ltb l) (0, 0)%nat)
                       (nth i (isort pair_ltb l) (0, 0)%nat)) eqn:E; [discriminate|].
    assert (N : ~ (fst (nth (S i) (isort pair_ltb l) (0, 0)%nat)
                   < fst (nth i (isort pair_ltb l) (0, 0)%nat) \/
                   (fst (nth (S i) (isort pair_ltb l) (0, 0)%nat)
                    = fst (nth i (isort pair_ltb l) (0, 0)%nat) /\
                    snd (nth (S i) (isort pair_ltb l) (0, 0)%nat)
                    < snd (nth i (isort pair_ltb l) (0, 0)%nat)))%nat).
    { intro C. apply pair_ltb_true in C. congruence. }
    lia.
Qed.

Theorem cbs_ext : forall LS1 LS2 m thr ivs,
  (forall s a z e, LS1 s a z e = LS2 s a z e) -> cbs LS1 m thr ivs = cbs LS2 m thr ivs.
Proof.
  intros LS1 LS2 m thr ivs H. rewrite <- (gcbs_Z LS1), <- (gcbs_Z LS2).
  apply (G09_only_valid_cuts_matter Zn). intros s e a z _ _. apply H.
Qed.

Print Assumptions anomaly_intervals_spec.
Print Assumptions anomaly_intervals_nonempty.
Print Assumptions anomaly_intervals_empty.
Print Assumptions best_inner_spec.
Print Assumptions cbs_ext.
