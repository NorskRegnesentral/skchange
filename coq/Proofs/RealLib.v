(** Real-number vocabulary shared by the kernel theorems: sums over a slice, the
    model of col_cumsum(init_zero=True) as a prefix-sum function, and the direct
    (definition-level) statistics the properties talk about. *)
From Coq Require Import Reals List Lia Lra Permutation.
Import ListNotations.
Open Scope R_scope.

Fixpoint sumR (l : list R) : R := match l with [] => 0 | x :: t => x + sumR t end.
Definition slice (s e : nat) (l : list R) : list R := firstn (e - s) (skipn s l).
Definition sq (l : list R) : list R := map (fun x => x ^ 2) l.

(** col_cumsum(x, init_zero=True)[i] for one column: the sum of the first i entries *)
Definition prefix (l : list R) (i : nat) : R := sumR (firstn i l).

(** direct definitions on a (non-empty) slice *)
Definition meanR (l : list R) : R := sumR l / INR (length l).
Definition sse (mu : R) (l : list R) : R := sumR (map (fun x => (x - mu) ^ 2) l).   (* sum of squared errors around mu *)
Definition rss (l : list R) : R := sse (meanR l) l.                                  (* residual sum of squares *)
Definition varR (l : list R) : R := rss l / INR (length l).                          (* ML variance estimate *)
Definition floor_var : R := 1 / 10000000000000000.                                   (* 1e-16 *)
(** twice the negative Gaussian log-likelihood of the slice at mean mu, variance v *)
Definition nll2 (mu v : R) (l : list R) : R := sumR (map (fun x => ln (2 * PI * v) + (x - mu) ^ 2 / v) l).

Lemma sumR_app l1 l2 : sumR (l1 ++ l2) = sumR l1 + sumR l2.
Proof. induction l1; simpl; lra. Qed.

Lemma Rabs_diag_0 x : Rabs (x - x) <= 0.
Proof. rewrite Rminus_diag_eq, Rabs_R0 by reflexivity. lra. Qed.

Lemma Rabs_le_both x e : Rabs x <= e -> - e <= x <= e.
Proof. unfold Rabs. destruct (Rcase_abs x); lra. Qed.

Lemma Rabs_le_of x e : - e <= x <= e -> Rabs x <= e.
Proof. unfold Rabs. destruct (Rcase_abs x); lra. Qed.

Lemma sumR_perm l l' : Permutation l l' -> sumR l = sumR l'.
Proof. intros H. induction H as [| x l l' _ IH | x y l | l l' l'' _ IH1 _ IH2]; simpl; lra. Qed.

Lemma firstn_add {A} (l : list A) s k : firstn (s + k) l = firstn s l ++ firstn k (skipn s l).
Proof.
  revert l; induction s as [|s IH]; intros [|a l]; simpl; try reflexivity.
  - now rewrite firstn_nil.
  - now rewrite IH.
Qed.

Lemma prefix_diff l s e : (s <= e)%nat -> prefix l e - prefix l s = sumR (slice s e l).
Proof.
  intros H. unfold prefix, slice. replace e with (s + (e - s))%nat at 1 by lia.
  rewrite firstn_add, sumR_app. lra.
Qed.

Lemma slice_length s e (l : list R) : (s <= e <= length l)%nat -> length (slice s e l) = (e - s)%nat.
Proof. intros. unfold slice. rewrite firstn_length, skipn_length. lia. Qed.

Lemma map_slice (f : R -> R) s e l : map f (slice s e l) = slice s e (map f l).
Proof. unfold slice. now rewrite <- firstn_map, <- skipn_map. Qed.

Lemma prefix_sq_diff l s e :
  (s <= e)%nat -> prefix (sq l) e - prefix (sq l) s = sumR (sq (slice s e l)).
Proof. intros H. rewrite prefix_diff by exact H. unfold sq. now rewrite map_slice. Qed.

Lemma floor_var_pos : 0 < floor_var.
Proof. unfold floor_var. lra. Qed.

Lemma two_PI_pos : 0 < 2 * PI.
Proof. pose proof PI_RGT_0. lra. Qed.

Lemma sse_nonneg mu l : 0 <= sse mu l.
Proof.
  unfold sse. induction l as [|a k IH]; cbn [map sumR]; [lra|].
  pose proof (pow2_ge_0 (a - mu)). lra.
Qed.

Lemma rss_nonneg l : 0 <= rss l.
Proof. apply sse_nonneg. Qed.

(** the shape of "the gap is a non-negative multiple of a square, hence an inequality" *)
Lemma le_of_sq_gap (a b c d : R) : 0 <= c -> b - a = c * d ^ 2 -> a <= b.
Proof. intros Hc H. pose proof (pow2_ge_0 d). nra. Qed.

Lemma sse_expand mu l :
  sse mu l = sumR (sq l) - 2 * mu * sumR l + INR (length l) * mu ^ 2.
Proof.
  unfold sse, sq. induction l as [|a k IH]; [simpl; lra|].
  change (length (a :: k)) with (S (length k)). rewrite S_INR. cbn [map sumR]. rewrite IH. ring.
Qed.

Lemma rss_expand l : (0 < length l)%nat -> rss l = sumR (sq l) - (sumR l) ^ 2 / INR (length l).
Proof.
  intros Hl. unfold rss. rewrite sse_expand. unfold meanR.
  assert (Hn : INR (length l) <> 0) by (apply not_0_INR; lia). field. exact Hn.
Qed.

(** Side conditions left by [field]: the denominators are positive reals from the
    context or [INR] of a positive natural number. *)
Ltac nz := repeat split; first [assumption | lra | nra | (apply not_0_INR; lia)].

(** The generated kernels are compared with hand-written normal forms up to algebra, but
    [ring] and [field] do not look below [Rmax], [sqrt], [ln] and [Rabs].  [align tac]
    rewrites an argument of such a head on the left of an equation into the argument the
    same head has on the right, when [tac] proves the two equal; the equation then closes
    by [ring] or [field] whatever shape the generator gave the arguments.  (Call it as
    [align ltac:(tac)]: a bare tactic name in argument position is not read as a tactic.) *)
Ltac align tac :=
  repeat match goal with |- ?L = ?R =>
    match L with context [?f ?b] =>
      lazymatch f with
      | sqrt => idtac | ln => idtac | Rabs => idtac | Rmax => idtac | Rmax _ => idtac
      end;
      match R with context [f ?a] =>
        tryif constr_eq a b then fail else replace b with a by tac
      end
    end
  end.
