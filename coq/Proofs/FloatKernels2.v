(** Two more kernels in the style of Proofs/FloatError.v + Proofs/FloatRefine.v:

    A  the FIXED-MEAN squared-error cost  (S2[e] - S2[s]) - (2 mu) (S1[e] - S1[s]) + n mu^2
       in the code's operation order  [l2_cost_fixed_F]  (Check/FloatKernelCheck.v);
    B  the CUSUM score  | sqrt (na / (n nb)) (S1[k] - S1[s]) - sqrt (nb / (n na)) (S1[e] - S1[k]) |
       in the code's operation order  [cusum_F]  (Check/FloatKernelCheck2.v).

    MODEL OF FLOATING POINT: as in Proofs/FloatError.v (Flocq FLX, precision 53, round to
    nearest even, unbounded exponent range: [rnd53], [u53] = 2^-53).  Parts A1 and B1 are
    first carried out for ANY rounding function with |rnd x - x| <= u |x|, 0 <= u.

    Notation:  M1 = sum of |x_i|, M2 = sum of x_i^2 over the WHOLE prefix 0 .. e-1,  n = e - s.

    A1 [l2_fixed_float53_error]   s <= e,  e u <= 1/100  ==>
          |l2_fixed_float53 mu l s e - l2_cost_fixed_R (prefix l) (prefix (sq l)) mu s e|
             <= (2.04 e + 6) u (M2 + 2 |mu| M1 + n mu^2)
       [l2_fixed_float53_vs_sse]  the same against  sse mu (slice s e l),  s <= e <= length l
       [l2_fixed_float_error_sharp]  no smallness hypothesis, in powers of (1 + u)
    A2 [l2_fixed_trace_ok] (boolean checker), [l2_cost_fixed_F_refines]:
          l2_fixed_trace_ok mu l s e = true ->
          FR (l2_cost_fixed_F mu l s e) = l2_fixed_float53 (FR mu) (map FR l) s e
       [l2_cost_fixed_F_vs_sse]   the computed number against sse (FR mu) (slice s e (map FR l))
    B1 [cusum_float53_error]      s < k < e,  e u <= 1/100  ==>
          |cusum_float53 l s k e - cusum_score_R (prefix l) s k e|
             <= (2.04 e + 6) u (bw M1 + aw M1)        bw, aw the exact weights
    B2 [cusum_trace_ok] (boolean checker), [cusum_F_refines], [cusum_F_vs_score_R]. *)
From Coq Require Import Reals List Bool Floats Psatz.
From Flocq Require Import Core BinarySingleNaN.
From SK Require Import Gen.KernelsR Proofs.RealLib Proofs.CostKernels Proofs.ScoreKernels Proofs.FloatError
  Check.FloatKernelCheck Check.FloatKernelCheck2 Proofs.FloatRefine Proofs.FloatRun.
Import ListNotations.

Local Open Scope R_scope.
Local Instance prec53_gt_0' : Prec_gt_0 53 := eq_refl.
(** [sqrt] is the real square root in this file; the primitive one is written [PrimFloat.sqrt] *)
Local Notation sqrt := R_sqrt.sqrt.

(** * Part A1 / B1 (abstract): the standard model, any rounding function *)

Section Abstract2.
  Variable rnd : R -> R.
  Variable u : R.
  Hypothesis u_nonneg : 0 <= u.
  Hypothesis rnd_rel : forall x, Rabs (rnd x - x) <= u * Rabs x.

  (** ** A1. The fixed-mean squared-error cost *)

  (** the cost, in exactly the operation order of [l2_cost_fixed_F]:
        ((b - (2 * mu) * a) + n * (mu * mu))
      every operation rounded; [mu] is a real (in the refinement theorem: a binary64 number) *)
  Definition l2_fixed_float (mu : R) (l : list R) (s e : nat) : R :=
    let a := rnd (fprefix rnd l e - fprefix rnd l s) in
    let b := rnd (fprefix rnd (fsq rnd l) e - fprefix rnd (fsq rnd l) s) in
    rnd (rnd (b - rnd (rnd (2 * mu) * a)) + rnd (INR (e - s) * rnd (mu * mu))).

  (** A1, sharp form.  With q = 2 (1+u)^e - 1  the three relative errors are
        (1+u)^4 q - 1   on the sum of squares of the prefix,
        (1+u)^5 q - 1   on 2 |mu| (sum of |x_i| over the prefix),
        (1+u)^3 - 1     on n mu^2. *)
  Theorem l2_fixed_float_error_sharp mu l s e :
    (s <= e)%nat ->
    Rabs (l2_fixed_float mu l s e - l2_cost_fixed_R (prefix l) (prefix (sq l)) mu s e)
      <= ((1 + hh u e) * (1 + u) ^ 3 - 1) * sumR (map (fun x => x * x) (firstn e l))
         + ((1 + hh u e) * (1 + u) ^ 4 - 1) * (2 * Rabs mu * sumR (map Rabs (firstn e l)))
         + ((1 + u) ^ 3 - 1) * (INR (e - s) * mu ^ 2).
  Proof.
    intros Hse. assert (Hsee : (s <= e <= e)%nat) by lia.
    pose proof (fdiff_aerr rnd u u_nonneg rnd_rel l s e e Hsee) as Ha.
    pose proof (fdiff_sq_aerr rnd u u_nonneg rnd_rel l s e e Hsee) as Hb.
    pose proof (aerr_rnd_exact rnd u rnd_rel (2 * mu)) as Ht.
    rewrite (Rabs_mult 2 mu), (Rabs_pos_eq 2) in Ht by lra.
    pose proof (aerr_rnd_exact rnd u rnd_rel (mu * mu)) as Hm.
    rewrite (Rabs_pos_eq (mu * mu) (sqr_nonneg mu)) in Hm.
    pose proof (aerr_exact (INR (e - s))) as Hn. rewrite (Rabs_pos_eq _ (pos_INR (e - s))) in Hn.
    pose proof (aerr_rnd rnd u u_nonneg rnd_rel (aerr_mul Ht Ha)) as Hc.
    pose proof (aerr_rnd rnd u u_nonneg rnd_rel (aerr_sub Hb Hc)) as Hd.
    pose proof (aerr_rnd rnd u u_nonneg rnd_rel (aerr_mul Hn Hm)) as Hw.
    destruct (aerr_rnd rnd u u_nonneg rnd_rel (aerr_add Hd Hw)) as [H _].
    rewrite l2_fixed_form, (prefix_diff l s e Hse), (prefix_diff (sq l) s e Hse), sq_as_mult, <- map_slice.
    cbn [pow]. rewrite !Rmult_1_r.
    eapply Rle_trans; [exact H|]. right. ring.
  Qed.

  (** the common constant of parts A and B:  (1+u)^(k+1) (2 (1+u)^e - 1) - 1 <= (2.04 e + 6) u
      for k <= 4 *)
  Lemma consts2_small e k :
    (k <= 4)%nat -> u <= 1 / 100 -> INR e * u <= 1 / 100 ->
    (1 + hh u e) * (1 + u) ^ k - 1 <= (204 / 100 * INR e + 6) * u.
  Proof.
    intros Hk Hu Hsmall. destruct (two_g_small u u_nonneg e Hsmall) as [G1 _].
    pose proof (consts_small u u_nonneg _ _ e (S k) G1 ltac:(lra) ltac:(lia) Hu Hsmall) as H.
    pose proof (le_INR (S k) 5 ltac:(lia)) as HSk. change (INR 5) with (1 + 1 + 1 + 1 + 1) in HSk.
    pose proof (Rmult_le_compat_r _ _ _ u_nonneg HSk).
    pose proof (Rmult_le_pos _ _ (pos_INR e) u_nonneg).
    replace ((1 + hh u e) * (1 + u) ^ k) with ((1 + 2 * g u e) * (1 + u) ^ S k)
      by (unfold hh; cbn [pow]; ring).
    lra.
  Qed.

  (** A1 (abstract): K = 2.04 e + 6 *)
  Theorem l2_fixed_float_error mu l s e :
    (s <= e)%nat -> u <= 1 / 100 -> INR e * u <= 1 / 100 ->
    Rabs (l2_fixed_float mu l s e - l2_cost_fixed_R (prefix l) (prefix (sq l)) mu s e)
      <= (204 / 100 * INR e + 6) * u
         * (sumR (map (fun x => x * x) (firstn e l))
            + 2 * Rabs mu * sumR (map Rabs (firstn e l))
            + INR (e - s) * mu ^ 2).
  Proof.
    intros Hse Hu Hsmall.
    pose proof (l2_fixed_float_error_sharp mu l s e Hse) as H.
    pose proof (consts2_small e 3 ltac:(lia) Hu Hsmall) as H3.
    pose proof (consts2_small e 4 ltac:(lia) Hu Hsmall) as H4.
    pose proof (consts_small u u_nonneg 1 0 e 3 ltac:(lra) (Rle_refl 0) ltac:(lia) Hu Hsmall) as H0.
    cbn [INR] in H0.
    assert (H0' : (1 + u) ^ 3 - 1 <= (204 / 100 * INR e + 6) * u)
      by (pose proof (Rmult_le_pos _ _ (pos_INR e) u_nonneg); lra).
    pose proof (sumR_map_nonneg (fun x => x * x) (firstn e l) sqr_nonneg) as HM2.
    assert (HT : 0 <= 2 * Rabs mu * sumR (map Rabs (firstn e l))).
    { apply Rmult_le_pos; [pose proof (Rabs_pos mu); lra|apply sumR_abs_nonneg]. }
    assert (HW : 0 <= INR (e - s) * mu ^ 2) by (apply Rmult_le_pos; [apply pos_INR|apply pow2_ge_0]).
    pose proof (Rmult_le_compat_r _ _ _ HM2 H3). pose proof (Rmult_le_compat_r _ _ _ HT H4).
    pose proof (Rmult_le_compat_r _ _ _ HW H0'). lra.
  Qed.

  (** ** B1. The CUSUM score *)

  (** the square root of a perturbed non-negative real *)
  Lemma sqrt_rel_err z Z :
    u <= 1 -> 0 <= Z -> Rabs (z - Z) <= u * Z -> Rabs (sqrt z - sqrt Z) <= u * sqrt Z.
  Proof.
    intros Hu HZ Hz.
    destruct (Rle_lt_or_eq_dec 0 Z HZ) as [Hpos|Hzero].
    - assert (Hz0 : 0 <= z).
      { apply Rabs_le_both in Hz. assert (u * Z <= 1 * Z) by (apply Rmult_le_compat_r; lra). lra. }
      pose proof (sqrt_sqrt z Hz0) as Hsz. pose proof (sqrt_sqrt Z HZ) as HsZ.
      pose proof (sqrt_pos z) as Hsz0. pose proof (sqrt_lt_R0 Z Hpos) as HsZ0.
      set (a := sqrt z) in *. set (b := sqrt Z) in *.
      assert (Hprod : Rabs (a - b) * (a + b) <= u * b * b).
      { rewrite <- (Rabs_pos_eq (a + b)) at 1 by lra. rewrite <- Rabs_mult.
        replace ((a - b) * (a + b)) with (z - Z) by (rewrite <- Hsz, <- HsZ; ring).
        rewrite <- HsZ in Hz at 2. lra. }
      pose proof (Rabs_pos (a - b)) as HD. set (D := Rabs (a - b)) in *.
      destruct (Rle_lt_dec D (u * b)) as [Hok|Hbad]; [exact Hok|exfalso].
      assert (H1 : u * b * b < D * b) by (apply Rmult_lt_compat_r; assumption).
      assert (H2 : 0 <= D * a) by (apply Rmult_le_pos; assumption).
      lra.
    - subst Z. rewrite Rmult_0_r in Hz.
      assert (Hz0 : z = 0).
      { apply Rabs_le_both in Hz. lra. }
      subst z. replace (sqrt 0 - sqrt 0) with 0 by ring. rewrite Rabs_R0, sqrt_0. lra.
  Qed.

  (** a weight fl (sqrt (fl Z)) against sqrt Z *)
  Lemma weight_err Z :
    u <= 1 -> 0 <= Z ->
    Rabs (rnd (sqrt (rnd Z)) - sqrt Z) <= ((1 + u) * (1 + u) - 1) * sqrt Z
    /\ Rabs (sqrt Z) <= sqrt Z.
  Proof.
    intros Hu HZ.
    pose proof (rnd_rel Z) as Hr. rewrite (Rabs_pos_eq Z HZ) in Hr.
    pose proof (sqrt_rel_err (rnd Z) Z Hu HZ Hr) as Hs.
    assert (HS : Rabs (sqrt Z) <= sqrt Z) by (rewrite (Rabs_pos_eq _ (sqrt_pos Z)); lra).
    refine (aerr_weaken _ _ (aerr_rnd rnd u u_nonneg rnd_rel (conj Hs HS)) _ (Rle_refl _)).
    right. ring.
  Qed.

  (** the exact weights *)
  Definition cusum_bw (s k e : nat) : R := sqrt (INR (e - k) / INR ((e - s) * (k - s))).
  Definition cusum_aw (s k e : nat) : R := sqrt (INR (k - s) / INR ((e - s) * (e - k))).

  (** through the normal form [cusum_form] of Proofs/ScoreKernels.v, which does not depend on how the generated kernel writes the total length *)
  Lemma cusum_score_R_weights S1 s k e : (s < k)%nat -> (k < e)%nat ->
    cusum_score_R S1 s k e
    = Rabs (cusum_bw s k e * (S1 k - S1 s) - cusum_aw s k e * (S1 e - S1 k)).
  Proof.
    intros Hsk Hke. rewrite (ScoreKernels.cusum_form S1 s k e Hsk Hke). unfold cusum_bw, cusum_aw.
    rewrite !mult_INR. rewrite (ScoreKernels.len_split s k e) by lia. reflexivity.
  Qed.

  (** the score, in exactly the operation order of [cusum_F]; every operation rounded
      (the integer products (e - s) * (k - s), (e - s) * (e - k) are exact; [abs] is exact) *)
  Definition cusum_float (l : list R) (s k e : nat) : R :=
    let bw := rnd (sqrt (rnd (INR (e - k) / INR ((e - s) * (k - s))))) in
    let aw := rnd (sqrt (rnd (INR (k - s) / INR ((e - s) * (e - k))))) in
    let before := rnd (fprefix rnd l k - fprefix rnd l s) in
    let after := rnd (fprefix rnd l e - fprefix rnd l k) in
    Rabs (rnd (rnd (bw * before) - rnd (aw * after))).

  Lemma ratio_nonneg (a b : nat) : (0 < b)%nat -> 0 <= INR a / INR b.
  Proof.
    intros Hb. apply Rmult_le_pos; [apply pos_INR|].
    left. apply Rinv_0_lt_compat. apply lt_0_INR. exact Hb.
  Qed.

  (** B1, sharp form: relative error (1+u)^5 (2 (1+u)^e - 1) - 1 on (bw + aw) * (sum of |x_i|
      over the prefix 0 .. e-1) *)
  Theorem cusum_float_error_sharp l s k e :
    (s < k)%nat -> (k < e)%nat -> u <= 1 ->
    Rabs (cusum_float l s k e - cusum_score_R (prefix l) s k e)
      <= ((1 + hh u e) * (1 + u) ^ 4 - 1)
         * (cusum_bw s k e * sumR (map Rabs (firstn e l))
            + cusum_aw s k e * sumR (map Rabs (firstn e l))).
  Proof.
    intros Hsk Hke Hu.
    pose proof (fdiff_aerr rnd u u_nonneg rnd_rel l s k e ltac:(lia)) as Hbf.
    pose proof (fdiff_aerr rnd u u_nonneg rnd_rel l k e e ltac:(lia)) as Haf.
    pose proof (weight_err _ Hu (ratio_nonneg (e - k) ((e - s) * (k - s)) ltac:(nia))) as Hbw.
    pose proof (weight_err _ Hu (ratio_nonneg (k - s) ((e - s) * (e - k)) ltac:(nia))) as Haw.
    pose proof (aerr_rnd rnd u u_nonneg rnd_rel (aerr_mul Hbw Hbf)) as Hpb.
    pose proof (aerr_rnd rnd u u_nonneg rnd_rel (aerr_mul Haw Haf)) as Hpa.
    destruct (aerr_rnd rnd u u_nonneg rnd_rel (aerr_sub Hpb Hpa)) as [H _].
    rewrite (cusum_score_R_weights _ s k e Hsk Hke), (prefix_diff l s k), (prefix_diff l k e) by lia.
    unfold cusum_float.
    eapply Rle_trans; [apply Rabs_triang_inv2|]. eapply Rle_trans; [exact H|].
    right. unfold cusum_bw, cusum_aw. ring.
  Qed.

  (** B1 (abstract): K = 2.04 e + 6 *)
  Theorem cusum_float_error l s k e :
    (s < k)%nat -> (k < e)%nat -> u <= 1 / 100 -> INR e * u <= 1 / 100 ->
    Rabs (cusum_float l s k e - cusum_score_R (prefix l) s k e)
      <= (204 / 100 * INR e + 6) * u
         * (cusum_bw s k e * sumR (map Rabs (firstn e l))
            + cusum_aw s k e * sumR (map Rabs (firstn e l))).
  Proof.
    intros Hsk Hke Hu Hsmall.
    pose proof (cusum_float_error_sharp l s k e Hsk Hke ltac:(lra)) as H.
    pose proof (sumR_abs_nonneg (firstn e l)) as HM1.
    assert (HS : 0 <= cusum_bw s k e * sumR (map Rabs (firstn e l))
                      + cusum_aw s k e * sumR (map Rabs (firstn e l))).
    { apply Rplus_le_le_0_compat; (apply Rmult_le_pos; [apply sqrt_pos|exact HM1]). }
    pose proof (Rmult_le_compat_r _ _ _ HS (consts2_small e 4 (le_n 4) Hu Hsmall)). lra.
  Qed.

End Abstract2.

(** * The Flocq instance (FLX, precision 53) *)

Lemma u53_le_hundredth : u53 <= 1 / 100.
Proof. rewrite u53_value. lra. Qed.

Definition l2_fixed_float53 : R -> list R -> nat -> nat -> R := l2_fixed_float rnd53.
Definition cusum_float53 : list R -> nat -> nat -> nat -> R := cusum_float rnd53.

(** the definitions, spelled out *)
Lemma l2_fixed_float53_unfold mu l s e :
  l2_fixed_float53 mu l s e =
    let S1 := fprefix53 l in
    let S2 := fprefix53 (map (fun x => rnd53 (x * x)) l) in
    let a := rnd53 (S1 e - S1 s) in
    let b := rnd53 (S2 e - S2 s) in
    rnd53 (rnd53 (b - rnd53 (rnd53 (2 * mu) * a)) + rnd53 (INR (e - s) * rnd53 (mu * mu))).
Proof. reflexivity. Qed.

Lemma cusum_float53_unfold l s k e :
  cusum_float53 l s k e =
    let S1 := fprefix53 l in
    let bw := rnd53 (sqrt (rnd53 (INR (e - k) / INR ((e - s) * (k - s))))) in
    let aw := rnd53 (sqrt (rnd53 (INR (k - s) / INR ((e - s) * (e - k))))) in
    let before := rnd53 (S1 k - S1 s) in
    let after := rnd53 (S1 e - S1 k) in
    Rabs (rnd53 (rnd53 (bw * before) - rnd53 (aw * after))).
Proof. reflexivity. Qed.

(** the scale of the tolerance of the fixed-mean cost *)
Definition l2_fixed_scale (mu : R) (l : list R) (s e : nat) : R :=
  sumR (map (fun x => x * x) (firstn e l)) + 2 * Rabs mu * sumR (map Rabs (firstn e l))
  + INR (e - s) * mu ^ 2.

Lemma l2_fixed_scale_nonneg mu l s e : 0 <= l2_fixed_scale mu l s e.
Proof.
  unfold l2_fixed_scale.
  pose proof (sumR_map_nonneg (fun x => x * x) (firstn e l) sqr_nonneg).
  pose proof (Rmult_le_pos _ _ (Rabs_pos mu) (sumR_abs_nonneg (firstn e l))).
  pose proof (Rmult_le_pos _ _ (pos_INR (e - s)) (pow2_ge_0 mu)). lra.
Qed.

(** A1: K = 2.04 e + 6 *)
Theorem l2_fixed_float53_error mu l s e :
  (s <= e)%nat -> INR e * u53 <= 1 / 100 ->
  Rabs (l2_fixed_float53 mu l s e - l2_cost_fixed_R (prefix l) (prefix (sq l)) mu s e)
    <= (204 / 100 * INR e + 6) * u53 * l2_fixed_scale mu l s e.
Proof.
  intros Hse Hsmall.
  exact (l2_fixed_float_error rnd53 u53 u53_nonneg rnd53_rel mu l s e Hse u53_le_hundredth Hsmall).
Qed.

(** A1 against the statistic itself ([l2_fixed_is_sse], Proofs/CostKernels.v) *)
Corollary l2_fixed_float53_vs_sse mu l s e :
  (s <= e <= length l)%nat -> INR e * u53 <= 1 / 100 ->
  Rabs (l2_fixed_float53 mu l s e - sse mu (slice s e l))
    <= (204 / 100 * INR e + 6) * u53 * l2_fixed_scale mu l s e.
Proof.
  intros Hse Hsmall. rewrite <- (l2_fixed_is_sse l s e Hse mu).
  apply l2_fixed_float53_error; [lia|exact Hsmall].
Qed.

(** the tests' tolerance shape: at most two million samples in the prefix *)
Corollary l2_fixed_float53_tolerance mu l s e :
  (s <= e <= length l)%nat -> INR e <= 2000000 ->
  Rabs (l2_fixed_float53 mu l s e - sse mu (slice s e l))
    <= 1 / 1000000000 * l2_fixed_scale mu l s e.
Proof.
  intros Hse HeR.
  apply (tolerance_1e9 e _ (204 / 100) 6 _ HeR); [lra|lra|exact (l2_fixed_scale_nonneg mu l s e)|].
  exact (l2_fixed_float53_vs_sse mu l s e Hse).
Qed.

(** B1: K = 2.04 e + 6 *)
Theorem cusum_float53_error l s k e :
  (s < k)%nat -> (k < e)%nat -> INR e * u53 <= 1 / 100 ->
  Rabs (cusum_float53 l s k e - cusum_score_R (prefix l) s k e)
    <= (204 / 100 * INR e + 6) * u53
       * (cusum_bw s k e * sumR (map Rabs (firstn e l))
          + cusum_aw s k e * sumR (map Rabs (firstn e l))).
Proof.
  intros Hsk Hke Hsmall.
  exact (cusum_float_error rnd53 u53 u53_nonneg rnd53_rel l s k e Hsk Hke u53_le_hundredth Hsmall).
Qed.

(** * A2. The primitive-float program [l2_cost_fixed_F] refines the model *)

Lemma FR_two : FR 2%float = 2.
Proof.
  replace 2%float with (of_natF 2) by (vm_compute; reflexivity).
  rewrite FR_of_natF by reflexivity. cbn [INR]. ring.
Qed.

Lemma okD_fin x r : okD x r = true -> finF r = true.
Proof. intros H. exact (proj1 (andb_prop _ _ H)). Qed.

(** [l2_fixed_trace_ok mu l s e] re-runs the computation of [l2_cost_fixed_F mu l s e] and
    tests every intermediate value:
      - s <= e <= length l and e - s <= 2^30;
      - the inputs x_0 .. x_{e-1} are finite;
      - every square x_i * x_i (i < e) is finite, and x_i is zero or the square is above
        2^-1022 in magnitude;
      - every partial sum of both accumulations up to e is finite;
      - the differences a = S1[e] - S1[s], b = S2[e] - S2[s] are finite;
      - t = 2 * mu is finite and (mu is zero or |t| > 2^-1022);
      - c = t * a is finite and (t or a is zero or |c| > 2^-1022);
      - d = b - c is finite;
      - m = mu * mu is finite and (mu is zero or |m| > 2^-1022);
      - w = n * m is finite and (n or m is zero or |w| > 2^-1022);
      - the result d + w is finite.
    (A finite t forces a finite mu, so mu needs no test of its own.) *)
Definition l2_fixed_trace_ok (mu : pfloat) (l : list pfloat) (s e : nat) : bool :=
  let a := (prefixF l e - prefixF l s)%float in
  let b := (prefixF (sqF l) e - prefixF (sqF l) s)%float in
  let t := (2 * mu)%float in
  let c := (t * a)%float in
  let d := (b - c)%float in
  let m := (mu * mu)%float in
  let w := (of_natF (e - s) * m)%float in
  (s <=? e)%nat && (e <=? length l)%nat && (Z.of_nat (e - s) <=? 2 ^ 30)%Z
  && forallb finF (firstn e l)
  && forallb sq_ok (firstn e l)
  && acc_ok 0%float (firstn e l)
  && acc_ok 0%float (firstn e (sqF l))
  && finF a && finF b && okP 2%float mu t && okP t a c && finF d
  && okP mu mu m && okP (of_natF (e - s)) m w && finF (d + w).

Record l2_fixed_trace_spec (mu : pfloat) (l : list pfloat) (s e : nat) : Prop := {
  tf_le : (s <= e)%nat;
  tf_len : (e <= length l)%nat;
  tf_n : (Z.of_nat (e - s) <= 2 ^ 30)%Z;
  tf_fin : forallb finF (firstn e l) = true;
  tf_sq : forallb sq_ok (firstn e l) = true;
  tf_acc1 : acc_ok 0%float (firstn e l) = true;
  tf_acc2 : acc_ok 0%float (firstn e (sqF l)) = true;
  tf_a : finF (prefixF l e - prefixF l s) = true;
  tf_b : finF (prefixF (sqF l) e - prefixF (sqF l) s) = true;
  tf_t : okP 2%float mu (2 * mu) = true;
  tf_c : let a := (prefixF l e - prefixF l s)%float in okP (2 * mu) a ((2 * mu) * a) = true;
  tf_d : let a := (prefixF l e - prefixF l s)%float in
         let b := (prefixF (sqF l) e - prefixF (sqF l) s)%float in
         finF (b - (2 * mu) * a) = true;
  tf_m : okP mu mu (mu * mu) = true;
  tf_w : okP (of_natF (e - s)) (mu * mu) (of_natF (e - s) * (mu * mu)) = true;
  tf_r : let a := (prefixF l e - prefixF l s)%float in
         let b := (prefixF (sqF l) e - prefixF (sqF l) s)%float in
         finF ((b - (2 * mu) * a) + of_natF (e - s) * (mu * mu)) = true
}.

Lemma l2_fixed_trace_ok_spec mu l s e :
  l2_fixed_trace_ok mu l s e = true -> l2_fixed_trace_spec mu l s e.
Proof. unfold l2_fixed_trace_ok. split_trace_ok. Qed.

Theorem l2_cost_fixed_F_refines mu l s e :
  l2_fixed_trace_ok mu l s e = true ->
  FR (l2_cost_fixed_F mu l s e) = l2_fixed_float53 (FR mu) (map FR l) s e.
Proof.
  intros Hok.
  destruct (l2_fixed_trace_ok_spec mu l s e Hok)
    as [Hse Hlen Hn Hfin Hsq Hacc1 Hacc2 Ha Hb Ht Hc Hd Hm Hw Hr].
  pose proof (good_sub (prefixF_refines l e e (le_n e) Hfin Hacc1)
                       (prefixF_refines l e s Hse Hfin Hacc1) Ha) as Ga.
  pose proof (good_sub (prefixF_sq_refines l e e (le_n e) Hsq Hacc2)
                       (prefixF_sq_refines l e s Hse Hsq Hacc2) Hb) as Gb.
  pose proof (good_mul FR_two eq_refl Ht) as Gt.
  pose proof (good_mul (proj2 Gt) (proj2 Ga) Hc) as Gc.
  pose proof (good_sub Gb Gc Hd) as Gd.
  pose proof (good_mul eq_refl eq_refl Hm) as Gm.
  pose proof (good_mul (FR_of_natF_small _ Hn) (proj2 Gm) Hw) as Gw.
  exact (proj2 (good_add Gd Gw Hr)).
Qed.

Lemma l2_fixed_trace_ok_bounds mu l s e :
  l2_fixed_trace_ok mu l s e = true -> (s <= e <= length l)%nat.
Proof.
  intros Hok. apply l2_fixed_trace_ok_spec in Hok. destruct Hok. lia.
Qed.

(** the computed number against the sum of squared errors around the given mean *)
Theorem l2_cost_fixed_F_vs_sse mu l s e :
  l2_fixed_trace_ok mu l s e = true -> INR e * u53 <= 1 / 100 ->
  Rabs (FR (l2_cost_fixed_F mu l s e) - sse (FR mu) (slice s e (map FR l)))
    <= (204 / 100 * INR e + 6) * u53 * l2_fixed_scale (FR mu) (map FR l) s e.
Proof.
  intros Hok Hsmall. rewrite (l2_cost_fixed_F_refines mu l s e Hok).
  apply l2_fixed_float53_vs_sse; [|exact Hsmall].
  rewrite map_length. exact (l2_fixed_trace_ok_bounds mu l s e Hok).
Qed.

(** the same against the real-number kernel on exact prefix sums *)
Theorem l2_cost_fixed_F_vs_fixed_R mu l s e :
  l2_fixed_trace_ok mu l s e = true -> INR e * u53 <= 1 / 100 ->
  Rabs (FR (l2_cost_fixed_F mu l s e)
        - l2_cost_fixed_R (prefix (map FR l)) (prefix (sq (map FR l))) (FR mu) s e)
    <= (204 / 100 * INR e + 6) * u53 * l2_fixed_scale (FR mu) (map FR l) s e.
Proof.
  intros Hok Hsmall. rewrite (l2_cost_fixed_F_refines mu l s e Hok).
  apply l2_fixed_float53_error; [|exact Hsmall].
  exact (proj1 (l2_fixed_trace_ok_bounds mu l s e Hok)).
Qed.

(** the tests' tolerance shape: at most two million samples in the prefix *)
Corollary l2_cost_fixed_F_tolerance mu l s e :
  l2_fixed_trace_ok mu l s e = true -> INR e <= 2000000 ->
  Rabs (FR (l2_cost_fixed_F mu l s e) - sse (FR mu) (slice s e (map FR l)))
    <= 1 / 1000000000 * l2_fixed_scale (FR mu) (map FR l) s e.
Proof.
  intros Hok He. rewrite (l2_cost_fixed_F_refines mu l s e Hok).
  apply l2_fixed_float53_tolerance; [|exact He].
  rewrite map_length. exact (l2_fixed_trace_ok_bounds mu l s e Hok).
Qed.

(** non-vacuity *)
Example demo_fixed_trace_ok : l2_fixed_trace_ok 2.5%float demo_xs 1 7 = true.
Proof. vm_compute. reflexivity. Qed.

Example demo_fixed_trace_ok_zero_mean : l2_fixed_trace_ok 0%float demo_xs 0 8 = true.
Proof. vm_compute. reflexivity. Qed.

Example demo_fixed_trace_ok_empty : l2_fixed_trace_ok 2.5%float demo_xs 3 3 = true.
Proof. vm_compute. reflexivity. Qed.

(** rejected: an overflowing n * mu^2 and an underflowing mu^2 *)
Example demo_fixed_trace_overflow : l2_fixed_trace_ok 0x1p600%float demo_xs 1 7 = false.
Proof. vm_compute. reflexivity. Qed.

Example demo_fixed_trace_underflow : l2_fixed_trace_ok 0x1p-600%float demo_xs 1 7 = false.
Proof. vm_compute. reflexivity. Qed.

Example demo_fixed_refines :
  FR (l2_cost_fixed_F 2.5%float demo_xs 1 7) = l2_fixed_float53 (FR 2.5%float) (map FR demo_xs) 1 7.
Proof. apply l2_cost_fixed_F_refines. exact demo_fixed_trace_ok. Qed.

(** * B2. The primitive-float program [cusum_F] refines the model *)

(** square root: the first conjunct of Flocq's [Bsqrt_correct] is unconditional
    (a negative or NaN argument gives NaN, of real value 0 = sqrt of a negative real) *)
Theorem FR_sqrt x : FR (PrimFloat.sqrt x) = rnd_binary64 (sqrt (FR x)).
Proof.
  unfold FR. rewrite FP.sqrt_equiv.
  exact (proj1 (Bsqrt_correct prec emax FP.Hprec FP.Hmax mode_NE (FP.Prim2B x))).
Qed.

(** in the FLX model: the argument is zero or the computed root is finite and strictly
    above 2^-1022 (the test [okD], as for a quotient) *)
Theorem FR_sqrt53 x :
  okD x (PrimFloat.sqrt x) = true -> FR (PrimFloat.sqrt x) = rnd53 (sqrt (FR x)).
Proof.
  intros H. unfold okD in H. apply andb_prop in H. destruct H as [Hf Hc].
  apply (FR_rnd53 _ _ (FR_sqrt x) Hf).
  apply orb_prop in Hc. destruct Hc as [Hz|Hb]; [left|right; exact Hb].
  rewrite (is_zero_FR _ Hz). apply sqrt_0.
Qed.

Lemma good_sqrt {x rx} :
  FR x = rx -> okD x (PrimFloat.sqrt x) = true -> good (PrimFloat.sqrt x) (rnd53 (sqrt rx)).
Proof. intros <- H. exact (conj (proj1 (andb_prop _ _ H)) (FR_sqrt53 x H)). Qed.

(** the converted integer product of two lengths *)
Lemma of_prodF_of_natF a b : of_prodF a b = of_natF (a * b).
Proof. unfold of_prodF, of_ZF, of_natF. rewrite Nat2Z.inj_mul. reflexivity. Qed.

Lemma FR_of_prodF a b : (Z.of_nat (a * b) < 2 ^ 53)%Z -> FR (of_prodF a b) = INR (a * b).
Proof. intros H. rewrite of_prodF_of_natF. exact (FR_of_natF _ H). Qed.

Lemma FR_lengths a b n :
  (a <= n)%nat -> (b <= n)%nat -> (Z.of_nat n * Z.of_nat n <= 2 ^ 52)%Z ->
  FR (of_natF b) = INR b /\ FR (of_prodF a b) = INR (a * b).
Proof.
  intros Ha Hb Hn. split; [apply FR_of_natF|apply FR_of_prodF; rewrite Nat2Z.inj_mul]; nia.
Qed.

(** [cusum_trace_ok l s k e] re-runs the computation of [cusum_F l s k e] and tests every
    intermediate value:
      - s < k < e <= length l and (e - s)^2 <= 2^52 (so both integer products convert exactly);
      - the inputs x_0 .. x_{e-1} are finite and every partial sum up to e is finite;
      - the differences before = S1[k] - S1[s], after = S1[e] - S1[k] are finite;
      - the two quotients zb = na / (n nb), za = nb / (n na) are finite and above 2^-1022;
      - the two roots bw = sqrt zb, aw = sqrt za are finite and above 2^-1022;
      - the products bw * before, aw * after are finite and (a factor is zero or the product
        is above 2^-1022 in magnitude);
      - their difference is finite. *)
Definition cusum_trace_ok (l : list pfloat) (s k e : nat) : bool :=
  let nb := of_natF (k - s) in
  let na := of_natF (e - k) in
  let zb := (na / of_prodF (e - s) (k - s))%float in
  let za := (nb / of_prodF (e - s) (e - k))%float in
  let bw := PrimFloat.sqrt zb in
  let aw := PrimFloat.sqrt za in
  let bf := (prefixF l k - prefixF l s)%float in
  let af := (prefixF l e - prefixF l k)%float in
  let pb := (bw * bf)%float in
  let pa := (aw * af)%float in
  (s <? k)%nat && (k <? e)%nat && (e <=? length l)%nat
  && (Z.of_nat (e - s) * Z.of_nat (e - s) <=? 2 ^ 52)%Z
  && forallb finF (firstn e l)
  && acc_ok 0%float (firstn e l)
  && finF bf && finF af
  && okD na zb && okD nb za && okD zb bw && okD za aw
  && okP bw bf pb && okP aw af pa && finF (pb - pa).

Record cusum_trace_spec (l : list pfloat) (s k e : nat) : Prop := {
  tc_sk : (s < k)%nat;
  tc_ke : (k < e)%nat;
  tc_len : (e <= length l)%nat;
  tc_n : (Z.of_nat (e - s) * Z.of_nat (e - s) <= 2 ^ 52)%Z;
  tc_fin : forallb finF (firstn e l) = true;
  tc_acc : acc_ok 0%float (firstn e l) = true;
  tc_bf : finF (prefixF l k - prefixF l s) = true;
  tc_af : finF (prefixF l e - prefixF l k) = true;
  tc_zb : okD (of_natF (e - k)) (of_natF (e - k) / of_prodF (e - s) (k - s)) = true;
  tc_za : okD (of_natF (k - s)) (of_natF (k - s) / of_prodF (e - s) (e - k)) = true;
  tc_bw : okD (of_natF (e - k) / of_prodF (e - s) (k - s)) (cusum_bwF s k e) = true;
  tc_aw : okD (of_natF (k - s) / of_prodF (e - s) (e - k)) (cusum_awF s k e) = true;
  tc_pb : let bf := (prefixF l k - prefixF l s)%float in
          okP (cusum_bwF s k e) bf (cusum_bwF s k e * bf) = true;
  tc_pa : let af := (prefixF l e - prefixF l k)%float in
          okP (cusum_awF s k e) af (cusum_awF s k e * af) = true;
  tc_r : let bf := (prefixF l k - prefixF l s)%float in
         let af := (prefixF l e - prefixF l k)%float in
         finF (cusum_bwF s k e * bf - cusum_awF s k e * af) = true
}.

Lemma cusum_trace_ok_spec l s k e : cusum_trace_ok l s k e = true -> cusum_trace_spec l s k e.
Proof. unfold cusum_trace_ok. split_trace_ok. Qed.

Theorem cusum_F_refines l s k e :
  cusum_trace_ok l s k e = true ->
  FR (cusum_F l s k e) = cusum_float53 (map FR l) s k e.
Proof.
  intros Hok.
  destruct (cusum_trace_ok_spec l s k e Hok)
    as [Hsk Hke Hlen Hn Hfin Hacc Hbf Haf Hzb Hza Hbw Haw Hpb Hpa Hr].
  pose proof (prefixF_refines l e e (le_n e) Hfin Hacc) as Ge.
  pose proof (prefixF_refines l e k ltac:(lia) Hfin Hacc) as Gk.
  pose proof (prefixF_refines l e s ltac:(lia) Hfin Hacc) as Gs.
  destruct (FR_lengths (e - s) (k - s) _ (le_n _) ltac:(lia) Hn) as [Rnb Rdb].
  destruct (FR_lengths (e - s) (e - k) _ (le_n _) ltac:(lia) Hn) as [Rna Rda].
  pose proof (good_div Rna Rdb (not_0_INR ((e - s) * (k - s)) ltac:(nia)) Hzb) as Gzb.
  pose proof (good_div Rnb Rda (not_0_INR ((e - s) * (e - k)) ltac:(nia)) Hza) as Gza.
  pose proof (good_mul (proj2 (good_sqrt (proj2 Gzb) Hbw)) (proj2 (good_sub Gk Gs Hbf)) Hpb) as Gpb.
  pose proof (good_mul (proj2 (good_sqrt (proj2 Gza) Haw)) (proj2 (good_sub Ge Gk Haf)) Hpa) as Gpa.
  exact (eq_trans (FR_abs _) (f_equal Rabs (proj2 (good_sub Gpb Gpa Hr)))).
Qed.

Lemma cusum_trace_ok_bounds l s k e :
  cusum_trace_ok l s k e = true -> (s < k)%nat /\ (k < e)%nat /\ (e <= length l)%nat.
Proof.
  intros Hok. apply cusum_trace_ok_spec in Hok. destruct Hok. lia.
Qed.

(** the computed score against the real-number kernel on exact prefix sums *)
Theorem cusum_F_vs_score_R l s k e :
  cusum_trace_ok l s k e = true -> INR e * u53 <= 1 / 100 ->
  Rabs (FR (cusum_F l s k e) - cusum_score_R (prefix (map FR l)) s k e)
    <= (204 / 100 * INR e + 6) * u53
       * (cusum_bw s k e * sumR (map Rabs (firstn e (map FR l)))
          + cusum_aw s k e * sumR (map Rabs (firstn e (map FR l)))).
Proof.
  intros Hok Hsmall. rewrite (cusum_F_refines l s k e Hok).
  destruct (cusum_trace_ok_bounds l s k e Hok) as [Hsk [Hke _]].
  apply cusum_float53_error; assumption.
Qed.

(** non-vacuity *)
Example demo_cusum_trace_ok : cusum_trace_ok demo_xs 1 4 7 = true.
Proof. vm_compute. reflexivity. Qed.

(** a zero segment sum is accepted (the zero clause of the product test) *)
Example demo_cusum_trace_ok_zero : cusum_trace_ok [1; -1; 2; 3]%float 0 2 4 = true.
Proof. vm_compute. reflexivity. Qed.

(** rejected: an overflowing accumulation, an underflowing product *)
Example demo_cusum_trace_overflow : cusum_trace_ok [0x1p1023; 0x1p1023; 1]%float 0 1 3 = false.
Proof. vm_compute. reflexivity. Qed.

Example demo_cusum_trace_underflow : cusum_trace_ok [0x1p-1030; 1; 2]%float 0 1 3 = false.
Proof. vm_compute. reflexivity. Qed.

Example demo_cusum_refines :
  FR (cusum_F demo_xs 1 4 7) = cusum_float53 (map FR demo_xs) 1 4 7.
Proof. apply cusum_F_refines. exact demo_cusum_trace_ok. Qed.

Print Assumptions l2_fixed_float53_error.
Print Assumptions l2_fixed_float53_vs_sse.
Print Assumptions l2_cost_fixed_F_refines.
Print Assumptions l2_cost_fixed_F_vs_sse.
Print Assumptions cusum_float53_error.
Print Assumptions FR_sqrt.
Print Assumptions cusum_F_refines.
Print Assumptions cusum_F_vs_score_R.
Print Assumptions demo_fixed_trace_ok.
Print Assumptions demo_cusum_trace_ok.
