(** The L2 SAVING kernel in the style of Proofs/FloatError.v + Proofs/FloatRefine.v + Proofs/FloatKernels2.v:

        saving = (S1[e] - S1[s]) ** 2 / n          n = e - s,  S1 = sequential cumsum of x with a leading zero

    in the code's operation order  [l2_saving_F]  (Check/FloatSavingCheck.v):
        a = fl (S1[e] - S1[s]),   p = fl (a * a),   saving = fl (p / n).
    Over the reals this is [l2_saving_R] (Gen/KernelsR.v, regenerated from the Python source).

    MODEL OF FLOATING POINT: as in Proofs/FloatError.v (Flocq FLX, precision 53, round to nearest even,
    unbounded exponent range: [rnd53], [u53] = 2^-53).  Part 1 is first carried out for ANY rounding
    function with |rnd x - x| <= u |x|, 0 <= u.

    Notation:  M1 = sum of |x_i| over the WHOLE prefix 0 .. e-1,  n = e - s.

    1 [l2_saving_float_error_sharp]  s < e  ==>
          |l2_saving_float l s e - l2_saving_R (prefix l) s e| <= ((1+u)^4 (2 (1+u)^e - 1)^2 - 1) M1^2 / n
      [l2_saving_float53_error]      s < e,  e u <= 1/100  ==>
          |l2_saving_float53 l s e - l2_saving_R (prefix l) s e| <= (4.2 e + 5) u M1^2 / n
          (e <= length l is not needed: [firstn], [prefix] saturate at the length of the list)
      [l2_saving_float53_tolerance]  e <= 2 000 000  ==>  error <= 1e-9 M1^2 / n
    2 [l2_saving_trace_ok] (boolean checker), [l2_saving_F_refines]:
          l2_saving_trace_ok l s e = true -> FR (l2_saving_F l s e) = l2_saving_float53 (map FR l) s e
    3 [l2_saving_F_vs_R]  the computed number against [l2_saving_R] on the exact prefix sums of the data,
      [l2_saving_F_tolerance], [l2_saving_F_nonneg] (the computed saving is >= 0).
    4 non-vacuity: [demo_saving_trace_ok] and friends. *)
From Coq Require Import Reals List Bool Floats Psatz.
From Flocq Require Import Core.
From SK Require Import Gen.KernelsR Proofs.RealLib Proofs.ScoreKernels Proofs.FloatError
                       Check.FloatKernelCheck Check.FloatSavingCheck Proofs.FloatRefine.
Import ListNotations.

Local Open Scope R_scope.
Local Instance prec53_gt_0'' : Prec_gt_0 53 := eq_refl.

(** * 1 (abstract): the standard model, any rounding function *)

Section AbstractSaving.
  Variable rnd : R -> R.
  Variable u : R.
  Hypothesis u_nonneg : 0 <= u.
  Hypothesis rnd_rel : forall x, Rabs (rnd x - x) <= u * Rabs x.

  (** the saving, in exactly the operation order of [l2_saving_F]: a rounding after each step of
      the cumulative sum, after the subtraction, after the product and after the division
      (the integer n = e - s is exact) *)
  Definition l2_saving_float (l : list R) (s e : nat) : R :=
    let a := rnd (fprefix rnd l e - fprefix rnd l s) in
    rnd (rnd (a * a) / INR (e - s)).

  (** sharp form: relative error (1 + hh e)^2 (1+u)^2 - 1 = (1+u)^4 (2 (1+u)^e - 1)^2 - 1
      on (sum of |x_i| over the prefix)^2 / n *)
  Theorem l2_saving_float_error_sharp l s e :
    (s < e)%nat ->
    Rabs (l2_saving_float l s e - l2_saving_R (prefix l) s e)
      <= ((1 + hh u e) ^ 2 * (1 + u) ^ 2 - 1)
         * ((sumR (map Rabs (firstn e l))) ^ 2 / INR (e - s)).
  Proof.
    intros Hlt. assert (Hn : 0 < INR (e - s)) by (apply lt_0_INR; lia).
    pose proof (fdiff_aerr rnd u u_nonneg rnd_rel l s e e ltac:(lia)) as Ha.
    destruct (aerr_rnd rnd u u_nonneg rnd_rel
                (aerr_div _ Hn (aerr_rnd rnd u u_nonneg rnd_rel (aerr_mul Ha Ha)))) as [H _].
    rewrite l2_saving_form, (prefix_diff l s e) by lia. cbn [pow]. rewrite Rmult_1_r.
    eapply Rle_trans; [exact H|]. right. unfold Rdiv. ring.
  Qed.

  (** the relative error under the smallness hypothesis:
      (1+u)^4 (2 (1+u)^e - 1)^2 - 1 <= (4.2 e + 5) u *)
  Lemma saving_const_small e :
    (0 < e)%nat -> INR e * u <= 1 / 100 ->
    (1 + hh u e) ^ 2 * (1 + u) ^ 2 - 1 <= (42 / 10 * INR e + 5) * u.
  Proof.
    intros He Hsmall. pose proof (u_le_eu u u_nonneg e He) as Hu.
    destruct (two_g_small u u_nonneg e Hsmall) as [_ G2].
    pose proof (consts_small u u_nonneg _ _ e 4 G2 ltac:(lra) ltac:(lia) ltac:(lra) Hsmall) as H.
    cbn [INR] in H.
    replace ((1 + hh u e) ^ 2 * (1 + u) ^ 2) with ((1 + 2 * g u e) ^ 2 * (1 + u) ^ 4)
      by (unfold hh; ring).
    lra.
  Qed.

  (** K = 4.2 e + 5.  [e <= length l] is not needed. *)
  Theorem l2_saving_float_error l s e :
    (s < e)%nat -> INR e * u <= 1 / 100 ->
    Rabs (l2_saving_float l s e - l2_saving_R (prefix l) s e)
      <= (42 / 10 * INR e + 5) * u * ((sumR (map Rabs (firstn e l))) ^ 2 / INR (e - s)).
  Proof.
    intros Hlt Hsmall.
    pose proof (l2_saving_float_error_sharp l s e Hlt) as H.
    pose proof (Rmult_le_compat_r _ _ _
                  (sq_div_nonneg (sumR (map Rabs (firstn e l))) (e - s) ltac:(lia))
                  (saving_const_small e ltac:(lia) Hsmall)).
    lra.
  Qed.

End AbstractSaving.

(** * 1. The Flocq instance (FLX, precision 53) *)

Definition l2_saving_float53 : list R -> nat -> nat -> R := l2_saving_float rnd53.

(** the definition, spelled out *)
Lemma l2_saving_float53_unfold xs s e :
  l2_saving_float53 xs s e =
    let S1 := fprefix53 xs in
    let a := rnd53 (S1 e - S1 s) in
    rnd53 (rnd53 (a * a) / INR (e - s)).
Proof. reflexivity. Qed.

(** the scale of the tolerance: (sum of |x_i| over the prefix 0 .. e-1)^2 / n *)
Definition l2_saving_scale (xs : list R) (s e : nat) : R :=
  (sumR (map Rabs (firstn e xs))) ^ 2 / INR (e - s).

Lemma l2_saving_scale_nonneg xs s e : (s < e)%nat -> 0 <= l2_saving_scale xs s e.
Proof.
  intros Hlt. apply sq_div_nonneg. lia.
Qed.

(** sharp form, no smallness hypothesis *)
Theorem l2_saving_float53_error_sharp xs s e :
  (s < e)%nat ->
  Rabs (l2_saving_float53 xs s e - l2_saving_R (prefix xs) s e)
    <= ((1 + u53) ^ 4 * (2 * (1 + u53) ^ e - 1) ^ 2 - 1)
       * ((sumR (map Rabs (firstn e xs))) ^ 2 / INR (e - s)).
Proof.
  intros Hlt.
  pose proof (l2_saving_float_error_sharp rnd53 u53 u53_nonneg rnd53_rel xs s e Hlt) as H.
  replace ((1 + u53) ^ 4 * (2 * (1 + u53) ^ e - 1) ^ 2)
    with ((1 + hh u53 e) ^ 2 * (1 + u53) ^ 2) by (unfold hh, g; ring).
  exact H.
Qed.

(** the error theorem: K = 4.2 e + 5 *)
Theorem l2_saving_float53_error xs s e :
  (s < e)%nat -> INR e * u53 <= 1 / 100 ->
  Rabs (l2_saving_float53 xs s e - l2_saving_R (prefix xs) s e)
    <= (42 / 10 * INR e + 5) * u53 * ((sumR (map Rabs (firstn e xs))) ^ 2 / INR (e - s)).
Proof.
  intros Hlt Hsmall.
  exact (l2_saving_float_error rnd53 u53 u53_nonneg rnd53_rel xs s e Hlt Hsmall).
Qed.

(** the same with the hypothesis [e <= length xs] one would expect (it is not needed) and the
    quotient written at the outside *)
Corollary l2_saving_float53_error' xs s e :
  (s < e <= length xs)%nat -> INR e * u53 <= 1 / 100 ->
  Rabs (l2_saving_float53 xs s e - l2_saving_R (prefix xs) s e)
    <= (42 / 10 * INR e + 5) * u53 * (sumR (map Rabs (firstn e xs))) ^ 2 / INR (e - s).
Proof.
  intros Hse Hsmall.
  pose proof (l2_saving_float53_error xs s e (proj1 Hse) Hsmall) as H.
  unfold Rdiv in *. rewrite <- Rmult_assoc in H. exact H.
Qed.

(** the tests' tolerance shape: at most two million samples in the prefix *)
Corollary l2_saving_float53_tolerance xs s e :
  (s < e)%nat -> INR e <= 2000000 ->
  Rabs (l2_saving_float53 xs s e - l2_saving_R (prefix xs) s e)
    <= 1 / 1000000000 * l2_saving_scale xs s e.
Proof.
  intros Hlt HeR.
  apply (tolerance_1e9 e _ (42 / 10) 5 _ HeR); [lra|lra|exact (l2_saving_scale_nonneg xs s e Hlt)|].
  exact (l2_saving_float53_error xs s e Hlt).
Qed.

(** the rounded saving is non-negative in the model itself (rounding is monotone and rnd53 0 = 0) *)
Lemma rnd53_nonneg x : 0 <= x -> 0 <= rnd53 x.
Proof.
  intros Hx. unfold rnd53.
  rewrite <- (round_0 radix2 (FLX_exp 53) ZnearestE).
  apply round_le; auto with typeclass_instances.
Qed.

Theorem l2_saving_float53_nonneg xs s e : 0 <= l2_saving_float53 xs s e.
Proof.
  rewrite l2_saving_float53_unfold. cbv zeta.
  apply rnd53_nonneg. apply Rmult_le_pos.
  - apply rnd53_nonneg. apply sqr_nonneg.
  - destruct (Nat.eq_dec (e - s) 0) as [H0|H0].
    + rewrite H0. cbn [INR]. rewrite Rinv_0. lra.
    + left. apply Rinv_0_lt_compat. apply lt_0_INR. lia.
Qed.

(** * 2. The primitive-float program [l2_saving_F] refines the model *)

(** [l2_saving_trace_ok l s e] re-runs the computation of [l2_saving_F l s e] and tests every
    intermediate value:
      - s < e <= length l and e - s <= 2^30 (so the length converts exactly);
      - the inputs x_0 .. x_{e-1} are finite and every partial sum up to e is finite;
      - the difference a = S1[e] - S1[s] is finite;
      - p = a * a is finite and (a is zero or |p| > 2^-1022);
      - the result q = p / n is finite and (p is zero or |q| > 2^-1022). *)
Definition l2_saving_trace_ok (l : list pfloat) (s e : nat) : bool :=
  let a := (prefixF l e - prefixF l s)%float in
  let p := (a * a)%float in
  let q := (p / of_natF (e - s))%float in
  (s <? e)%nat && (e <=? length l)%nat && (Z.of_nat (e - s) <=? 2 ^ 30)%Z
  && forallb finF (firstn e l)
  && acc_ok 0%float (firstn e l)
  && finF a && okP a a p && okD p q.

Record l2_saving_trace_spec (l : list pfloat) (s e : nat) : Prop := {
  tsv_lt : (s < e)%nat;
  tsv_len : (e <= length l)%nat;
  tsv_n : (Z.of_nat (e - s) <= 2 ^ 30)%Z;
  tsv_fin : forallb finF (firstn e l) = true;
  tsv_acc : acc_ok 0%float (firstn e l) = true;
  tsv_a : finF (prefixF l e - prefixF l s) = true;
  tsv_p : let a := (prefixF l e - prefixF l s)%float in okP a a (a * a) = true;
  tsv_q : let a := (prefixF l e - prefixF l s)%float in
          okD (a * a) ((a * a) / of_natF (e - s)) = true
}.

Lemma l2_saving_trace_ok_spec l s e :
  l2_saving_trace_ok l s e = true -> l2_saving_trace_spec l s e.
Proof. unfold l2_saving_trace_ok. split_trace_ok. Qed.

Theorem l2_saving_F_refines l s e :
  l2_saving_trace_ok l s e = true ->
  FR (l2_saving_F l s e) = l2_saving_float53 (map FR l) s e.
Proof.
  intros Hok.
  destruct (l2_saving_trace_ok_spec l s e Hok) as [Hlt Hlen Hn Hfin Hacc Ha Hp Hq].
  pose proof (good_sub (prefixF_refines l e e (le_n e) Hfin Hacc)
                       (prefixF_refines l e s ltac:(lia) Hfin Hacc) Ha) as Ga.
  exact (proj2 (good_div (proj2 (good_mul (proj2 Ga) (proj2 Ga) Hp)) (FR_of_natF_small _ Hn)
                         (not_0_INR (e - s) ltac:(lia)) Hq)).
Qed.

Lemma l2_saving_trace_ok_bounds l s e :
  l2_saving_trace_ok l s e = true -> (s < e <= length l)%nat.
Proof.
  intros Hok. apply l2_saving_trace_ok_spec in Hok. destruct Hok. lia.
Qed.

(** the result accepted by the checker is a finite binary64 number *)
Lemma l2_saving_trace_ok_finite l s e :
  l2_saving_trace_ok l s e = true -> finF (l2_saving_F l s e) = true.
Proof.
  intros Hok. apply l2_saving_trace_ok_spec in Hok. destruct Hok as [_ _ _ _ _ _ _ Hq].
  cbv zeta in Hq. unfold okD in Hq. apply andb_true_iff in Hq. exact (proj1 Hq).
Qed.

(** * 3. The computed number against the real-number kernel *)

(** chained: the binary64 value of the twin against [l2_saving_R] on the EXACT prefix sums of the data *)
Theorem l2_saving_F_vs_R l s e :
  l2_saving_trace_ok l s e = true -> INR e * u53 <= 1 / 100 ->
  Rabs (FR (l2_saving_F l s e) - l2_saving_R (prefix (map FR l)) s e)
    <= (42 / 10 * INR e + 5) * u53
       * ((sumR (map Rabs (firstn e (map FR l)))) ^ 2 / INR (e - s)).
Proof.
  intros Hok Hsmall. rewrite (l2_saving_F_refines l s e Hok).
  apply l2_saving_float53_error; [|exact Hsmall].
  exact (proj1 (l2_saving_trace_ok_bounds l s e Hok)).
Qed.

(** the tests' tolerance shape: at most two million samples in the prefix *)
Corollary l2_saving_F_tolerance l s e :
  l2_saving_trace_ok l s e = true -> INR e <= 2000000 ->
  Rabs (FR (l2_saving_F l s e) - l2_saving_R (prefix (map FR l)) s e)
    <= 1 / 1000000000 * l2_saving_scale (map FR l) s e.
Proof.
  intros Hok He. rewrite (l2_saving_F_refines l s e Hok).
  apply l2_saving_float53_tolerance; [|exact He].
  exact (proj1 (l2_saving_trace_ok_bounds l s e Hok)).
Qed.

(** the computed saving is non-negative (the property CAPA relies on, [l2_saving_nonneg] of
    Proofs/ScoreKernels.v, survives the rounding) *)
Corollary l2_saving_F_nonneg l s e :
  l2_saving_trace_ok l s e = true -> 0 <= FR (l2_saving_F l s e).
Proof.
  intros Hok. rewrite (l2_saving_F_refines l s e Hok). apply l2_saving_float53_nonneg.
Qed.

(** * 4. Non-vacuity *)

(** [demo_xs] (Proofs/FloatRefine.v) = 1.5 2.25 -0.75 3 10.125 9.5 11 10.25 *)
Example demo_saving_trace_ok : l2_saving_trace_ok demo_xs 1 7 = true.
Proof. vm_compute. reflexivity. Qed.

Example demo_saving_trace_ok_full : l2_saving_trace_ok demo_xs 0 8 = true.
Proof. vm_compute. reflexivity. Qed.

(** a zero segment sum is accepted (the zero clauses of the product and quotient tests) *)
Example demo_saving_trace_ok_zero : l2_saving_trace_ok [0; 1; -1; 0.5]%float 0 3 = true.
Proof. vm_compute. reflexivity. Qed.

(** rejected: an overflowing accumulation, an overflowing square, an underflowing square, an empty segment *)
Example demo_saving_trace_overflow : l2_saving_trace_ok [0x1p1023; 0x1p1023; 1]%float 0 3 = false.
Proof. vm_compute. reflexivity. Qed.

Example demo_saving_trace_overflow_sq : l2_saving_trace_ok [0x1p600; 1; 2]%float 0 3 = false.
Proof. vm_compute. reflexivity. Qed.

Example demo_saving_trace_underflow : l2_saving_trace_ok [0x1p-600; 0x1p-601; 0x1p-602]%float 0 3 = false.
Proof. vm_compute. reflexivity. Qed.

Example demo_saving_trace_empty : l2_saving_trace_ok demo_xs 3 3 = false.
Proof. vm_compute. reflexivity. Qed.

Example demo_saving_refines :
  FR (l2_saving_F demo_xs 1 7) = l2_saving_float53 (map FR demo_xs) 1 7.
Proof. apply l2_saving_F_refines. exact demo_saving_trace_ok. Qed.

(** the value is the one Python computes: ((S[7] - S[1]) ** 2) / 6 = 205.62760416666666 *)
Example demo_saving_value : l2_saving_F demo_xs 1 7 = 0x1.9b41555555555p+7%float.
Proof. vm_compute. reflexivity. Qed.

(** the chained theorem on the demonstration data: its two premises hold *)
Example demo_saving_vs_R :
  Rabs (FR (l2_saving_F demo_xs 1 7) - l2_saving_R (prefix (map FR demo_xs)) 1 7)
    <= (42 / 10 * INR 7 + 5) * u53
       * ((sumR (map Rabs (firstn 7 (map FR demo_xs)))) ^ 2 / INR (7 - 1)).
Proof.
  apply l2_saving_F_vs_R; [exact demo_saving_trace_ok|].
  rewrite u53_value. cbn [INR]. lra.
Qed.

Print Assumptions l2_saving_float53_error.
Print Assumptions l2_saving_F_refines.
Print Assumptions demo_saving_trace_ok.
Print Assumptions l2_saving_F_vs_R.
