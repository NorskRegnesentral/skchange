(** List facts the PELT proofs share: the first-minimum scan [argmin] returns the
    list minimum [min1], [tl], [removeall], and the invariant rule for a fold over [seq]. *)
From Coq Require Import ZArith List Lia Bool.
From SK Require Import Lib.Base Proofs.PeltSpec.
Import ListNotations.
Open Scope Z_scope.

Lemma argmin_none l : argmin l = None -> l = [].
Proof. destruct l; [reflexivity|discriminate]. Qed.

Lemma argmin_from_min1 l : forall bi b i, snd (argmin_from bi b i l) = min1 b l.
Proof.
  induction l as [|x t IH]; intros bi b i; [reflexivity|]. cbn [argmin_from]. unfold min1. cbn [fold_left].
  destruct (x <? b) eqn:E; rewrite IH; unfold min1; f_equal.
  - apply Z.ltb_lt in E. lia.
  - apply Z.ltb_ge in E. lia.
Qed.

Lemma argmin_value_min1 x t i b : argmin (x :: t) = Some (i, b) -> b = min1 x t.
Proof.
  unfold argmin. intros H. injection H as H. rewrite <- (argmin_from_min1 t 0%nat x 1%nat), H. reflexivity.
Qed.

Lemma nth_tl {A} (l : list A) i d : nth i (tl l) d = nth (S i) l d.
Proof. destruct l as [|a l]; [destruct i; reflexivity|reflexivity]. Qed.

Lemma length_tl {A} (l : list A) : length (tl l) = (length l - 1)%nat.
Proof. destruct l; cbn; lia. Qed.

Lemma in_combine_map {A B} (f : A -> B) (l : list A) a c :
  In (a, c) (combine l (map f l)) -> In a l /\ c = f a.
Proof.
  induction l as [|x l IH]; cbn; [intros []|].
  intros [E|H]; [inversion E; subst; auto|]. destruct (IH H); auto.
Qed.

Lemma in_memb a l : memb a l = true <-> In a l.
Proof.
  unfold memb. rewrite existsb_exists. split.
  - intros (x & Hx & E). apply Nat.eqb_eq in E. now subst.
  - intros H. exists a. split; [exact H|apply Nat.eqb_refl].
Qed.

Lemma in_removeall a now R : In a (removeall now R) <-> In a R /\ ~ In a now.
Proof.
  unfold removeall. now rewrite filter_In, negb_true_iff, <- not_true_iff_false, in_memb.
Qed.

Lemma fold_left_seq_inv {S} (P : nat -> S -> Prop) (f : S -> nat -> S) a :
  (forall T s, (a <= T)%nat -> P T s -> P (Datatypes.S T) (f s T)) ->
  forall k s0, P a s0 -> P (a + k)%nat (fold_left f (seq a k) s0).
Proof.
  intros Hstep. induction k as [|k IH]; intros s0 H0.
  - cbn. now rewrite Nat.add_0_r.
  - rewrite seq_S, fold_left_app. cbn [fold_left].
    replace (a + Datatypes.S k)%nat with (Datatypes.S (a + k)) by lia.
    apply Hstep; [lia|]. now apply IH.
Qed.
