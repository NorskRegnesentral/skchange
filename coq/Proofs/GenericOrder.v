(** The pieces of the greedy detectors of Model/Generic.v over an arbitrary number type.

      - Section Direct / DirectMw : facts that hold for every instance, without any law (what the
                         reported value of an argmax IS, only the values at valid cuts matter, the
                         changepoints of the moving window lie in increasing order inside runs);
      - Section Order  : for a strict weak order on the admissible values, the per-run and
                         per-interval choices are first maxima;
      - Section Ok     : the tables a run reads consist of admissible values, for a set [ok] of
                         admissible values that contains the zero of the instance;
      - Section Embedded : the range of the moving-window changepoints restated for an instance
                         that embeds into Z (the embedding is not needed). *)
From Coq Require Import ZArith List Bool Lia Sorted.
From SK Require Import Model.Mw Model.Sbs Model.Capa Model.Cbs Model.Generic.
From SK Require Import Proofs.ArgmaxLemmas Proofs.WhereRuns Proofs.GenericRank.
Import ListNotations.
Open Scope Z_scope.

Lemma Forall_firstn : forall {A} (P : A -> Prop) k l, Forall P l -> Forall P (firstn k l).
Proof.
  intros A P. induction k as [|k IH]; intros l H; [constructor|].
  destruct H as [|x t Hx Ht]; cbn [firstn]; constructor; [exact Hx | apply IH; exact Ht].
Qed.

Lemma Forall_skipn : forall {A} (P : A -> Prop) k l, Forall P l -> Forall P (skipn k l).
Proof.
  intros A P. induction k as [|k IH]; intros l H; [exact H|].
  destruct H as [|x t Hx Ht]; cbn [skipn]; [constructor | apply IH; exact Ht].
Qed.

Lemma Forall_slice : forall {A} (P : A -> Prop) s e l, Forall P l -> Forall P (slice s e l).
Proof. intros A P s e l H. unfold slice. apply Forall_firstn, Forall_skipn, H. Qed.

Lemma Forall_nth_default : forall {A} (P : A -> Prop) l d i, Forall P l -> P d -> P (nth i l d).
Proof.
  intros A P l d i Hl Hd. destruct (Nat.lt_ge_cases i (length l)) as [H | H].
  - apply Forall_nth; assumption.
  - rewrite nth_overflow by exact H. exact Hd.
Qed.

Section Direct.
Variable N : num.
Notation V := (T N).

Lemma gargmax_In : forall l j (v : V), gargmax N l = Some (j, v) -> In v l.
Proof.
  intros l j v H. destruct (gargmax_nth N v l j v H) as [Hj ->]. apply nth_In. exact Hj.
Qed.

(** ---- moving window ---- *)
Lemma gmw_scores_length : forall CS b n, length (gmw_scores N CS b n) = n.
Proof. intros. unfold gmw_scores. rewrite map_length, seq_length. reflexivity. Qed.

Lemma gmw_scores_nth : forall CS b n t, (t < n)%nat ->
  nthV N (gmw_scores N CS b n) t =
  if ((b <=? t)%nat && (t + b <=? n)%nat)%bool then CS (t - b)%nat t (t + b)%nat else zero N.
Proof.
  intros CS b n t Ht. unfold nthV, gmw_scores. rewrite nth_map_seq by exact Ht. reflexivity.
Qed.

Theorem G08_scores : forall CS b n t, (t < n)%nat ->
  length (gmw_scores N CS b n) = n /\
  nthV N (gmw_scores N CS b n) t =
    if ((b <=? t)%nat && (t + b <=? n)%nat)%bool then CS (t - b)%nat t (t + b)%nat else zero N.
Proof. intros. split; [apply gmw_scores_length | apply gmw_scores_nth; assumption]. Qed.

Theorem G08_reversal : forall CS b n t, (1 <= t < n)%nat ->
  nthV N (gmw_scores N (fun s k e => CS (n - e) (n - k) (n - s))%nat b n) t =
  nthV N (gmw_scores N CS b n) (n - t)%nat.
Proof.
  intros CS b n t Ht. rewrite !gmw_scores_nth by lia.
  assert (E : ((b <=? t)%nat && (t + b <=? n)%nat)%bool = ((b <=? n - t)%nat && (n - t + b <=? n)%nat)%bool)
    by (apply eq_true_iff_eq; rewrite !mw_guard_iff; lia).
  rewrite <- E. destruct ((b <=? t)%nat && (t + b <=? n)%nat)%bool eqn:G; [|reflexivity].
  apply mw_guard_iff in G. f_equal; lia.
Qed.

Lemma gmw_scores_ext_valid : forall CS1 CS2 b n,
  (forall t, (b <= t)%nat -> (t + b <= n)%nat -> CS1 (t - b)%nat t (t + b)%nat = CS2 (t - b)%nat t (t + b)%nat) ->
  gmw_scores N CS1 b n = gmw_scores N CS2 b n.
Proof.
  intros CS1 CS2 b n H. unfold gmw_scores. apply map_ext. intros t.
  destruct ((b <=? t)%nat && (t + b <=? n)%nat)%bool eqn:E; [|reflexivity].
  apply mw_guard_iff in E. apply H; apply E.
Qed.

Theorem G08_only_valid_cuts_matter : forall CS1 CS2 b n thr mdi,
  (forall t, (b <= t)%nat -> (t + b <= n)%nat -> CS1 (t - b)%nat t (t + b)%nat = CS2 (t - b)%nat t (t + b)%nat) ->
  gmw N CS1 b n thr mdi = gmw N CS2 b n thr mdi.
Proof.
  intros CS1 CS2 b n thr mdi H. unfold gmw. rewrite (gmw_scores_ext_valid CS1 CS2 b n H). reflexivity.
Qed.

(** ---- seeded binary segmentation ---- *)
Lemma gamoc_inv : forall CS m s e k v, gamoc N CS m (s, e) = Some (k, v) ->
  (s + m <= k)%nat /\ (k + m <= e)%nat /\ v = CS s k e.
Proof.
  intros CS m s e k v H. unfold gamoc in H.
  destruct (gargmax N (map (fun k0 => CS s k0 e) (seq (s + m) (e - m + 1 - (s + m))))) as [[i w]|] eqn:E;
    [|discriminate].
  inversion H; subst k w. clear H.
  destruct (gargmax_nth N v _ _ _ E) as [Hi Hv]. rewrite map_length, seq_length in Hi.
  rewrite nth_map_seq in Hv by exact Hi. split; [lia|]. split; [lia | exact Hv].
Qed.

Lemma gamocs_inv : forall CS m ivs am, gamocs N CS m ivs = Some am ->
  length am = length ivs /\
  forall i d d', (i < length ivs)%nat -> gamoc N CS m (nth i ivs d) = Some (nth i am d').
Proof.
  intros CS m. induction ivs as [|se t IH]; intros am H; cbn [gamocs] in H.
  - inversion H; subst. split; [reflexivity|]. intros i d d' Hi. cbn [length] in Hi. lia.
  - destruct (gamoc N CS m se) as [x|] eqn:E1; [|discriminate].
    destruct (gamocs N CS m t) as [r|] eqn:E2; [|discriminate].
    inversion H; subst am. clear H. destruct (IH r eq_refl) as [Hl Hn]. cbn [length].
    split; [lia|]. intros [|i] d d' Hi; cbn [nth]; [exact E1|]. apply Hn. cbn [length] in Hi. lia.
Qed.

Lemma gsbs_inv : forall CS m thr ivs cpts am, gsbs N CS m thr ivs = Some (cpts, am) ->
  gamocs N CS m ivs = Some am /\
  exists picks, ggreedy_cpts N (length ivs) thr ivs (map fst am) (map snd am) = Some picks /\
                cpts = sort_nat picks.
Proof.
  intros CS m thr ivs cpts am H. unfold gsbs in H.
  destruct (gamocs N CS m ivs) as [am'|]; [|discriminate].
  destruct (ggreedy_cpts N (length ivs) thr ivs (map fst am') (map snd am')) as [picks|] eqn:G; [|discriminate].
  inversion H; subst. split; [reflexivity|]. exists picks. split; [exact G | reflexivity].
Qed.

Lemma gamoc_ext_valid : forall CS1 CS2 m s e,
  (forall k, (s + m <= k)%nat -> (k + m <= e)%nat -> CS1 s k e = CS2 s k e) ->
  gamoc N CS1 m (s, e) = gamoc N CS2 m (s, e).
Proof.
  intros CS1 CS2 m s e H. unfold gamoc.
  rewrite (map_ext_in (fun k => CS1 s k e) (fun k => CS2 s k e)); [reflexivity|].
  intros k Hk. apply in_seq in Hk. apply H; lia.
Qed.

Lemma gamocs_ext_valid : forall CS1 CS2 m ivs,
  (forall s e k, In (s, e) ivs -> (s + m <= k)%nat -> (k + m <= e)%nat -> CS1 s k e = CS2 s k e) ->
  gamocs N CS1 m ivs = gamocs N CS2 m ivs.
Proof.
  intros CS1 CS2 m. induction ivs as [|[s e] t IH]; intros H; cbn [gamocs]; [reflexivity|].
  rewrite (gamoc_ext_valid CS1 CS2 m s e) by (intros k; apply H; left; reflexivity).
  rewrite IH by (intros s' e' k Hin; apply H; right; exact Hin). reflexivity.
Qed.

Theorem G07_only_valid_cuts_matter : forall CS1 CS2 m thr ivs,
  (forall s e k, In (s, e) ivs -> (s + m <= k)%nat -> (k + m <= e)%nat -> CS1 s k e = CS2 s k e) ->
  gsbs N CS1 m thr ivs = gsbs N CS2 m thr ivs.
Proof.
  intros CS1 CS2 m thr ivs H. unfold gsbs. rewrite (gamocs_ext_valid CS1 CS2 m ivs H). reflexivity.
Qed.

(** ---- circular binary segmentation ---- *)
Lemma gbest_inner_inv : forall LS m s e a z v, gbest_inner N LS m (s, e) = Some ((a, z), v) ->
  In (a, z) (anomaly_intervals s e m) /\ v = LS s a z e.
Proof.
  intros LS m s e a z v H. unfold gbest_inner in H.
  destruct (gargmax N (map (fun ab => LS s (fst ab) (snd ab) e) (anomaly_intervals s e m))) as [[i w]|] eqn:E;
    [|discriminate].
  inversion H as [[H1 H2]]. subst w. clear H.
  destruct (gargmax_nth N v _ _ _ E) as [Hi Hv]. rewrite map_length in Hi.
  rewrite (nth_map_lt _ _ i (0, 0)%nat) in Hv by exact Hi. rewrite H1 in Hv. cbn [fst snd] in Hv.
  split; [|exact Hv]. apply nth_In. exact Hi.
Qed.

Lemma gbest_inner_none : forall LS m s e, gbest_inner N LS m (s, e) = None <-> anomaly_intervals s e m = [].
Proof.
  intros LS m s e. unfold gbest_inner.
  destruct (gargmax N (map (fun ab => LS s (fst ab) (snd ab) e) (anomaly_intervals s e m))) as [[i w]|] eqn:E.
  - split; [discriminate|]. intros H. rewrite H in E. discriminate.
  - split; [|reflexivity]. intros _. apply gargmax_none in E.
    destruct (anomaly_intervals s e m); [reflexivity | discriminate].
Qed.

Lemma gcbs_inv : forall LS m thr ivs anoms am, gcbs N LS m thr ivs = Some (anoms, am) ->
  am = map (ginner_or_zero N LS m) ivs /\
  exists picks, ggreedy_anoms N (length ivs) thr ivs (map fst am) (map snd am) = Some picks /\
                anoms = sort_pairs picks.
Proof.
  intros LS m thr ivs anoms am H. unfold gcbs in H.
  destruct (ggreedy_anoms N (length ivs) thr ivs _ _) as [picks|] eqn:G; [|discriminate].
  inversion H; subst. split; [reflexivity|]. exists picks. split; [exact G | reflexivity].
Qed.

Lemma gbest_inner_ext_valid : forall LS1 LS2 m s e,
  (forall a z, In (a, z) (anomaly_intervals s e m) -> LS1 s a z e = LS2 s a z e) ->
  gbest_inner N LS1 m (s, e) = gbest_inner N LS2 m (s, e).
Proof.
  intros LS1 LS2 m s e H. unfold gbest_inner.
  rewrite (map_ext_in (fun ab => LS1 s (fst ab) (snd ab) e) (fun ab => LS2 s (fst ab) (snd ab) e)); [reflexivity|].
  intros [a z] Hin. apply H. exact Hin.
Qed.

Theorem G09_only_valid_cuts_matter : forall LS1 LS2 m thr ivs,
  (forall s e a z, In (s, e) ivs -> In (a, z) (anomaly_intervals s e m) -> LS1 s a z e = LS2 s a z e) ->
  gcbs N LS1 m thr ivs = gcbs N LS2 m thr ivs.
Proof.
  intros LS1 LS2 m thr ivs H. unfold gcbs.
  rewrite (map_ext_in (ginner_or_zero N LS1 m) (ginner_or_zero N LS2 m)); [reflexivity|].
  intros [s e] Hin. unfold ginner_or_zero.
  rewrite (gbest_inner_ext_valid LS1 LS2 m s e); [reflexivity|]. intros a z. apply H. exact Hin.
Qed.
End Direct.

(** ---- moving window: the changepoints ---- *)
Section DirectMw.
Local Open Scope nat_scope.
Variable N : num.
Notation V := (T N).
Notation "x <! y" := (ltb N x y) (at level 70).

Definition gpick_run (scores : list V) (mdi : nat) (se : nat * nat) : list nat :=
  let '(s, e) := se in
  if mdi <=? e - s then
    match gargmax N (slice s e scores) with Some (i, _) => [s + i] | None => [] end
  else [].

Lemma gmw_cpts_unfold : forall scores thr mdi,
  gmw_cpts N scores thr mdi =
  flat_map (gpick_run scores mdi) (where_runs (map (fun v => thr <! v) scores)).
Proof. reflexivity. Qed.

Lemma gpick_run_in : forall scores mdi a z c, a < z <= length scores ->
  In c (gpick_run scores mdi (a, z)) -> a <= c < z.
Proof.
  intros scores mdi a z c Haz H. unfold gpick_run in H.
  destruct (mdi <=? z - a); [|contradiction].
  destruct (gargmax N (slice a z scores)) as [[i v]|] eqn:A; [|contradiction].
  destruct H as [<- | []]. destruct (gargmax_nth N v _ _ _ A) as [Hi _].
  rewrite slice_length in Hi by lia. lia.
Qed.

Lemma gpick_run_cases : forall scores mdi se,
  gpick_run scores mdi se = [] \/ exists c, gpick_run scores mdi se = [c].
Proof.
  intros scores mdi [s e]. unfold gpick_run.
  destruct (mdi <=? e - s); [|left; reflexivity].
  destruct (gargmax N (slice s e scores)) as [[i v]|]; [right; eauto | left; reflexivity].
Qed.

Lemma gruns_in_range : forall (scores : list V) thr a z,
  In (a, z) (where_runs (map (fun v => thr <! v) scores)) -> a < z <= length scores.
Proof.
  intros scores thr a z H. apply where_runs_spec in H. rewrite map_length in H. tauto.
Qed.

Lemma flat_gpick_sorted : forall scores mdi runs,
  StronglySorted run_lt runs ->
  (forall a z, In (a, z) runs -> a < z <= length scores) ->
  StronglySorted lt (flat_map (gpick_run scores mdi) runs).
Proof.
  intros scores mdi runs H. induction H as [|[a z] l HS IH HF]; intros Hr.
  - constructor.
  - change (flat_map (gpick_run scores mdi) ((a, z) :: l))
      with (gpick_run scores mdi (a, z) ++ flat_map (gpick_run scores mdi) l).
    assert (IH' : StronglySorted lt (flat_map (gpick_run scores mdi) l))
      by (apply IH; intros a' z' Hin; apply Hr; right; exact Hin).
    destruct (gpick_run_cases scores mdi (a, z)) as [E | (c & E)].
    + rewrite E. exact IH'.
    + assert (Hc : In c (gpick_run scores mdi (a, z))) by (rewrite E; left; reflexivity).
      apply gpick_run_in in Hc; [|apply Hr; left; reflexivity].
      rewrite E. cbn [app]. constructor; [exact IH'|].
      rewrite Forall_forall. intros c' Hc'. apply in_flat_map in Hc'.
      destruct Hc' as ([a' z'] & Hin' & Hc').
      apply gpick_run_in in Hc'; [|apply Hr; right; exact Hin'].
      rewrite Forall_forall in HF. specialize (HF _ Hin'). unfold run_lt in HF. cbn [fst snd] in HF. lia.
Qed.

(** for ANY instance (no law) and ANY threshold the changepoints are strictly increasing positions *)
Theorem gmw_cpts_sorted_any : forall scores thr mdi, StronglySorted lt (gmw_cpts N scores thr mdi).
Proof.
  intros scores thr mdi. rewrite gmw_cpts_unfold. apply flat_gpick_sorted.
  - apply where_runs_sorted.
  - intros a z. apply gruns_in_range.
Qed.

(** a changepoint lies in a run, so its score exceeds the threshold: no law is needed *)
Theorem gmw_cpts_above : forall scores thr mdi c,
  In c (gmw_cpts N scores thr mdi) -> c < length scores /\ thr <! nthV N scores c = true.
Proof.
  intros scores thr mdi c H. rewrite gmw_cpts_unfold in H. apply in_flat_map in H.
  destruct H as ([a z] & Hin & Hc). pose proof (gruns_in_range _ _ _ _ Hin) as Hr.
  apply (gpick_run_in _ _ _ _ _ Hr) in Hc. apply where_runs_spec in Hin. destruct Hin as (_ & Hrun & _).
  specialize (Hrun c Hc). rewrite (nth_map_lt _ scores c (zero N) false) in Hrun by lia.
  split; [lia | exact Hrun].
Qed.

(** the placeholders outside [b, n - b] do not exceed a threshold that zero does not exceed *)
Theorem gmw_cpts_in_range : forall CS b n thr mdi c, thr <! zero N = false ->
  In c (snd (gmw N CS b n thr mdi)) -> b <= c /\ c + b <= n.
Proof.
  intros CS b n thr mdi c H0 H. cbn [gmw snd] in H. destruct (gmw_cpts_above _ _ _ _ H) as [Hlen Hlt].
  rewrite gmw_scores_length in Hlen. rewrite gmw_scores_nth in Hlt by exact Hlen.
  destruct ((b <=? c) && (c + b <=? n)) eqn:E; [|congruence]. apply mw_guard_iff. exact E.
Qed.
End DirectMw.

Section Order.
Local Open Scope nat_scope.
Variable N : num.
Notation V := (T N).
Notation "x <! y" := (ltb N x y) (at level 70).
Variable ok : V -> Prop.
Hypothesis Hswo : swo N ok.

(** the pick of a run is its first maximum *)
Lemma gpick_run_spec : forall scores mdi a z c, Forall ok scores -> a < z <= length scores ->
  (In c (gpick_run N scores mdi (a, z)) <->
   mdi <= z - a /\ a <= c < z /\
   (forall i, a <= i < z -> nthV N scores c <! nthV N scores i = false) /\
   (forall i, a <= i < c -> nthV N scores i <! nthV N scores c = true)).
Proof.
  intros scores mdi a z c Hs Haz. unfold gpick_run, nthV.
  destruct (mdi <=? z - a) eqn:E.
  2:{ apply Nat.leb_gt in E. split; [intros [] | intros (H & _); lia]. }
  apply Nat.leb_le in E. rewrite (slice_map_seq (zero N)) by lia.
  destruct (gargmax N (map _ (seq a (z - a)))) as [[i v]|] eqn:A.
  2:{ apply gargmax_none, (f_equal (@length _)) in A. rewrite map_length, seq_length in A. cbn [length] in A. lia. }
  destruct (gargmax_seq_first_max N ok Hswo (fun k => nth k scores (zero N)) a (z - a) i v) as (Hi & -> & Hle & Hlt);
    [|exact A|].
  { intros k Hk. apply Forall_nth; [exact Hs | lia]. }
  replace (a + (z - a)) with z in Hle by lia. cbn [In]. split.
  - intros [<- | []]. split; [exact E|]. split; [lia|]. split; assumption.
  - intros (_ & Hc & Hmax & Hfirst). left. symmetry.
    apply (first_max_unique_on N (fun k => nth k scores (zero N)) (fun k => a <= k < z) (a + i) c);
      [lia | exact Hc | exact Hle | | exact Hmax | ].
    + intros k Hk L. apply Hlt. lia.
    + intros k Hk L. apply Hfirst. lia.
Qed.

(** the changepoints are exactly the first maxima of the maximal above-threshold runs of length
    >= min_detection_interval *)
Theorem gmw_cpts_spec : forall scores thr mdi c, Forall ok scores ->
  (In c (gmw_cpts N scores thr mdi) <->
   exists a z, In (a, z) (where_runs (map (fun v => thr <! v) scores)) /\ mdi <= z - a /\ a <= c < z /\
     (forall i, a <= i < z -> nthV N scores c <! nthV N scores i = false) /\
     (forall i, a <= i < c -> nthV N scores i <! nthV N scores c = true)).
Proof.
  intros scores thr mdi c Hs. rewrite gmw_cpts_unfold, in_flat_map. split.
  - intros ([a z] & Hin & Hc). exists a, z. split; [exact Hin|].
    apply (gpick_run_spec scores mdi a z c Hs (gruns_in_range N _ _ _ _ Hin)). exact Hc.
  - intros (a & z & Hin & H). exists (a, z). split; [exact Hin|].
    apply (gpick_run_spec scores mdi a z c Hs (gruns_in_range N _ _ _ _ Hin)). exact H.
Qed.

(** a maximal run of scores above the threshold that has at least [mdi] positions contains a reported
    changepoint: the first maximum of the run *)
Lemma gmw_run_peak : forall scores thr mdi a z, Forall ok scores ->
  In (a, z) (where_runs (map (fun v => thr <! v) scores)) -> mdi <= z - a ->
  exists c, In c (gmw_cpts N scores thr mdi) /\ a <= c < z /\
    (forall i, a <= i < z -> nthV N scores c <! nthV N scores i = false) /\
    (forall i, a <= i < c -> nthV N scores i <! nthV N scores c = true).
Proof.
  intros scores thr mdi a z Hs Hin Hmdi. pose proof (gruns_in_range N _ _ _ _ Hin) as Hr.
  assert (exists c, In c (gpick_run N scores mdi (a, z))) as (c & Hc).
  { unfold gpick_run. rewrite (proj2 (Nat.leb_le _ _) Hmdi).
    destruct (gargmax N (slice a z scores)) as [[j v]|] eqn:G; [eexists; left; reflexivity|].
    apply gargmax_none, (f_equal (@length _)) in G. rewrite slice_length in G by lia. cbn [length] in G. lia. }
  exists c. split; [rewrite gmw_cpts_unfold; apply in_flat_map; exists (a, z); split; assumption|].
  exact (proj2 (proj1 (gpick_run_spec scores mdi a z c Hs Hr) Hc)).
Qed.

(** reported score and maximiser of an interval = max and FIRST argmax over admissible splits *)
Lemma gamoc_spec : forall CS m s e k v,
  (forall k', s + m <= k' -> k' + m <= e -> ok (CS s k' e)) ->
  gamoc N CS m (s, e) = Some (k, v) ->
  (s + m <= k /\ k + m <= e) /\ v = CS s k e /\
  forall k', s + m <= k' /\ k' + m <= e ->
    v <! CS s k' e = false /\ (k' < k -> CS s k' e <! v = true).
Proof.
  intros CS m s e k v Htab H. unfold gamoc in H.
  destruct (gargmax N (map (fun k0 => CS s k0 e) (seq (s + m) (e - m + 1 - (s + m))))) as [[i w]|] eqn:A;
    [|discriminate].
  inversion H; subst k w. clear H.
  destruct (gargmax_seq_first_max N ok Hswo (fun k0 => CS s k0 e) (s + m) (e - m + 1 - (s + m)) i v)
    as (Hi & Hv & Hle & Hlt); [|exact A|].
  { intros k' Hk'. apply Htab; lia. }
  split; [lia|]. split; [exact Hv|]. intros k' Hk'. split; [apply Hle | intros L; apply Hlt]; lia.
Qed.

(** reported score / inner interval of a candidate = max / the FIRST maximiser over its inner
    candidates, in the order of the enumeration [anomaly_intervals] *)
Lemma gbest_inner_first_max : forall LS m s e a z v,
  (forall a' z', In (a', z') (anomaly_intervals s e m) -> ok (LS s a' z' e)) ->
  gbest_inner N LS m (s, e) = Some ((a, z), v) ->
  In (a, z) (anomaly_intervals s e m) /\ v = LS s a z e /\
  (forall a' z', In (a', z') (anomaly_intervals s e m) -> v <! LS s a' z' e = false) /\
  exists j, j < length (anomaly_intervals s e m) /\ nth j (anomaly_intervals s e m) (0, 0) = (a, z) /\
    forall j', j' < j ->
      LS s (fst (nth j' (anomaly_intervals s e m) (0, 0))) (snd (nth j' (anomaly_intervals s e m) (0, 0))) e <! v = true.
Proof.
  intros LS m s e a z v Htab H. unfold gbest_inner in H.
  destruct (gargmax N (map (fun ab => LS s (fst ab) (snd ab) e) (anomaly_intervals s e m))) as [[j w]|] eqn:A;
    [|discriminate].
  injection H as H1 H2. subst w.
  destruct (gargmax_map_first_max N ok Hswo (fun ab => LS s (fst ab) (snd ab) e) (0, 0) (anomaly_intervals s e m) j v)
    as (Hj & Hv & Hmax & Hfirst); [|exact A|].
  { intros [a' z']. apply Htab. }
  rewrite H1 in Hv. split; [rewrite <- H1; apply nth_In; exact Hj|]. split; [exact Hv|]. split.
  - intros a' z' Hin. exact (Hmax (a', z') Hin).
  - exists j. split; [exact Hj|]. split; [exact H1 | exact Hfirst].
Qed.
End Order.

Section Ok.
Variable N : num.
Notation V := (T N).
Variable ok : V -> Prop.
Hypothesis ok_zero : ok (zero N).

Lemma gmw_scores_ok : forall CS b n,
  (forall t, (b <= t)%nat -> (t + b <= n)%nat -> ok (CS (t - b)%nat t (t + b)%nat)) ->
  Forall ok (gmw_scores N CS b n).
Proof.
  intros CS b n H. unfold gmw_scores. apply Forall_forall. intros v Hv.
  apply in_map_iff in Hv. destruct Hv as (t & <- & _).
  destruct ((b <=? t)%nat && (t + b <=? n)%nat)%bool eqn:E; [|exact ok_zero].
  apply mw_guard_iff in E. apply H; apply E.
Qed.

Lemma kill_ok : forall (k : nat * nat -> bool) ivs sc, Forall ok sc ->
  Forall ok (map (fun sv : (nat * nat) * V => if k (fst sv) then zero N else snd sv) (combine ivs sc)).
Proof.
  intros k. induction ivs as [|iv t IH]; intros sc H; cbn [combine map]; [constructor|].
  destruct H as [|x sc Hx Hsc]; cbn [map]; constructor.
  - cbn [fst snd]. destruct (k iv); assumption.
  - apply IH. exact Hsc.
Qed.

Definition sbs_table_ok (CS : nat -> nat -> nat -> V) (m : nat) (ivs : list (nat * nat)) : Prop :=
  forall s e k, In (s, e) ivs -> (s + m <= k)%nat -> (k + m <= e)%nat -> ok (CS s k e).

Lemma gamocs_ok : forall CS m ivs am, sbs_table_ok CS m ivs -> gamocs N CS m ivs = Some am ->
  Forall ok (map snd am).
Proof.
  intros CS m ivs am Htab H. destruct (gamocs_inv N CS m ivs am H) as [Hl Hn].
  apply Forall_forall. intros v Hv. apply in_map_iff in Hv. destruct Hv as ([k v'] & <- & Hin).
  destruct (In_nth _ _ (0%nat, zero N) Hin) as (i & Hi & Ei). rewrite Hl in Hi.
  specialize (Hn i (0, 0)%nat (0%nat, zero N) Hi). rewrite Ei in Hn.
  assert (Hiv : In (nth i ivs (0, 0)%nat) ivs) by (apply nth_In; exact Hi).
  destruct (nth i ivs (0, 0)%nat) as [s e]. apply gamoc_inv in Hn. destruct Hn as (H1 & H2 & ->).
  cbn [snd]. apply (Htab s e k Hiv H1 H2).
Qed.

Definition cbs_table_ok (LS : nat -> nat -> nat -> nat -> V) (m : nat) (ivs : list (nat * nat)) : Prop :=
  forall s e a z, In (s, e) ivs -> In (a, z) (anomaly_intervals s e m) -> ok (LS s a z e).

Lemma ginner_or_zero_ok : forall LS m s e,
  (forall a z, In (a, z) (anomaly_intervals s e m) -> ok (LS s a z e)) ->
  ok (snd (ginner_or_zero N LS m (s, e))).
Proof.
  intros LS m s e Htab. unfold ginner_or_zero.
  destruct (gbest_inner N LS m (s, e)) as [[[a z] v]|] eqn:E; cbn [snd]; [|exact ok_zero].
  apply gbest_inner_inv in E. destruct E as [Hin ->]. apply Htab. exact Hin.
Qed.

Lemma gcbs_scores_ok : forall LS m ivs, cbs_table_ok LS m ivs ->
  Forall ok (map snd (map (ginner_or_zero N LS m) ivs)).
Proof.
  intros LS m ivs Htab. rewrite map_map. apply Forall_forall. intros v Hv.
  apply in_map_iff in Hv. destruct Hv as ([s e] & <- & Hin).
  apply ginner_or_zero_ok. intros a z. apply Htab. exact Hin.
Qed.
End Ok.

Section Embedded.
Variable N : num.
Notation V := (T N).
Notation "x <! y" := (ltb N x y) (at level 70).
Variable ok : V -> Prop.
Variable phi : V -> Z.
Hypothesis Hemb : embedding N ok phi.
Hypothesis ok_zero : ok (zero N).

Theorem E08_changepoints_in_range : forall CS b n thr mdi c,
  (forall t, (b <= t)%nat -> (t + b <= n)%nat -> ok (CS (t - b)%nat t (t + b)%nat)) -> ok thr ->
  thr <! zero N = false ->
  In c (snd (gmw N CS b n thr mdi)) -> (b <= c /\ c + b <= n)%nat.
Proof using Hemb ok_zero.
  intros CS b n thr mdi c _ _. apply gmw_cpts_in_range.
Qed.
End Embedded.

