(** C12, end to end over the reals: the symmetries of the score kernels (Proofs/Symmetry.v)
    carried through the search loops of the detectors.

    Data: one column [xs : list R], prefix sums [P1 xs = prefix xs], [P2 xs = prefix (sq xs)]
    (Proofs/Symmetry.v), [n = length xs].

    The real PELT model reads its cost only at valid cuts, and adding a potential
    difference [h e - h s] to the cost leaves the changepoints unchanged and moves the optimal
    values by [h t] ([peltR_potential]); SHIFT for PELT (L2 cost, Gaussian mean-and-variance cost,
    several columns) and for the moving window / seeded / circular binary segmentation at the
    instance [Rn] of the generic loops (CUSUM, change scores, local scores); SCALE by a > 0 for the
    Gaussian versions, where the scaled cost differs from the original by a potential; REVERSAL of
    PELT's optimal penalised cost and of the final score of the run; SHIFT column by column for the
    greedy detectors on several columns; a concrete instance. *)
From Coq Require Import Reals Lra List Lia.
From SK Require Import Model.PeltR Model.Cbs Model.Generic.
From SK Require Import Proofs.PeltSpec Proofs.PeltLemmas Proofs.PeltRefine.
From SK Require Import Gen.KernelsR Proofs.RealLib Proofs.ScoreKernels.
From SK Require Import Proofs.PeltReal Proofs.GenericOrder.
From SK Require Import Proofs.ValidCuts Proofs.GenericValidCuts Proofs.Symmetry.
Import ListNotations.
Open Scope R_scope.

(** * The real PELT model only reads valid cuts *)

(** any pruning delay; [2m - 1 <= n] is needed: the initial block reads [C 0 e] for
    m <= e <= 2m - 1 *)
Theorem peltR_ext_valid_delay : forall (C1 C2 : nat -> nat -> R) pen m delay n,
  (1 <= m)%nat -> (2 * m - 1 <= n)%nat ->
  (forall s e, (s + m <= e)%nat -> (e <= n)%nat -> C1 s e = C2 s e) ->
  peltR C1 pen m delay n = peltR C2 pen m delay n.
Proof.
  intros C1 C2 pen m delay n Hm Hn H. rewrite <- !gpelt_R. now apply (gpelt_ext_valid Rn).
Qed.

Theorem peltR_ext_valid : forall (C1 C2 : nat -> nat -> R) pen m n,
  (1 <= m)%nat -> (2 * m - 1 <= n)%nat ->
  (forall s e, (s + m <= e)%nat -> (e <= n)%nat -> C1 s e = C2 s e) ->
  peltR C1 pen m (m - 1) n = peltR C2 pen m (m - 1) n.
Proof. intros C1 C2 pen m n. apply peltR_ext_valid_delay. Qed.

(** the same on the generic loop at the instance of the reals *)
Corollary gpelt_Rn_ext_valid : forall (C1 C2 : nat -> nat -> R) pen m delay n,
  (1 <= m)%nat -> (2 * m - 1 <= n)%nat ->
  (forall s e, (s + m <= e)%nat -> (e <= n)%nat -> C1 s e = C2 s e) ->
  gpelt Rn C1 pen m delay n = gpelt Rn C2 pen m delay n.
Proof. exact (gpelt_ext_valid Rn). Qed.

(** * A potential added to the cost

    If [C2 s e = C1 s e + (h e - h s)] on the valid cuts, every candidate value of an
    iteration moves by the same amount [h (T+1) - h 0]: the comparisons, hence the
    selected start, the pruned starts and the changepoints are unchanged, and the
    optimal value at [t] moves by [h t - h 0]. *)

Lemma Rltb_add k x y : Rltb (x + k) (y + k) = Rltb x y.
Proof. unfold Rltb. destruct (Rlt_dec (x + k) (y + k)) as [H|H], (Rlt_dec x y) as [H'|H']; try reflexivity; exfalso; lra. Qed.

Lemma Rleb_add k x y : Rleb (x + k) (y + k) = Rleb x y.
Proof. unfold Rleb. destruct (Rle_dec (x + k) (y + k)) as [H|H], (Rle_dec x y) as [H'|H']; try reflexivity; exfalso; lra. Qed.

Definition addsnd (k : R) (p : nat * R) : nat * R := (fst p, snd p + k).

Lemma argminR_from_add k l : forall bi b i,
  argminR_from bi (b + k) i (map (fun x => x + k) l) = addsnd k (argminR_from bi b i l).
Proof.
  induction l as [|x t IH]; intros bi b i; cbn [map argminR_from]; [reflexivity|].
  rewrite Rltb_add. destruct (Rltb x b); apply IH.
Qed.

Lemma argminR_add k l :
  argminR (map (fun x => x + k) l) = option_map (addsnd k) (argminR l).
Proof.
  destruct l as [|x t]; cbn [map argminR option_map]; [reflexivity|].
  now rewrite argminR_from_add.
Qed.

Lemma argminR_none l : argminR l = None -> l = [].
Proof. destruct l; [reflexivity|discriminate]. Qed.

Lemma drop_add (k b pen : R) (l1 : list nat) : forall cz : list R,
  map fst (filter (fun ac : nat * R => negb (Rleb (snd ac) (b + k + pen)))
                  (combine l1 (map (fun x => x + k) cz)))
  = map fst (filter (fun ac : nat * R => negb (Rleb (snd ac) (b + pen))) (combine l1 cz)).
Proof.
  induction l1 as [|a l1 IH]; intros cz; [reflexivity|].
  destruct cz as [|c cz]; [reflexivity|].
  cbn [map combine filter snd].
  replace (b + k + pen) with (b + pen + k) by ring. rewrite Rleb_add.
  destruct (Rleb c (b + pen)); cbn [negb map fst];
    (replace (b + pen + k) with (b + k + pen) by ring); now rewrite IH.
Qed.

Section PeltRPotential.
Variables (C1 C2 : nat -> nat -> R) (h : nat -> R) (pen : R) (m delay n : nat).
Hypothesis m_pos : (1 <= m)%nat.
Hypothesis HC : forall s e, (s + m <= e)%nat -> (e <= n)%nat -> C2 s e = C1 s e + (h e - h s).

Record PRel (T : nat) (s1 s2 : stR) : Prop := {
  pr_prev : prevR s2 = prevR s1;
  pr_starts : startsR s2 = startsR s1;
  pr_pend : pendingR s2 = pendingR s1;
  pr_len1 : length (optR s1) = S T;
  pr_len2 : length (optR s2) = S T;
  pr_valid : forall a, In a (startsR s1) -> (a = 0 \/ m <= a)%nat /\ (a + m <= S T)%nat;
  pr_opt : forall i, (i <= T)%nat -> (i = 0 \/ m <= i)%nat ->
             nthR (optR s2) i = nthR (optR s1) i + (h i - h 0%nat) }.

Lemma initR_PRel : (2 * m - 1 <= n)%nat -> PRel (2 * m - 1) (initR C1 pen m) (initR C2 pen m).
Proof.
  intros Hn. constructor.
  - reflexivity.
  - reflexivity.
  - reflexivity.
  - apply initR_len_opt; exact m_pos.
  - apply initR_len_opt; exact m_pos.
  - unfold initR. cbn [startsR]. intros a [<-|[]]. split; [now left|lia].
  - intros i Hi [->|Hm].
    + rewrite !initR_opt_small by lia. ring.
    + rewrite !initR_opt_mid by lia. apply HC; lia.
Qed.

Lemma stepR_PRel T s1 s2 : (2 * m - 1 <= T)%nat -> (T < n)%nat ->
  PRel T s1 s2 -> PRel (S T) (stepR C1 pen m delay s1 T) (stepR C2 pen m delay s2 T).
Proof.
  intros HT HTn [Hp Hs Hq Hl1 Hl2 Hv Ho].
  destruct s1 as [o1 p1 st1 q1], s2 as [o2 p2 st2 q2]. cbn [optR prevR startsR pendingR] in *.
  subst p2 st2 q2.
  unfold stepR. cbn [optR prevR startsR pendingR]. cbv zeta.
  set (starts1 := st1 ++ [(T - (m - 1))%nat]).
  assert (Hv1 : forall a, In a starts1 -> (a = 0 \/ m <= a)%nat /\ (a + m <= S T)%nat).
  { intros a Ha. unfold starts1 in Ha. apply in_app_or in Ha as [Ha|[<-|[]]].
    - destruct (Hv a Ha) as [H1 H2]. split; [exact H1|lia].
    - split; [right; lia|lia]. }
  set (k := h (S T) - h 0%nat).
  assert (E : map (fun a => nthR o2 a + C2 a (S T) + pen) starts1
            = map (fun x => x + k) (map (fun a => nthR o1 a + C1 a (S T) + pen) starts1)).
  { rewrite map_map. apply map_ext_in. intros a Ha. destruct (Hv1 a Ha) as [H1 H2].
    rewrite Ho by (try exact H1; lia). rewrite HC by lia. unfold k. ring. }
  rewrite E, argminR_add.
  destruct (argminR (map (fun a => nthR o1 a + C1 a (S T) + pen) starts1)) as [[i b]|] eqn:Harg.
  - cbn [option_map addsnd fst snd]. rewrite drop_add.
    set (drop := map fst (filter _ _)).
    assert (Hnew : forall j, (j <= S T)%nat -> (j = 0 \/ m <= j)%nat ->
              nthR (o2 ++ [b + k]) j = nthR (o1 ++ [b]) j + (h j - h 0%nat)).
    { intros j Hj Hjm. unfold nthR. destruct (Nat.eq_dec j (S T)) as [->|Hne].
      - rewrite !app_nth2 by lia. rewrite Hl1, Hl2, Nat.sub_diag. cbn [nth]. unfold k. ring.
      - rewrite !app_nth1 by lia. apply Ho; [lia|exact Hjm]. }
    destruct (delay <? length (q1 ++ [drop]))%nat;
      constructor; cbn [optR prevR startsR pendingR];
      try reflexivity; try (rewrite app_length; cbn [length]; lia); try exact Hnew.
    all: intros a Ha; apply in_removeall in Ha as [Ha _]; destruct (Hv1 a Ha) as [H1 H2];
      split; [exact H1|lia].
  - exfalso. apply argminR_none, map_eq_nil in Harg. unfold starts1 in Harg.
    destruct st1; discriminate.
Qed.

Lemma runR_PRel : (2 * m - 1 <= n)%nat ->
  PRel n (runR C1 pen m delay n) (runR C2 pen m delay n).
Proof.
  intros Hn. unfold runR.
  replace n with (2 * m - 1 + (n - (2 * m - 1)))%nat at 1 by lia.
  apply (fold_left_seq_rel2 PRel).
  - intros T s1 s2 H1 H2 HP. apply stepR_PRel; [lia|lia|exact HP].
  - now apply initR_PRel.
Qed.
End PeltRPotential.

Theorem peltR_potential : forall (C1 C2 : nat -> nat -> R) (h : nat -> R) pen m delay n,
  (1 <= m)%nat -> (2 * m - 1 <= n)%nat ->
  (forall s e, (s + m <= e)%nat -> (e <= n)%nat -> C2 s e = C1 s e + (h e - h s)) ->
  snd (peltR C2 pen m delay n) = snd (peltR C1 pen m delay n) /\
  forall t, (m <= t <= n)%nat ->
    nth (t - 1) (fst (peltR C2 pen m delay n)) 0
    = nth (t - 1) (fst (peltR C1 pen m delay n)) 0 + (h t - h 0%nat).
Proof.
  intros C1 C2 h pen m delay n Hm Hn HC.
  destruct (runR_PRel C1 C2 h pen m delay n Hm HC Hn) as [Hp _ _ _ _ _ Ho].
  unfold peltR. cbn [fst snd]. split.
  - now rewrite Hp.
  - intros t Ht. rewrite !nth_tl. replace (S (t - 1)) with t by lia.
    apply Ho; [lia|right; lia].
Qed.

(** * SHIFT, PELT *)

(** the two built-in costs of a column (squared error around the fitted mean; Gaussian
    likelihood at the fitted mean and variance) *)
Definition l2_of (xs : list R) : nat -> nat -> R :=
  l2_cost_optim_R (prefix xs) (prefix (sq xs)).
Definition gvar_of (xs : list R) : nat -> nat -> R :=
  gaussian_var_cost_optim_R (prefix xs) (prefix (sq xs)).

Lemma l2_of_shift c xs s e : (s < e <= length xs)%nat -> l2_of (shift c xs) s e = l2_of xs s e.
Proof. intros H. exact (l2_optim_shift c xs s e H). Qed.

Lemma l2_of_slice xs s e : (s < e <= length xs)%nat -> l2_of xs s e = l2L (slice s e xs).
Proof. intros H. exact (l2_optim_slice xs s e H). Qed.

Lemma gvar_of_slice xs s e : (s < e <= length xs)%nat -> gvar_of xs s e = gvarL (slice s e xs).
Proof. intros H. exact (gvar_optim_slice xs s e H). Qed.

Lemma gvar_of_shift c xs s e : (s < e <= length xs)%nat -> gvar_of (shift c xs) s e = gvar_of xs s e.
Proof. intros H. exact (gvar_optim_shift c xs s e H). Qed.

(** any pruning delay *)
Theorem pelt_l2_shift_delay (c : R) (xs : list R) (pen : R) (m delay : nat) :
  (1 <= m)%nat -> (2 * m - 1 <= length xs)%nat ->
  peltR (l2_cost_optim_R (prefix (shift c xs)) (prefix (sq (shift c xs)))) pen m delay (length xs)
  = peltR (l2_cost_optim_R (prefix xs) (prefix (sq xs))) pen m delay (length xs).
Proof.
  intros Hm Hn. apply peltR_ext_valid_delay; [exact Hm|exact Hn|].
  intros s e H1 H2. apply (l2_of_shift c xs s e). lia.
Qed.

Theorem pelt_l2_shift (c : R) (xs : list R) (pen : R) (m : nat) :
  (1 <= m)%nat -> (2 * m - 1 <= length xs)%nat ->
  peltR (l2_cost_optim_R (prefix (shift c xs)) (prefix (sq (shift c xs)))) pen m (m - 1) (length xs)
  = peltR (l2_cost_optim_R (prefix xs) (prefix (sq xs))) pen m (m - 1) (length xs).
Proof. apply pelt_l2_shift_delay. Qed.

Theorem pelt_gvar_shift_delay (c : R) (xs : list R) (pen : R) (m delay : nat) :
  (1 <= m)%nat -> (2 * m - 1 <= length xs)%nat ->
  peltR (gaussian_var_cost_optim_R (prefix (shift c xs)) (prefix (sq (shift c xs)))) pen m delay (length xs)
  = peltR (gaussian_var_cost_optim_R (prefix xs) (prefix (sq xs))) pen m delay (length xs).
Proof.
  intros Hm Hn. apply peltR_ext_valid_delay; [exact Hm|exact Hn|].
  intros s e H1 H2. apply (gvar_of_shift c xs s e). lia.
Qed.

Theorem pelt_gvar_shift (c : R) (xs : list R) (pen : R) (m : nat) :
  (1 <= m)%nat -> (2 * m - 1 <= length xs)%nat ->
  peltR (gaussian_var_cost_optim_R (prefix (shift c xs)) (prefix (sq (shift c xs)))) pen m (m - 1) (length xs)
  = peltR (gaussian_var_cost_optim_R (prefix xs) (prefix (sq xs))) pen m (m - 1) (length xs).
Proof. apply pelt_gvar_shift_delay. Qed.

(** the same on the generic loop at the instance of the reals (the definition that is
    executed on binary64 tables) *)
Corollary gpelt_l2_shift (c : R) (xs : list R) (pen : R) (m : nat) :
  (1 <= m)%nat -> (2 * m - 1 <= length xs)%nat ->
  gpelt Rn (l2_cost_optim_R (prefix (shift c xs)) (prefix (sq (shift c xs)))) pen m (m - 1) (length xs)
  = gpelt Rn (l2_cost_optim_R (prefix xs) (prefix (sq xs))) pen m (m - 1) (length xs).
Proof. intros Hm Hn. rewrite !gpelt_R. now apply pelt_l2_shift. Qed.

Corollary gpelt_gvar_shift (c : R) (xs : list R) (pen : R) (m : nat) :
  (1 <= m)%nat -> (2 * m - 1 <= length xs)%nat ->
  gpelt Rn (gaussian_var_cost_optim_R (prefix (shift c xs)) (prefix (sq (shift c xs)))) pen m (m - 1) (length xs)
  = gpelt Rn (gaussian_var_cost_optim_R (prefix xs) (prefix (sq xs))) pen m (m - 1) (length xs).
Proof. intros Hm Hn. rewrite !gpelt_R. now apply pelt_gvar_shift. Qed.

(** several columns, each shifted by its own constant: [cxs] lists (constant, column);
    the aggregated cost is the sum over the columns ([l2_multi] of Proofs/PeltReal.v) *)
Definition shift_cols (cxs : list (R * list R)) : list (list R) :=
  map (fun cx => shift (fst cx) (snd cx)) cxs.

Lemma l2_multi_shift (cxs : list (R * list R)) (n s e : nat) :
  (forall cx, In cx cxs -> length (snd cx) = n) -> (s < e <= n)%nat ->
  l2_multi (shift_cols cxs) s e = l2_multi (map snd cxs) s e.
Proof.
  intros Hlen H. unfold l2_multi, shift_cols. rewrite !map_map. f_equal.
  apply map_ext_in. intros [c xs] Hin. cbn [fst snd].
  apply (l2_of_shift c xs s e). pose proof (Hlen (c, xs) Hin) as Hl. cbn [snd] in Hl. rewrite Hl. exact H.
Qed.

Theorem pelt_l2_multicolumn_shift (cxs : list (R * list R)) (pen : R) (m delay n : nat) :
  (1 <= m)%nat -> (2 * m - 1 <= n)%nat ->
  (forall cx, In cx cxs -> length (snd cx) = n) ->
  peltR (l2_multi (shift_cols cxs)) pen m delay n = peltR (l2_multi (map snd cxs)) pen m delay n.
Proof.
  intros Hm Hn Hlen. apply peltR_ext_valid_delay; [exact Hm|exact Hn|].
  intros s e H1 H2. apply (l2_multi_shift cxs n); [exact Hlen|lia].
Qed.

(** * SHIFT, the greedy detectors at the instance of the reals *)

Local Notation cscore := ScoreKernels.change_score.

Lemma l2_cscore_shift c xs s k e : (s < k < e)%nat -> (e <= length xs)%nat ->
  cscore (l2_of (shift c xs)) s k e = cscore (l2_of xs) s k e.
Proof. intros H He. rewrite <- !change_score_eq. exact (l2_change_score_shift c xs s k e H He). Qed.

Lemma gvar_cscore_shift c xs s k e : (s < k < e)%nat -> (e <= length xs)%nat ->
  cscore (gvar_of (shift c xs)) s k e = cscore (gvar_of xs) s k e.
Proof. intros H He. rewrite <- !change_score_eq. exact (gvar_change_score_shift c xs s k e H He). Qed.

(** The greedy detectors read their score only at cuts inside [0, n] whose parts are all
    non-empty: two scores that agree there give the same run. *)
Definition ivs_inside (ivs : list (nat * nat)) (n : nat) : Prop :=
  forall s e, In (s, e) ivs -> (e <= n)%nat.

Section InsideCuts.
Variable n : nat.

Lemma gmw_inside (CS CS' : nat -> nat -> nat -> R) b thr mdi : (1 <= b)%nat ->
  (forall s k e, (s < k < e)%nat -> (e <= n)%nat -> CS s k e = CS' s k e) ->
  gmw Rn CS b n thr mdi = gmw Rn CS' b n thr mdi.
Proof. intros Hb H. apply G08_only_valid_cuts_matter. intros t H1 H2. apply H; lia. Qed.

Lemma gsbs_inside (CS CS' : nat -> nat -> nat -> R) m thr ivs : (1 <= m)%nat -> ivs_inside ivs n ->
  (forall s k e, (s < k < e)%nat -> (e <= n)%nat -> CS s k e = CS' s k e) ->
  gsbs Rn CS m thr ivs = gsbs Rn CS' m thr ivs.
Proof.
  intros Hm Hiv H. apply G07_only_valid_cuts_matter. intros s e k Hin H1 H2.
  pose proof (Hiv s e Hin). apply H; lia.
Qed.

Lemma gcbs_inside (LS LS' : nat -> nat -> nat -> nat -> R) m thr ivs : (1 <= m)%nat -> ivs_inside ivs n ->
  (forall s i j e, (s < i)%nat -> (i < j)%nat -> (j < e)%nat -> (e <= n)%nat -> LS s i j e = LS' s i j e) ->
  gcbs Rn LS m thr ivs = gcbs Rn LS' m thr ivs.
Proof.
  intros Hm Hiv H. apply G09_only_valid_cuts_matter. intros s e i j Hin Hij.
  pose proof (Hiv s e Hin). apply anomaly_intervals_valid in Hij as (A1 & A2 & A3 & A4).
  apply H; lia.
Qed.
End InsideCuts.

(** ** moving window: bandwidth [b >= 1], the cuts read are (t - b, t, t + b) inside [0, n] *)
Theorem mw_cusum_shift (c : R) (xs : list R) (b : nat) (thr : R) (mdi : nat) :
  (1 <= b)%nat ->
  gmw Rn (cusum_score_R (prefix (shift c xs))) b (length xs) thr mdi
  = gmw Rn (cusum_score_R (prefix xs)) b (length xs) thr mdi.
Proof. intros Hb. exact (gmw_inside _ _ _ b thr mdi Hb (cusum_shift c xs)). Qed.

Theorem mw_l2_shift (c : R) (xs : list R) (b : nat) (thr : R) (mdi : nat) :
  (1 <= b)%nat ->
  gmw Rn (ScoreKernels.change_score (l2_cost_optim_R (prefix (shift c xs)) (prefix (sq (shift c xs)))))
      b (length xs) thr mdi
  = gmw Rn (ScoreKernels.change_score (l2_cost_optim_R (prefix xs) (prefix (sq xs))))
      b (length xs) thr mdi.
Proof. intros Hb. exact (gmw_inside _ _ _ b thr mdi Hb (l2_cscore_shift c xs)). Qed.

Theorem mw_gvar_shift (c : R) (xs : list R) (b : nat) (thr : R) (mdi : nat) :
  (1 <= b)%nat ->
  gmw Rn (ScoreKernels.change_score (gaussian_var_cost_optim_R (prefix (shift c xs)) (prefix (sq (shift c xs)))))
      b (length xs) thr mdi
  = gmw Rn (ScoreKernels.change_score (gaussian_var_cost_optim_R (prefix xs) (prefix (sq xs))))
      b (length xs) thr mdi.
Proof. intros Hb. exact (gmw_inside _ _ _ b thr mdi Hb (gvar_cscore_shift c xs)). Qed.

(** ** seeded binary segmentation: any list of intervals inside [0, n], minimum size [m >= 1] *)
Theorem sbs_cusum_shift (c : R) (xs : list R) (m : nat) (thr : R) (ivs : list (nat * nat)) :
  (1 <= m)%nat -> ivs_inside ivs (length xs) ->
  gsbs Rn (cusum_score_R (prefix (shift c xs))) m thr ivs
  = gsbs Rn (cusum_score_R (prefix xs)) m thr ivs.
Proof. intros Hm Hiv. exact (gsbs_inside _ _ _ m thr ivs Hm Hiv (cusum_shift c xs)). Qed.

Theorem sbs_l2_shift (c : R) (xs : list R) (m : nat) (thr : R) (ivs : list (nat * nat)) :
  (1 <= m)%nat -> ivs_inside ivs (length xs) ->
  gsbs Rn (ScoreKernels.change_score (l2_cost_optim_R (prefix (shift c xs)) (prefix (sq (shift c xs))))) m thr ivs
  = gsbs Rn (ScoreKernels.change_score (l2_cost_optim_R (prefix xs) (prefix (sq xs)))) m thr ivs.
Proof. intros Hm Hiv. exact (gsbs_inside _ _ _ m thr ivs Hm Hiv (l2_cscore_shift c xs)). Qed.

Theorem sbs_gvar_shift (c : R) (xs : list R) (m : nat) (thr : R) (ivs : list (nat * nat)) :
  (1 <= m)%nat -> ivs_inside ivs (length xs) ->
  gsbs Rn (ScoreKernels.change_score (gaussian_var_cost_optim_R (prefix (shift c xs)) (prefix (sq (shift c xs))))) m thr ivs
  = gsbs Rn (ScoreKernels.change_score (gaussian_var_cost_optim_R (prefix xs) (prefix (sq xs)))) m thr ivs.
Proof. intros Hm Hiv. exact (gsbs_inside _ _ _ m thr ivs Hm Hiv (gvar_cscore_shift c xs)). Qed.

(** ** circular binary segmentation

    The local anomaly score of the cut (s, i, j, e) compares the cost of the whole
    interval [s, e) with the cost of the inner part [i, j) plus the cost of the
    surroundings [s, i) and [j, e) POOLED into one sample.  The pooled sample is not an
    interval of the column, so its cost is not a value of the prefix-sum kernel at two
    indices; it is the list-level statistic of Proofs/Symmetry.v ([l2L], [gvarL]: the
    same function of length, sum and sum of squares, [l2_optim_slice] /
    [gvar_optim_slice]) of the concatenated slices, plugged into the adapter
    [local_score] of Proofs/ScoreKernels.v. *)
Definition pooled (xs : list R) (s i j e : nat) : list R := slice s i xs ++ slice j e xs.

Definition l2_local (xs : list R) (s i j e : nat) : R :=
  local_score (l2_of xs) (l2L (pooled xs s i j e)) s i j e.
Definition gvar_local (xs : list R) (s i j e : nat) : R :=
  local_score (gvar_of xs) (gvarL (pooled xs s i j e)) s i j e.

Lemma pooled_shift c xs s i j e : pooled (shift c xs) s i j e = shift c (pooled xs s i j e).
Proof. unfold pooled. now rewrite !slice_shift, shift_app. Qed.

Lemma pooled_length xs s i j e : (s <= i)%nat -> (i <= j)%nat -> (j <= e)%nat -> (e <= length xs)%nat ->
  length (pooled xs s i j e) = ((i - s) + (e - j))%nat.
Proof. intros H1 H2 H3 H4. unfold pooled. rewrite app_length, !slice_length by lia. reflexivity. Qed.

(** on valid cuts these are the list-level local scores of Proofs/Symmetry.v *)
Lemma l2_local_is_listscore xs s i j e : (s < i)%nat -> (i < j)%nat -> (j < e)%nat -> (e <= length xs)%nat ->
  l2_local xs s i j e
  = local_listscore l2L (slice s e xs) (slice i j xs) (slice s i xs) (slice j e xs).
Proof.
  intros H1 H2 H3 H4. unfold l2_local, local_score, local_listscore, pooled.
  rewrite (l2_of_slice xs s e) by lia. rewrite (l2_of_slice xs i j) by lia. ring.
Qed.

Lemma gvar_local_is_listscore xs s i j e : (s < i)%nat -> (i < j)%nat -> (j < e)%nat -> (e <= length xs)%nat ->
  gvar_local xs s i j e
  = local_listscore gvarL (slice s e xs) (slice i j xs) (slice s i xs) (slice j e xs).
Proof.
  intros H1 H2 H3 H4. unfold gvar_local, local_score, local_listscore, pooled.
  rewrite (gvar_of_slice xs s e) by lia. rewrite (gvar_of_slice xs i j) by lia. ring.
Qed.

Lemma l2_local_shift c xs s i j e : (s < i)%nat -> (i < j)%nat -> (j < e)%nat -> (e <= length xs)%nat ->
  l2_local (shift c xs) s i j e = l2_local xs s i j e.
Proof.
  intros H1 H2 H3 H4. unfold l2_local, local_score.
  rewrite pooled_shift, l2L_shift by (rewrite pooled_length; lia).
  rewrite !l2_of_shift by lia. reflexivity.
Qed.

Lemma gvar_local_shift c xs s i j e : (s < i)%nat -> (i < j)%nat -> (j < e)%nat -> (e <= length xs)%nat ->
  gvar_local (shift c xs) s i j e = gvar_local xs s i j e.
Proof.
  intros H1 H2 H3 H4. unfold gvar_local, local_score.
  rewrite pooled_shift, gvarL_shift by (rewrite pooled_length; lia).
  rewrite !gvar_of_shift by lia. reflexivity.
Qed.

Theorem cbs_l2_shift (c : R) (xs : list R) (m : nat) (thr : R) (ivs : list (nat * nat)) :
  (1 <= m)%nat -> ivs_inside ivs (length xs) ->
  gcbs Rn (l2_local (shift c xs)) m thr ivs = gcbs Rn (l2_local xs) m thr ivs.
Proof. intros Hm Hiv. exact (gcbs_inside _ _ _ m thr ivs Hm Hiv (l2_local_shift c xs)). Qed.

Theorem cbs_gvar_shift (c : R) (xs : list R) (m : nat) (thr : R) (ivs : list (nat * nat)) :
  (1 <= m)%nat -> ivs_inside ivs (length xs) ->
  gcbs Rn (gvar_local (shift c xs)) m thr ivs = gcbs Rn (gvar_local xs) m thr ivs.
Proof. intros Hm Hiv. exact (gcbs_inside _ _ _ m thr ivs Hm Hiv (gvar_local_shift c xs)). Qed.

(** * SCALE by a > 0, Gaussian mean-and-variance cost

    The generated Gaussian cost clips the variance estimate at [floor_var] = 1e-16, so
    the kernel identity [gvar_optim_scale] needs the un-floored variance [uvar_se] of
    the segment to be at least the floor both before and after scaling (with a floor
    that is active on one side only the identity is false).  [floor_ok a xs s e] is
    that pair of conditions for the segment [s, e); every theorem below asks for it
    exactly on the segments the search reads. *)

Definition floor_ok (a : R) (xs : list R) (s e : nat) : Prop :=
  floor_var <= uvar_se xs s e /\ floor_var <= uvar_se (scale a xs) s e.

(** scaling up never takes a variance below the floor *)
Lemma floor_ok_scale_up a xs s e : 1 <= a -> (s < e <= length xs)%nat ->
  floor_var <= uvar_se xs s e -> floor_ok a xs s e.
Proof.
  intros Ha H Hf. split; [exact Hf|]. apply above_floor_scale; [exact H|nra|exact Hf].
Qed.

Lemma gvar_of_scale a xs s e : 0 < a -> (s < e <= length xs)%nat -> floor_ok a xs s e ->
  gvar_of (scale a xs) s e = gvar_of xs s e + INR (e - s) * ln (a ^ 2).
Proof. intros Ha H [F F']. exact (gvar_optim_scale a xs s e Ha H F F'). Qed.

Lemma gvar_cscore_scale a xs s k e : 0 < a -> (s < k < e)%nat -> (e <= length xs)%nat ->
  floor_ok a xs s e -> floor_ok a xs s k -> floor_ok a xs k e ->
  cscore (gvar_of (scale a xs)) s k e = cscore (gvar_of xs) s k e.
Proof.
  intros Ha H He [F1 F1'] [F2 F2'] [F3 F3']. rewrite <- !change_score_eq.
  exact (gvar_change_score_scale' a xs s k e Ha H He F1 F1' F2 F2' F3 F3').
Qed.

(** ** PELT: the cost of [s, e) moves by (e - s) ln a^2, a potential difference: the
       changepoints are unchanged and the optimal value at [t] moves by t ln a^2 *)
Theorem pelt_gvar_scale_delay (a : R) (xs : list R) (pen : R) (m delay : nat) :
  0 < a -> (1 <= m)%nat -> (2 * m - 1 <= length xs)%nat ->
  (forall s e, (s + m <= e)%nat -> (e <= length xs)%nat -> floor_ok a xs s e) ->
  let out  := peltR (gaussian_var_cost_optim_R (prefix xs) (prefix (sq xs))) pen m delay (length xs) in
  let out' := peltR (gaussian_var_cost_optim_R (prefix (scale a xs)) (prefix (sq (scale a xs))))
                    pen m delay (length xs) in
  snd out' = snd out /\
  forall t, (m <= t <= length xs)%nat ->
    nth (t - 1) (fst out') 0 = nth (t - 1) (fst out) 0 + INR t * ln (a ^ 2).
Proof.
  intros Ha Hm Hn Hf out out'.
  destruct (peltR_potential (gvar_of xs) (gvar_of (scale a xs)) (fun i => INR i * ln (a ^ 2))
              pen m delay (length xs) Hm Hn) as [Hc Hs].
  - intros s e H1 H2. rewrite gvar_of_scale by (try exact Ha; try (apply Hf; lia); lia).
    rewrite minus_INR by lia. ring.
  - split; [exact Hc|]. intros t Ht. unfold out, out'. fold (gvar_of xs). fold (gvar_of (scale a xs)).
    rewrite (Hs t Ht). cbn [INR]. ring.
Qed.

Theorem pelt_gvar_scale (a : R) (xs : list R) (pen : R) (m : nat) :
  0 < a -> (1 <= m)%nat -> (2 * m - 1 <= length xs)%nat ->
  (forall s e, (s + m <= e)%nat -> (e <= length xs)%nat -> floor_ok a xs s e) ->
  snd (peltR (gaussian_var_cost_optim_R (prefix (scale a xs)) (prefix (sq (scale a xs))))
             pen m (m - 1) (length xs))
  = snd (peltR (gaussian_var_cost_optim_R (prefix xs) (prefix (sq xs))) pen m (m - 1) (length xs)).
Proof.
  intros Ha Hm Hn Hf. exact (proj1 (pelt_gvar_scale_delay a xs pen m (m - 1) Ha Hm Hn Hf)).
Qed.

(** for a >= 1 the condition on the original data is enough *)
Corollary pelt_gvar_scale_up (a : R) (xs : list R) (pen : R) (m : nat) :
  1 <= a -> (1 <= m)%nat -> (2 * m - 1 <= length xs)%nat ->
  (forall s e, (s + m <= e)%nat -> (e <= length xs)%nat -> floor_var <= uvar_se xs s e) ->
  snd (peltR (gaussian_var_cost_optim_R (prefix (scale a xs)) (prefix (sq (scale a xs))))
             pen m (m - 1) (length xs))
  = snd (peltR (gaussian_var_cost_optim_R (prefix xs) (prefix (sq xs))) pen m (m - 1) (length xs)).
Proof.
  intros Ha Hm Hn Hf. apply pelt_gvar_scale; [lra|exact Hm|exact Hn|].
  intros s e H1 H2. apply floor_ok_scale_up; [exact Ha|lia|now apply Hf].
Qed.

(** ** moving window *)
Theorem mw_gvar_scale (a : R) (xs : list R) (b : nat) (thr : R) (mdi : nat) :
  0 < a -> (1 <= b)%nat ->
  (forall t, (b <= t)%nat -> (t + b <= length xs)%nat ->
     floor_ok a xs (t - b) (t + b) /\ floor_ok a xs (t - b) t /\ floor_ok a xs t (t + b)) ->
  gmw Rn (ScoreKernels.change_score (gaussian_var_cost_optim_R (prefix (scale a xs)) (prefix (sq (scale a xs)))))
      b (length xs) thr mdi
  = gmw Rn (ScoreKernels.change_score (gaussian_var_cost_optim_R (prefix xs) (prefix (sq xs))))
      b (length xs) thr mdi.
Proof.
  intros Ha Hb Hf. apply G08_only_valid_cuts_matter. intros t H1 H2.
  destruct (Hf t H1 H2) as (F1 & F2 & F3).
  apply (gvar_cscore_scale a xs); try assumption; lia.
Qed.

(** ** seeded binary segmentation *)
Theorem sbs_gvar_scale (a : R) (xs : list R) (m : nat) (thr : R) (ivs : list (nat * nat)) :
  0 < a -> (1 <= m)%nat -> ivs_inside ivs (length xs) ->
  (forall s e k, In (s, e) ivs -> (s + m <= k)%nat -> (k + m <= e)%nat ->
     floor_ok a xs s e /\ floor_ok a xs s k /\ floor_ok a xs k e) ->
  gsbs Rn (ScoreKernels.change_score (gaussian_var_cost_optim_R (prefix (scale a xs)) (prefix (sq (scale a xs))))) m thr ivs
  = gsbs Rn (ScoreKernels.change_score (gaussian_var_cost_optim_R (prefix xs) (prefix (sq xs)))) m thr ivs.
Proof.
  intros Ha Hm Hiv Hf. apply G07_only_valid_cuts_matter. intros s e k Hin H1 H2.
  pose proof (Hiv s e Hin) as He. destruct (Hf s e k Hin H1 H2) as (F1 & F2 & F3).
  apply (gvar_cscore_scale a xs); try assumption; lia.
Qed.

(** ** circular binary segmentation: the pooled surroundings are a sample of their own *)
Definition pooled_floor_ok (a : R) (xs : list R) (s i j e : nat) : Prop :=
  floor_var <= uvar (pooled xs s i j e) /\ floor_var <= uvar (pooled (scale a xs) s i j e).

Lemma pooled_scale a xs s i j e : pooled (scale a xs) s i j e = scale a (pooled xs s i j e).
Proof. unfold pooled. now rewrite !slice_scale, scale_app. Qed.

Lemma gvar_local_scale a xs s i j e :
  0 < a -> (s < i)%nat -> (i < j)%nat -> (j < e)%nat -> (e <= length xs)%nat ->
  floor_ok a xs s e -> floor_ok a xs i j -> pooled_floor_ok a xs s i j e ->
  gvar_local (scale a xs) s i j e = gvar_local xs s i j e.
Proof.
  intros Ha H1 H2 H3 H4 Fw Fi [Fp Fp']. unfold gvar_local, local_score.
  rewrite pooled_scale in Fp' |- *.
  rewrite (gvarL_scale a (pooled xs s i j e)); [|lra|rewrite pooled_length; lia|exact Fp|exact Fp'].
  rewrite !gvar_of_scale by (try assumption; lia).
  rewrite pooled_length by lia.
  replace (e - s)%nat with ((j - i) + ((i - s) + (e - j)))%nat by lia.
  rewrite (plus_INR (j - i)). ring.
Qed.

Theorem cbs_gvar_scale (a : R) (xs : list R) (m : nat) (thr : R) (ivs : list (nat * nat)) :
  0 < a -> (1 <= m)%nat -> ivs_inside ivs (length xs) ->
  (forall s e i j, In (s, e) ivs -> In (i, j) (anomaly_intervals s e m) ->
     floor_ok a xs s e /\ floor_ok a xs i j /\ pooled_floor_ok a xs s i j e) ->
  gcbs Rn (gvar_local (scale a xs)) m thr ivs = gcbs Rn (gvar_local xs) m thr ivs.
Proof.
  intros Ha Hm Hiv Hf. apply G09_only_valid_cuts_matter. intros s e i j Hin Hij.
  pose proof (Hiv s e Hin) as He. destruct (Hf s e i j Hin Hij) as (F1 & F2 & F3).
  apply anomaly_intervals_valid in Hij as (A1 & A2 & A3 & A4).
  apply gvar_local_scale; try assumption; lia.
Qed.

(** * REVERSAL, PELT's optimal penalised cost *)

(** the cost of the mirrored interval (twin of [Crev] of Proofs/PeltRefine.v) *)
Definition CrevR (C : nat -> nat -> R) (n : nat) : nat -> nat -> R :=
  fun s e => C (n - e)%nat (n - s)%nat.

(** the recursion [FR] reads the cost only at valid cuts *)
Lemma FR_ext_valid (C1 C2 : nat -> nat -> R) (pen : R) (m n : nat) : (1 <= m)%nat ->
  (forall s e, (s + m <= e)%nat -> (e <= n)%nat -> C1 s e = C2 s e) ->
  forall t, (t <= n)%nat -> FR C1 pen m t = FR C2 pen m t.
Proof.
  intros Hm HC t. induction t as [t IH] using lt_wf_ind. intros Ht.
  destruct (lt_dec t m) as [Hlt|Hge].
  - rewrite !FR_small by assumption. reflexivity.
  - rewrite !FR_unfold by lia. f_equal.
    + unfold candFR. rewrite !FR0. rewrite HC by lia. reflexivity.
    + apply map_ext_in. intros s Hs. apply in_admN in Hs. unfold candFR.
      rewrite (IH s) by lia. rewrite HC by lia. reflexivity.
Qed.

Lemma segcostR_rev C m n : (1 <= m)%nat -> forall c p T, admseg m p c T -> (T <= n)%nat ->
  segcostR (CrevR C n) (n - T) (revc n c) (n - p) = segcostR C p c T.
Proof.
  intros m_pos. induction c as [|a l IH]; intros p T H HT.
  - cbn [admseg] in H. unfold revc. cbn [map rev segcostR].
    unfold CrevR. f_equal; lia.
  - cbn [admseg] in H. destruct H as [H1 H2].
    pose proof (admseg_ge m m_pos a l T H2) as Hge.
    rewrite revc_cons, segcostR_snoc, (IH a T H2 HT). cbn [segcostR].
    unfold CrevR. replace (n - (n - p))%nat with p by lia. replace (n - (n - a))%nat with a by lia.
    lra.
Qed.

(** the mirror image of an optimal segmentation for [C] is admissible and has the same
    penalised cost under the mirrored cost *)
Lemma FR_reverse_le C pen m n : (1 <= m)%nat -> FR (CrevR C n) pen m n <= FR C pen m n.
Proof.
  intros m_pos. destruct (lt_dec n m) as [Hlt|Hge].
  - rewrite !FR_small by assumption. apply Rle_refl.
  - destruct (FR_upper C pen m n m_pos ltac:(lia)) as (c & A & <-).
    pose proof (admseg_rev m n m_pos c 0%nat n A (le_n n)) as A'.
    pose proof (segcostR_rev C m n m_pos c 0%nat n A (le_n n)) as E.
    rewrite Nat.sub_diag, Nat.sub_0_r in A', E.
    unfold pencostR. rewrite <- E, <- (revc_length n c).
    exact (FR_lower (CrevR C n) pen m n (revc n c) m_pos A').
Qed.

(** mirroring twice gives back [C] on [0, n], hence the other inequality *)
Theorem FR_reverse C pen m n : (1 <= m)%nat -> FR (CrevR C n) pen m n = FR C pen m n.
Proof.
  intros m_pos. apply Rle_antisym; [now apply FR_reverse_le|].
  assert (E : forall s e, (s + m <= e)%nat -> (e <= n)%nat -> CrevR (CrevR C n) n s e = C s e)
    by (intros s e H1 H2; unfold CrevR; f_equal; lia).
  rewrite <- (FR_ext_valid _ _ pen m n m_pos E n (le_n n)). now apply FR_reverse_le.
Qed.

Section ReversalEndToEnd.
Variable xs : list R.
Local Notation n := (length xs).

(** the optimal penalised cost of the optimal-partitioning recursion is the same for the
    reversed column: squared-error cost ... *)
Theorem FR_l2_rev (pen : R) (m : nat) : (1 <= m)%nat ->
  FR (l2_cost_optim_R (prefix (rev xs)) (prefix (sq (rev xs)))) pen m n
  = FR (l2_cost_optim_R (prefix xs) (prefix (sq xs))) pen m n.
Proof.
  intros Hm. transitivity (FR (CrevR (l2_of (rev xs)) n) pen m n).
  - symmetry. exact (FR_reverse (l2_of (rev xs)) pen m n Hm).
  - apply (FR_ext_valid _ _ pen m n Hm); [|lia].
    intros s e H1 H2. unfold CrevR. apply (l2_optim_rev xs s e). lia.
Qed.

(** ... and Gaussian mean-and-variance cost (no condition on the data: the floor is
    applied to the same variance on both sides) *)
Theorem FR_gvar_rev (pen : R) (m : nat) : (1 <= m)%nat ->
  FR (gaussian_var_cost_optim_R (prefix (rev xs)) (prefix (sq (rev xs)))) pen m n
  = FR (gaussian_var_cost_optim_R (prefix xs) (prefix (sq xs))) pen m n.
Proof.
  intros Hm. transitivity (FR (CrevR (gvar_of (rev xs)) n) pen m n).
  - symmetry. exact (FR_reverse (gvar_of (rev xs)) pen m n Hm).
  - apply (FR_ext_valid _ _ pen m n Hm); [|lia].
    intros s e H1 H2. unfold CrevR. apply (gvar_optim_rev xs s e). lia.
Qed.

(** hence the final score of the PELT run (its optimal penalised cost) ... *)
Theorem pelt_l2_rev_final_score (pen : R) (m : nat) :
  (1 <= m)%nat -> (2 * m <= n)%nat -> 0 <= pen ->
  nth (n - 1) (fst (peltR (l2_cost_optim_R (prefix (rev xs)) (prefix (sq (rev xs)))) pen m (m - 1) n)) 0
  = nth (n - 1) (fst (peltR (l2_cost_optim_R (prefix xs) (prefix (sq xs))) pen m (m - 1) n)) 0.
Proof.
  intros Hm Hn Hp.
  rewrite (peltR_scores_optimal _ pen m (m - 1) n Hm Hn Hp ltac:(lia) (l2_kernel_split (rev xs) m Hm) n)
    by lia.
  rewrite (peltR_scores_optimal _ pen m (m - 1) n Hm Hn Hp ltac:(lia) (l2_kernel_split xs m Hm) n)
    by lia.
  now apply FR_l2_rev.
Qed.

(** ... and the penalised cost of the segmentation returned for the reversed column,
    measured on the reversed column, is that of the segmentation returned for the
    original one *)
Corollary pelt_l2_rev_pencost (pen : R) (m : nat) :
  (1 <= m)%nat -> (2 * m <= n)%nat -> 0 <= pen ->
  let Cr := l2_cost_optim_R (prefix (rev xs)) (prefix (sq (rev xs))) in
  let Co := l2_cost_optim_R (prefix xs) (prefix (sq xs)) in
  pencostR Cr pen (snd (peltR Cr pen m (m - 1) n)) n
  = pencostR Co pen (snd (peltR Co pen m (m - 1) n)) n.
Proof.
  intros Hm Hn Hp Cr Co. unfold Cr, Co.
  rewrite <- !peltR_final_is_pencost by assumption.
  now apply pelt_l2_rev_final_score.
Qed.
End ReversalEndToEnd.

(** * REVERSAL, Gaussian cost: final score of the run

    The optimality theorem for the Gaussian cost needs the variance of every segment of
    length >= m to be above the floor ([var_above_floor] of Proofs/PeltReal.v); the
    condition is mirror symmetric. *)

Lemma varR_rev (l : list R) : varR (rev l) = varR l.
Proof.
  destruct l as [|x t]; [reflexivity|].
  assert (Hl : (0 < length (x :: t))%nat) by (cbn [length]; lia).
  rewrite <- !uvar_varR by (rewrite ?rev_length; exact Hl). apply uvar_rev.
Qed.

Lemma var_above_floor_rev (xs : list R) (m : nat) :
  var_above_floor xs m -> var_above_floor (rev xs) m.
Proof.
  intros Hv s e H1 H2. rewrite rev_length in H2.
  pose proof (slice_rev xs (length xs - e) (length xs - s) ltac:(lia)) as E.
  replace (length xs - (length xs - s))%nat with s in E by lia.
  replace (length xs - (length xs - e))%nat with e in E by lia.
  rewrite E, varR_rev. apply Hv; lia.
Qed.

Theorem pelt_gvar_rev_final_score (xs : list R) (pen : R) (m : nat) :
  (1 <= m)%nat -> (2 * m <= length xs)%nat -> 0 <= pen -> var_above_floor xs m ->
  nth (length xs - 1)
      (fst (peltR (gaussian_var_cost_optim_R (prefix (rev xs)) (prefix (sq (rev xs)))) pen m (m - 1) (length xs))) 0
  = nth (length xs - 1)
      (fst (peltR (gaussian_var_cost_optim_R (prefix xs) (prefix (sq xs))) pen m (m - 1) (length xs))) 0.
Proof.
  intros Hm Hn Hp Hv.
  assert (Hsr : forall s k e, (s + m <= k)%nat -> (k + m <= e)%nat -> (e <= length xs)%nat ->
            gvar_of (rev xs) s k + gvar_of (rev xs) k e <= gvar_of (rev xs) s e).
  { intros s k e H1 H2 H3. apply (gvar_kernel_split (rev xs) m Hm (var_above_floor_rev xs m Hv)); try assumption.
    rewrite rev_length. exact H3. }
  change (nth (length xs - 1) (fst (peltR (gvar_of (rev xs)) pen m (m - 1) (length xs))) 0
          = nth (length xs - 1) (fst (peltR (gvar_of xs) pen m (m - 1) (length xs))) 0).
  rewrite (peltR_scores_optimal_bounded _ pen m (m - 1) (length xs) Hm Hn Hp ltac:(lia) Hsr (length xs)) by lia.
  rewrite (peltR_scores_optimal_bounded (gvar_of xs) pen m (m - 1) (length xs) Hm Hn Hp ltac:(lia)
             (gvar_kernel_split xs m Hm Hv) (length xs)) by lia.
  now apply FR_gvar_rev.
Qed.

(** * Several columns, each shifted by its own constant

    The detectors read the SUM over the columns of the per-column scores
    (np.sum(..., axis=1) in the code).  [cxs] lists (constant, column) as in
    [pelt_l2_multicolumn_shift]. *)

Definition sum_cols (F : list R -> R) (xss : list (list R)) : R :=
  fold_right Rplus 0 (map F xss).

(** summed CUSUM score, summed L2 change score, summed L2 local score *)
Definition cusum_multi (xss : list (list R)) (s k e : nat) : R :=
  sum_cols (fun xs => cusum_score_R (prefix xs) s k e) xss.
Definition l2_cscore_multi (xss : list (list R)) (s k e : nat) : R :=
  sum_cols (fun xs => ScoreKernels.change_score (l2_cost_optim_R (prefix xs) (prefix (sq xs))) s k e) xss.
Definition l2_local_multi (xss : list (list R)) (s i j e : nat) : R :=
  sum_cols (fun xs => l2_local xs s i j e) xss.

Section MultiShift.
Variables (cxs : list (R * list R)) (n : nat).
Hypothesis Hlen : forall cx, In cx cxs -> length (snd cx) = n.

Lemma sum_cols_shift (F : list R -> R) :
  (forall c xs, length xs = n -> F (shift c xs) = F xs) ->
  sum_cols F (shift_cols cxs) = sum_cols F (map snd cxs).
Proof.
  intros H. unfold sum_cols, shift_cols. rewrite !map_map. f_equal.
  apply map_ext_in. intros [c xs] Hin. apply H. exact (Hlen (c, xs) Hin).
Qed.

Lemma cusum_multi_shift s k e : (s < k < e)%nat -> (e <= n)%nat ->
  cusum_multi (shift_cols cxs) s k e = cusum_multi (map snd cxs) s k e.
Proof. intros H He. apply sum_cols_shift. intros c xs <-. now apply cusum_shift. Qed.

Lemma l2_cscore_multi_shift s k e : (s < k < e)%nat -> (e <= n)%nat ->
  l2_cscore_multi (shift_cols cxs) s k e = l2_cscore_multi (map snd cxs) s k e.
Proof. intros H He. apply sum_cols_shift. intros c xs <-. now apply l2_cscore_shift. Qed.

Lemma l2_local_multi_shift s i j e : (s < i)%nat -> (i < j)%nat -> (j < e)%nat -> (e <= n)%nat ->
  l2_local_multi (shift_cols cxs) s i j e = l2_local_multi (map snd cxs) s i j e.
Proof. intros H1 H2 H3 He. apply sum_cols_shift. intros c xs <-. now apply l2_local_shift. Qed.

Theorem mw_cusum_multicolumn_shift (b : nat) (thr : R) (mdi : nat) : (1 <= b)%nat ->
  gmw Rn (cusum_multi (shift_cols cxs)) b n thr mdi = gmw Rn (cusum_multi (map snd cxs)) b n thr mdi.
Proof. intros Hb. exact (gmw_inside _ _ _ b thr mdi Hb cusum_multi_shift). Qed.

Theorem mw_l2_multicolumn_shift (b : nat) (thr : R) (mdi : nat) : (1 <= b)%nat ->
  gmw Rn (l2_cscore_multi (shift_cols cxs)) b n thr mdi
  = gmw Rn (l2_cscore_multi (map snd cxs)) b n thr mdi.
Proof. intros Hb. exact (gmw_inside _ _ _ b thr mdi Hb l2_cscore_multi_shift). Qed.

Theorem sbs_cusum_multicolumn_shift (m : nat) (thr : R) (ivs : list (nat * nat)) :
  (1 <= m)%nat -> ivs_inside ivs n ->
  gsbs Rn (cusum_multi (shift_cols cxs)) m thr ivs = gsbs Rn (cusum_multi (map snd cxs)) m thr ivs.
Proof. intros Hm Hiv. exact (gsbs_inside _ _ _ m thr ivs Hm Hiv cusum_multi_shift). Qed.

Theorem sbs_l2_multicolumn_shift (m : nat) (thr : R) (ivs : list (nat * nat)) :
  (1 <= m)%nat -> ivs_inside ivs n ->
  gsbs Rn (l2_cscore_multi (shift_cols cxs)) m thr ivs
  = gsbs Rn (l2_cscore_multi (map snd cxs)) m thr ivs.
Proof. intros Hm Hiv. exact (gsbs_inside _ _ _ m thr ivs Hm Hiv l2_cscore_multi_shift). Qed.

Theorem cbs_l2_multicolumn_shift (m : nat) (thr : R) (ivs : list (nat * nat)) :
  (1 <= m)%nat -> ivs_inside ivs n ->
  gcbs Rn (l2_local_multi (shift_cols cxs)) m thr ivs
  = gcbs Rn (l2_local_multi (map snd cxs)) m thr ivs.
Proof. intros Hm Hiv. exact (gcbs_inside _ _ _ m thr ivs Hm Hiv l2_local_multi_shift). Qed.
End MultiShift.

(** * A concrete instance *)

Definition sym_ex_xs : list R := [1; 2; 0; 7; 8; 6].
Definition sym_ex_ivs : list (nat * nat) := [(0, 6); (0, 4); (2, 6)]%nat.

Lemma sym_ex_shifted : shift 5 sym_ex_xs = [6; 7; 5; 12; 13; 11].
Proof. unfold shift, sym_ex_xs. cbn [map]. repeat (f_equal; try lra). Qed.

Lemma sym_ex_ivs_inside : ivs_inside sym_ex_ivs (length sym_ex_xs).
Proof.
  intros s e [H|[H|[H|[]]]]; inversion H; subst; cbn [length sym_ex_xs]; lia.
Qed.

(** the moving window run (bandwidth 2, threshold 1, minimum detection interval 1) on
    the CUSUM scores of 1 2 0 7 8 6 and of 6 7 5 12 13 11 is the same run *)
Example mw_cusum_shift_example :
  gmw Rn (cusum_score_R (prefix [6; 7; 5; 12; 13; 11])) 2 6 1 1
  = gmw Rn (cusum_score_R (prefix [1; 2; 0; 7; 8; 6])) 2 6 1 1.
Proof.
  rewrite <- sym_ex_shifted. exact (mw_cusum_shift 5 sym_ex_xs 2 1 1%nat ltac:(lia)).
Qed.

Example mw_l2_shift_example :
  gmw Rn (ScoreKernels.change_score
            (l2_cost_optim_R (prefix [6; 7; 5; 12; 13; 11]) (prefix (sq [6; 7; 5; 12; 13; 11])))) 2 6 1 1
  = gmw Rn (ScoreKernels.change_score
            (l2_cost_optim_R (prefix [1; 2; 0; 7; 8; 6]) (prefix (sq [1; 2; 0; 7; 8; 6])))) 2 6 1 1.
Proof.
  rewrite <- sym_ex_shifted. exact (mw_l2_shift 5 sym_ex_xs 2 1 1%nat ltac:(lia)).
Qed.

Example sbs_cusum_shift_example :
  gsbs Rn (cusum_score_R (prefix [6; 7; 5; 12; 13; 11])) 1 1 sym_ex_ivs
  = gsbs Rn (cusum_score_R (prefix [1; 2; 0; 7; 8; 6])) 1 1 sym_ex_ivs.
Proof.
  rewrite <- sym_ex_shifted. exact (sbs_cusum_shift 5 sym_ex_xs 1 1 sym_ex_ivs ltac:(lia) sym_ex_ivs_inside).
Qed.

Example cbs_l2_shift_example :
  gcbs Rn (l2_local [6; 7; 5; 12; 13; 11]) 1 1 sym_ex_ivs
  = gcbs Rn (l2_local [1; 2; 0; 7; 8; 6]) 1 1 sym_ex_ivs.
Proof.
  rewrite <- sym_ex_shifted. exact (cbs_l2_shift 5 sym_ex_xs 1 1 sym_ex_ivs ltac:(lia) sym_ex_ivs_inside).
Qed.

Example pelt_l2_shift_example :
  peltR (l2_cost_optim_R (prefix [6; 7; 5; 12; 13; 11]) (prefix (sq [6; 7; 5; 12; 13; 11]))) 3 2 1 6
  = peltR (l2_cost_optim_R (prefix [1; 2; 0; 7; 8; 6]) (prefix (sq [1; 2; 0; 7; 8; 6]))) 3 2 1 6.
Proof.
  rewrite <- sym_ex_shifted.
  exact (pelt_l2_shift 5 sym_ex_xs 3 2 ltac:(lia) ltac:(cbn [length sym_ex_xs]; lia)).
Qed.

(** the hypotheses used above are satisfiable and the scores are not constant: the cut
    (0, 2, 4) of the example has CUSUM score 2 on both columns *)
Example sym_ex_cusum_value : cusum_score_R (prefix [1; 2; 0; 7; 8; 6]) 0 2 4 = 2.
Proof.
  rewrite cusum_form by lia. unfold prefix. cbn [firstn sumR Nat.sub INR].
  replace ((1 + 1) / ((1 + 1 + (1 + 1)) * (1 + 1))) with ((1 / 2) * (1 / 2)) by field.
  rewrite sqrt_square by lra. rewrite <- (Rabs_Ropp). rewrite Rabs_pos_eq; lra.
Qed.

Print Assumptions peltR_ext_valid_delay.
Print Assumptions peltR_ext_valid.
Print Assumptions peltR_potential.
Print Assumptions pelt_l2_shift.
Print Assumptions pelt_gvar_shift.
Print Assumptions gpelt_l2_shift.
Print Assumptions pelt_l2_multicolumn_shift.
Print Assumptions mw_cusum_shift.
Print Assumptions mw_l2_shift.
Print Assumptions mw_gvar_shift.
Print Assumptions sbs_cusum_shift.
Print Assumptions sbs_l2_shift.
Print Assumptions sbs_gvar_shift.
Print Assumptions cbs_l2_shift.
Print Assumptions cbs_gvar_shift.
Print Assumptions pelt_gvar_scale_delay.
Print Assumptions pelt_gvar_scale.
Print Assumptions mw_gvar_scale.
Print Assumptions sbs_gvar_scale.
Print Assumptions cbs_gvar_scale.
Print Assumptions FR_reverse.
Print Assumptions FR_l2_rev.
Print Assumptions FR_gvar_rev.
Print Assumptions pelt_l2_rev_final_score.
Print Assumptions pelt_l2_rev_pencost.
Print Assumptions pelt_gvar_rev_final_score.
Print Assumptions mw_cusum_multicolumn_shift.
Print Assumptions mw_l2_multicolumn_shift.
Print Assumptions sbs_cusum_multicolumn_shift.
Print Assumptions sbs_l2_multicolumn_shift.
Print Assumptions cbs_l2_multicolumn_shift.
Print Assumptions mw_cusum_shift_example.
Print Assumptions sbs_cusum_shift_example.
Print Assumptions cbs_l2_shift_example.
Print Assumptions pelt_l2_shift_example.
