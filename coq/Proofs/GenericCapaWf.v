(** Well-formedness of the OUTPUT of the generic CAPA / MVCAPA (Model/GenericCapa.v) for EVERY record of
    operations [N : num] -- no law of [add], [neg], [ltb], [leb] is used, nor any property of the
    "negligible beta" test [tiny].  In particular the statements hold at binary64 ([F64] of
    Model/GenericF.v) whatever the scores are, NaN and infinities included: comparisons only steer the
    choice among back-pointers that are admissible by construction.

    These are the law-free theorems of Proofs/CapaSkeleton.v ([ccapa_valid], [ccapa_scores_length],
    [ccapa_ignore_points], [ccapa_intervals_in_range]): the generic model is that loop by computation
    ([gcapa_C]).  What they rest on:
      - the lengths of the score and back-pointer arrays;
      - every back-pointer recorded at index i is NaN ([None]), the point [i], or a start [a] with
        m <= i + 1 - a <= M;
      - every start in the pruned list is admissible for the next end. *)
From Coq Require Import List.
From SK Require Import Model.Capa Proofs.CapaSpec Proofs.CapaDP Model.Generic Model.GenericCapa
                       Model.GenericF.
Import ListNotations.

Section Wf.
Variable N : num.
Notation V := (T N).
Variable tiny : V -> bool.
Variable Sc : nat -> nat -> list V.
Variable Sp : nat -> list V.
Variables (ac : V) (bc : list V) (ap : V) (bp : list V).
Variables (m M delay : nat).
Hypothesis Hm2 : 2 <= m.
Hypothesis HmM : m <= M.

Notation PC := (gPc N tiny Sc ac bc).
Notation PP := (gPp N tiny Sp ap bp).
Notation capaG := (gcapa N tiny Sc Sp ac bc ap bp m M delay).

(** the generic model is the loop of Proofs/CapaSkeleton.v with the sums taken in [N] *)
Lemma gcapa_C n :
  capaG n = ccapa N (fun a T g => add N g (PC a T)) (fun t g => add N g (PP t))
                    (fun _ _ c => add N c (add N ac (gsum N bc))) m M delay n.
Proof using. reflexivity. Qed.

(** needs neither 2 <= m nor m <= M *)
Theorem gcapa_scores_length n scores c p : capaG n = (scores, c, p) -> length scores = n.
Proof using. rewrite gcapa_C. apply ccapa_scores_length. Qed.

Theorem gcapa_output_valid n scores c p : capaG n = (scores, c, p) ->
  Valid m M (map to_anom (capa_predict false c p)) n.
Proof. rewrite gcapa_C. now apply ccapa_valid. Qed.

(** ignore_point_anomalies only removes the point anomalies (needs neither 2 <= m nor m <= M) *)
Theorem gcapa_ignore_points n scores c p : capaG n = (scores, c, p) ->
  capa_predict true c p = filter (fun se => negb (is_point se)) (capa_predict false c p).
Proof using. rewrite gcapa_C. apply ccapa_ignore_points. Qed.

Theorem gcapa_intervals_in_range n scores c p : capaG n = (scores, c, p) ->
  forall se, In se (capa_predict false c p) -> fst se < snd se /\ snd se <= n.
Proof using. rewrite gcapa_C. apply ccapa_intervals_in_range. Qed.
End Wf.

(** under the hypotheses of [capa_wellformed] / [C03_output_valid] of the Z model, for every instance *)
Theorem gcapa_wellformed (N : num) (tiny : T N -> bool)
  (Sc : nat -> nat -> list (T N)) (Sp : nat -> list (T N))
  (ac : T N) (bc : list (T N)) (ap : T N) (bp : list (T N)) (m M delay n : nat)
  (scores : list (T N)) (c p : list (nat * nat)) :
  2 <= m <= M ->
  gcapa N tiny Sc Sp ac bc ap bp m M delay n = (scores, c, p) ->
  Valid m M (map to_anom (capa_predict false c p)) n /\ length scores = n.
Proof.
  intros [Hm HM] Hrun. split.
  - eapply gcapa_output_valid; eassumption.
  - eapply gcapa_scores_length; eassumption.
Qed.

From Coq Require Import PrimFloat.

(** the test of the code: beta < 1e-8 (the binary64 value closest to 1e-8) *)
Definition F64_tiny : float -> bool := gtiny_lt F64 0x1.5798ee2308c3ap-27%float.

(** any float savings and penalties -- finite, infinite or NaN --, any "negligible beta" test *)
Theorem F64_capa_output_valid_gen (tiny : float -> bool)
  (Sc : nat -> nat -> list float) (Sp : nat -> list float)
  (ac : float) (bc : list float) (ap : float) (bp : list float) (m M delay n : nat)
  (scores : list float) (c p : list (nat * nat)) :
  2 <= m <= M ->
  gcapa F64 tiny Sc Sp ac bc ap bp m M delay n = (scores, c, p) ->
  Valid m M (map to_anom (capa_predict false c p)) n /\ length scores = n.
Proof. exact (gcapa_wellformed F64 tiny Sc Sp ac bc ap bp m M delay n scores c p). Qed.

Theorem F64_capa_output_valid
  (Sc : nat -> nat -> list float) (Sp : nat -> list float)
  (ac : float) (bc : list float) (ap : float) (bp : list float) (m M delay n : nat)
  (scores : list float) (c p : list (nat * nat)) :
  2 <= m <= M ->
  gcapa F64 F64_tiny Sc Sp ac bc ap bp m M delay n = (scores, c, p) ->
  Valid m M (map to_anom (capa_predict false c p)) n /\ length scores = n.
Proof. apply F64_capa_output_valid_gen. Qed.

Theorem F64_capa_ignore_points
  (Sc : nat -> nat -> list float) (Sp : nat -> list float)
  (ac : float) (bc : list float) (ap : float) (bp : list float) (m M delay n : nat)
  (scores : list float) (c p : list (nat * nat)) :
  gcapa F64 F64_tiny Sc Sp ac bc ap bp m M delay n = (scores, c, p) ->
  capa_predict true c p = filter (fun se => negb (is_point se)) (capa_predict false c p).
Proof. apply (gcapa_ignore_points F64). Qed.

Print Assumptions gcapa_wellformed.
Print Assumptions gcapa_ignore_points.
Print Assumptions gcapa_intervals_in_range.
Print Assumptions F64_capa_output_valid_gen.
Print Assumptions F64_capa_output_valid.
Print Assumptions F64_capa_ignore_points.
