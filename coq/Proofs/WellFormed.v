(** Concrete well-formedness of the detector outputs (property C04).

    The detector theorems of PeltRefine / CapaDP / GreedyZ / MwProofs / Penalise
    state well-formedness through the recursive predicates [admseg] / [Adm]
    (changepoints) and [valid_from] / [Valid] (anomaly sets).  This file unpacks those
    predicates into the elementary clauses a reader of the Python output cares about:

      changepoints  strictly increasing, each in [1, n-1], at least m samples before the
                    first, between two consecutive ones, and after the last;
      anomalies     (start, end) pairs with start < end <= n, in increasing order,
                    pairwise disjoint, point anomalies of length 1, collective anomalies
                    of length in [m, M];
      components    non-empty, duplicate-free, inside [0, p).

    No new induction over the algorithms: every detector-level theorem below is a
    corollary of an existing one. *)
From Coq Require Import ZArith List Lia Bool Sorted.
From SK Require Import Lib.Base Model.Pelt Proofs.ArgmaxLemmas Proofs.PeltSpec Proofs.PeltRefine Properties.C02.
From SK Require Import Model.Capa Proofs.CapaSpec Proofs.CapaDP Proofs.Penalise.
From SK Require Import Model.Sbs Model.Cbs Model.Mw Proofs.CbsProofs Proofs.MwProofs Proofs.GreedyZ.
Import ListNotations.
Open Scope Z_scope.

(** * 0. Generic list facts *)

(** consecutive gaps of at least [m >= 1] give (strong) sortedness *)
Lemma consec_gap_sorted : forall (m : nat) (l : list nat), (1 <= m)%nat ->
  (forall i, (S i < length l)%nat -> (nthN l i + m <= nthN l (S i))%nat) -> StronglySorted lt l.
Proof.
  intros m l Hm H. apply Sorted_StronglySorted; [exact Nat.lt_trans|]. apply (nth_Sorted _ l 0%nat).
  intros i Hi. specialize (H i Hi). unfold nthN in H. lia.
Qed.

Lemma ssorted_filter {A} (R : A -> A -> Prop) (f : A -> bool) : forall l,
  StronglySorted R l -> StronglySorted R (filter f l).
Proof.
  intros l HS. induction HS as [|a l HS IH Hall]; [constructor|].
  cbn [filter]. destruct (f a); [|exact IH]. constructor; [exact IH|].
  rewrite Forall_forall in *. intros x Hx. apply filter_In in Hx. apply Hall. tauto.
Qed.

(** intervals: [a] ends before [b] starts *)
Definition iv_before (a b : nat * nat) : Prop := (snd a <= fst b)%nat.

(** non-empty intervals that are consecutively ordered are pairwise ordered *)
Lemma consec_ivs_pairwise : forall l : list (nat * nat),
  (forall s e, In (s, e) l -> (s < e)%nat) ->
  (forall i, (S i < length l)%nat -> (snd (nth i l (0, 0)%nat) <= fst (nth (S i) l (0, 0)%nat))%nat) ->
  StronglySorted iv_before l.
Proof.
  induction l as [|a l IH]; intros Hne Hc; [constructor|].
  assert (HS : StronglySorted iv_before l).
  { apply IH.
    - intros s e H. apply Hne. now right.
    - intros i Hi. apply (Hc (S i)). cbn [length]. lia. }
  constructor; [exact HS|].
  destruct l as [|b l]; [constructor|].
  assert (Hab : (snd a <= fst b)%nat) by (apply (Hc 0%nat); cbn [length]; lia).
  constructor; [exact Hab|].
  apply StronglySorted_inv in HS as [_ Hall].
  assert (Hb : (fst b < snd b)%nat).
  { destruct b as [s e]. apply Hne. right. now left. }
  eapply Forall_impl; [|exact Hall]. unfold iv_before. intros y Hy. lia.
Qed.

(** * 1. Changepoint lists: [admseg] / [Adm] in concrete clauses *)

(** [admseg m p cpts T]: consecutive elements of [p :: cpts] are at least [m] apart, and so are the
    last one and [T] *)
Definition gap (m x y : nat) : Prop := (x + m <= y)%nat.

Lemma admseg_gaps : forall m cpts p T, admseg m p cpts T -> Sorted (gap m) (p :: cpts).
Proof.
  intros m. induction cpts as [|a l IH]; intros p T H; cbn [admseg] in H; [repeat constructor|].
  destruct H as [H1 H2]. constructor; [exact (IH a T H2) | constructor; exact H1].
Qed.

Lemma gaps_admseg : forall m cpts p T, Sorted (gap m) (p :: cpts) ->
  (forall c, In c (p :: cpts) -> (c + m <= T)%nat) -> admseg m p cpts T.
Proof.
  intros m. induction cpts as [|a l IH]; intros p T HS Hin; cbn [admseg]; [apply Hin; left; reflexivity|].
  apply Sorted_inv in HS as [HS Hh]. apply HdRel_inv in Hh. split; [exact Hh|].
  apply IH; [exact HS|]. intros c Hc. apply Hin. right. exact Hc.
Qed.

Theorem admseg_concrete : forall m cpts p T, (1 <= m)%nat -> admseg m p cpts T ->
  (forall c, In c cpts -> (p + m <= c /\ c + m <= T)%nat) /\
  (forall i, (S i < length cpts)%nat -> (nthN cpts i + m <= nthN cpts (S i))%nat) /\
  StronglySorted lt cpts.
Proof.
  intros m cpts p T Hm Hadm.
  assert (Hin : forall c, In c cpts -> (p + m <= c /\ c + m <= T)%nat).
  { intros c Hc. exact (admseg_in m Hm cpts p T c Hadm Hc). }
  assert (Hgap : forall i, (S i < length cpts)%nat -> (nthN cpts i + m <= nthN cpts (S i))%nat).
  { apply (Sorted_nth (gap m) cpts 0%nat). exact (proj1 (Sorted_inv (admseg_gaps m cpts p T Hadm))). }
  split; [exact Hin|]. split; [exact Hgap|]. exact (consec_gap_sorted m cpts Hm Hgap).
Qed.

Theorem adm_concrete : forall m cpts n, (1 <= m)%nat -> Adm m cpts n ->
  StronglySorted lt cpts /\
  (forall c, In c cpts -> (1 <= c <= n - 1 /\ m <= c /\ c + m <= n)%nat) /\
  (forall i, (S i < length cpts)%nat -> (nthN cpts i + m <= nthN cpts (S i))%nat).
Proof.
  intros m cpts n Hm Hadm. unfold Adm in Hadm.
  destruct (admseg_concrete m cpts 0%nat n Hm Hadm) as (Hin & Hgap & Hsort).
  split; [exact Hsort|]. split; [|exact Hgap].
  intros c Hc. specialize (Hin c Hc). lia.
Qed.

(** the data must hold at least one full segment *)
Theorem adm_length : forall m cpts n, (1 <= m)%nat -> Adm m cpts n ->
  (m <= n /\ (length cpts + 1) * m <= n)%nat.
Proof.
  intros m cpts n Hm Hadm. unfold Adm in Hadm.
  assert (H : forall l p T, admseg m p l T -> (p + (length l + 1) * m <= T)%nat).
  { induction l as [|a l IH]; intros p T Hl; cbn [admseg length] in *; [lia|].
    destruct Hl as [H1 H2]. specialize (IH a T H2). lia. }
  specialize (H cpts 0%nat n Hadm). split; [|lia].
  assert ((length cpts + 1) * m >= m)%nat by nia. lia.
Qed.

(** converse: the concrete clauses characterise [Adm] *)
Theorem concrete_adm : forall m cpts n, (m <= n)%nat ->
  (forall c, In c cpts -> (m <= c /\ c + m <= n)%nat) ->
  (forall i, (S i < length cpts)%nat -> (nthN cpts i + m <= nthN cpts (S i))%nat) ->
  Adm m cpts n.
Proof.
  intros m cpts n Hn Hin Hgap. apply gaps_admseg.
  - constructor; [exact (nth_Sorted (gap m) cpts 0%nat Hgap)|].
    destruct cpts as [|a l]; constructor. exact (proj1 (Hin a (or_introl eq_refl))).
  - intros c [<- | Hc]; [exact Hn | apply Hin; exact Hc].
Qed.

Theorem adm_iff_concrete : forall m cpts n, (1 <= m)%nat ->
  Adm m cpts n <->
  (m <= n)%nat /\
  (forall c, In c cpts -> (m <= c /\ c + m <= n)%nat) /\
  (forall i, (S i < length cpts)%nat -> (nthN cpts i + m <= nthN cpts (S i))%nat).
Proof.
  intros m cpts n Hm. split.
  - intros Hadm. destruct (adm_concrete m cpts n Hm Hadm) as (_ & Hin & Hgap).
    destruct (adm_length m cpts n Hm Hadm) as [Hn _].
    split; [exact Hn|]. split; [|exact Hgap]. intros c Hc. specialize (Hin c Hc). lia.
  - intros (Hn & Hin & Hgap). apply concrete_adm; assumption.
Qed.

(** executable checker for the concrete clauses, sound for them *)
Definition cpts_wf_b (m n : nat) (cpts : list nat) : bool :=
  forallb (fun c => (1 <=? c)%nat && (c <=? n - 1)%nat && (m <=? c)%nat && (c + m <=? n)%nat) cpts &&
  forallb (fun i => (nthN cpts i + m <=? nthN cpts (S i))%nat) (seq 0 (length cpts - 1)).

Lemma cpts_wf_b_sound : forall m n cpts, (1 <= m)%nat -> cpts_wf_b m n cpts = true ->
  StronglySorted lt cpts /\
  (forall c, In c cpts -> (1 <= c <= n - 1 /\ m <= c /\ c + m <= n)%nat) /\
  (forall i, (S i < length cpts)%nat -> (nthN cpts i + m <= nthN cpts (S i))%nat).
Proof.
  intros m n cpts Hm H. unfold cpts_wf_b in H. apply andb_true_iff in H as [H1 H2].
  rewrite forallb_forall in H1, H2.
  assert (Hgap : forall i, (S i < length cpts)%nat -> (nthN cpts i + m <= nthN cpts (S i))%nat).
  { intros i Hi. apply Nat.leb_le. apply H2. apply in_seq. lia. }
  split; [exact (consec_gap_sorted m cpts Hm Hgap)|]. split; [|exact Hgap].
  intros c Hc. specialize (H1 c Hc).
  apply andb_true_iff in H1 as [H1 Hd]. apply andb_true_iff in H1 as [H1 Hc3].
  apply andb_true_iff in H1 as [Ha Hb].
  apply Nat.leb_le in Ha, Hb, Hc3, Hd. lia.
Qed.

(** * 2. PELT *)

(** any cost function, any pruning delay *)
Theorem pelt_wellformed_any_delay : forall C pen m delay n, (1 <= m)%nat -> (2 * m <= n)%nat ->
  let cpts := snd (pelt C pen m delay n) in
  StronglySorted lt cpts /\
  (forall c, In c cpts -> (1 <= c <= n - 1 /\ m <= c /\ c + m <= n)%nat) /\
  (forall i, (S i < length cpts)%nat -> (nthN cpts i + m <= nthN cpts (S i))%nat).
Proof.
  intros C pen m delay n Hm Hn cpts. apply adm_concrete; [exact Hm|].
  exact (pelt_adm C pen m delay Hm n Hn).
Qed.

Theorem pelt_wellformed : forall C pen m n, (1 <= m)%nat -> (2 * m <= n)%nat ->
  let cpts := snd (pelt_code C pen m n) in
  StronglySorted lt cpts /\
  (forall c, In c cpts -> (1 <= c <= n - 1 /\ m <= c /\ c + m <= n)%nat) /\
  (forall i, (S i < length cpts)%nat -> (nthN cpts i + m <= nthN cpts (S i))%nat).
Proof.
  intros C pen m n Hm Hn. unfold pelt_code. exact (pelt_wellformed_any_delay C pen m (m - 1) n Hm Hn).
Qed.

(** the number of changepoints is bounded by the data length *)
Theorem pelt_count : forall C pen m n, (1 <= m)%nat -> (2 * m <= n)%nat ->
  ((length (snd (pelt_code C pen m n)) + 1) * m <= n)%nat.
Proof.
  intros C pen m n Hm Hn. unfold pelt_code.
  exact (proj2 (adm_length m _ n Hm (pelt_adm C pen m (m - 1) Hm n Hn))).
Qed.

(** * 3. CAPA / MVCAPA *)

Lemma to_anom_start : forall s e, a_start (to_anom (s, e)) = s.
Proof. intros s e. unfold to_anom. cbn [fst snd]. destruct (e =? S s)%nat; reflexivity. Qed.

Lemma to_anom_end : forall s e, a_end (to_anom (s, e)) = e.
Proof.
  intros s e. unfold to_anom. cbn [fst snd]. destruct (e =? S s)%nat eqn:E; cbn [a_end]; [|reflexivity].
  apply Nat.eqb_eq in E. congruence.
Qed.

Lemma to_anom_ok : forall m M s e, a_ok m M (to_anom (s, e)) ->
  e = S s \/ (s + m <= e /\ e <= s + M)%nat.
Proof.
  intros m M s e. unfold to_anom. cbn [fst snd]. destruct (e =? S s)%nat eqn:E; cbn [a_ok].
  - intros _. left. now apply Nat.eqb_eq.
  - intros H. right. exact H.
Qed.

(** the general form: anomaly list inside [lo, T) *)
Lemma valid_from_concrete : forall m M ivs lo T, (1 <= m)%nat ->
  valid_from m M lo (map to_anom ivs) T ->
  (lo <= T)%nat /\
  (forall s e, In (s, e) ivs ->
     (lo <= s /\ s < e <= T)%nat /\ (e = S s \/ (s + m <= e /\ e <= s + M)%nat)) /\
  Sorted iv_before ivs.
Proof.
  intros m M ivs. induction ivs as [|[s0 e0] l IH]; intros lo T Hm Hv.
  - cbn in Hv. split; [exact Hv|]. split; [intros s e [] | constructor].
  - cbn [map valid_from] in Hv. destruct Hv as (Hlo & Hok & Hrest).
    rewrite to_anom_start in Hlo. rewrite to_anom_end in Hrest.
    apply to_anom_ok in Hok.
    destruct (IH e0 T Hm Hrest) as (HeT & Hin & Hcons).
    assert (Hse : (s0 < e0)%nat) by lia.
    split; [lia|]. split.
    + intros s e [Heq|Hl].
      * inversion Heq; subst s e. split; [lia|exact Hok].
      * destruct (Hin s e Hl) as [H1 H2]. split; [lia|exact H2].
    + constructor; [exact Hcons|]. destruct l as [|[s1 e1] l']; constructor.
      exact (proj1 (proj1 (Hin s1 e1 (or_introl eq_refl)))).
Qed.

Theorem valid_concrete : forall m M ivs n, (2 <= m)%nat -> (m <= M)%nat ->
  Valid m M (map to_anom ivs) n ->
  (forall s e, In (s, e) ivs ->
     (s < e <= n)%nat /\ (e = S s \/ (s + m <= e /\ e <= s + M)%nat)) /\
  (forall i, (S i < length ivs)%nat ->
     (snd (nth i ivs (0, 0)%nat) <= fst (nth (S i) ivs (0, 0)%nat))%nat).
Proof.
  intros m M ivs n Hm _ Hv. unfold Valid in Hv.
  destruct (valid_from_concrete m M ivs 0%nat n ltac:(lia) Hv) as (_ & Hin & Hcons).
  split; [|exact (Sorted_nth iv_before ivs (0, 0)%nat Hcons)].
  intros s e H. destruct (Hin s e H) as [H1 H2]. split; [lia|exact H2].
Qed.

(** the concrete clauses as one predicate on an interval list *)
Definition intervals_wf (m M n : nat) (ivs : list (nat * nat)) : Prop :=
  (forall s e, In (s, e) ivs ->
     (s < e <= n)%nat /\ (e = S s \/ (s + m <= e /\ e <= s + M)%nat)) /\
  (forall i, (S i < length ivs)%nat ->
     (snd (nth i ivs (0, 0)%nat) <= fst (nth (S i) ivs (0, 0)%nat))%nat).

(** consecutive disjointness extends to every pair: the intervals are pairwise disjoint *)
Lemma intervals_wf_pairwise : forall m M n ivs, intervals_wf m M n ivs ->
  StronglySorted iv_before ivs.
Proof.
  intros m M n ivs [Hin Hcons]. apply consec_ivs_pairwise; [|exact Hcons].
  intros s e H. destruct (Hin s e H) as [H1 _]. lia.
Qed.

Lemma intervals_wf_filter : forall m M n ivs f, intervals_wf m M n ivs ->
  intervals_wf m M n (filter f ivs).
Proof.
  intros m M n ivs f Hwf. pose proof (intervals_wf_pairwise m M n ivs Hwf) as HS.
  destruct Hwf as [Hin _]. split.
  - intros s e H. apply filter_In in H as [H _]. exact (Hin s e H).
  - exact (Sorted_nth iv_before _ (0, 0)%nat (StronglySorted_Sorted (ssorted_filter iv_before f ivs HS))).
Qed.

Definition intervals_wf_b (m M n : nat) (ivs : list (nat * nat)) : bool :=
  forallb (fun se => (fst se <? snd se)%nat && (snd se <=? n)%nat &&
                     ((snd se =? S (fst se))%nat || ((fst se + m <=? snd se)%nat && (snd se <=? fst se + M)%nat))) ivs &&
  forallb (fun i => (snd (nth i ivs (0, 0)%nat) <=? fst (nth (S i) ivs (0, 0)%nat))%nat) (seq 0 (length ivs - 1)).

Lemma intervals_wf_b_sound : forall m M n ivs, intervals_wf_b m M n ivs = true -> intervals_wf m M n ivs.
Proof.
  intros m M n ivs H. unfold intervals_wf_b in H. apply andb_true_iff in H as [H1 H2].
  rewrite forallb_forall in H1, H2. split.
  - intros s e Hin. specialize (H1 (s, e) Hin). cbn [fst snd] in H1.
    apply andb_true_iff in H1 as [H1 Hc]. apply andb_true_iff in H1 as [Ha Hb].
    apply Nat.ltb_lt in Ha. apply Nat.leb_le in Hb. split; [lia|].
    apply orb_true_iff in Hc as [Hc|Hc].
    + left. now apply Nat.eqb_eq.
    + right. apply andb_true_iff in Hc as [Hc1 Hc2]. apply Nat.leb_le in Hc1, Hc2. lia.
  - intros i Hi. apply Nat.leb_le. apply H2. apply in_seq. lia.
Qed.

Section CapaOutput.
Variables (Sc : nat -> nat -> list Z) (Sp : nat -> list Z) (ac : Z) (bc : list Z) (ap : Z) (bp : list Z).
Variables (m M delay n : nat).
Hypothesis Hm : (2 <= m)%nat.
Hypothesis HM : (m <= M)%nat.
Variables (scores : list Z) (c p : list (nat * nat)).
Hypothesis Hrun : capa Sc Sp ac bc ap bp m M delay n = (scores, c, p).

(** any savings, any penalties, any pruning delay *)
Theorem capa_output_wellformed :
  (* with point anomalies *)
  ((forall s e, In (s, e) (capa_predict false c p) ->
      (s < e <= n)%nat /\ (e = S s \/ (s + m <= e /\ e <= s + M)%nat)) /\
   (forall i, (S i < length (capa_predict false c p))%nat ->
      (snd (nth i (capa_predict false c p) (0, 0)%nat) <=
       fst (nth (S i) (capa_predict false c p) (0, 0)%nat))%nat)) /\
  (* ignore_point_anomalies = True *)
  ((forall s e, In (s, e) (capa_predict true c p) ->
      (s < e <= n)%nat /\ (e = S s \/ (s + m <= e /\ e <= s + M)%nat)) /\
   (forall i, (S i < length (capa_predict true c p))%nat ->
      (snd (nth i (capa_predict true c p) (0, 0)%nat) <=
       fst (nth (S i) (capa_predict true c p) (0, 0)%nat))%nat)) /\
  (* ... and then no interval of length 1 is left: all are collective *)
  (forall s e, In (s, e) (capa_predict true c p) ->
      e <> S s /\ (s + m <= e /\ e <= s + M)%nat /\ In (s, e) (capa_predict false c p)).
Proof.
  pose proof (capa_wellformed Sc Sp ac bc ap bp m M delay Hm HM n scores c p Hrun) as Hv.
  pose proof (valid_concrete m M _ n Hm HM Hv) as Hwf.
  pose proof (capa_ignore_points Sc Sp ac bc ap bp m M delay n scores c p Hrun) as Hig.
  split; [exact Hwf|].
  assert (Hwf' : intervals_wf m M n (capa_predict true c p)).
  { rewrite Hig. apply intervals_wf_filter. exact Hwf. }
  split; [exact Hwf'|].
  intros s e H. destruct (proj1 Hwf' s e H) as [_ Hlen].
  rewrite Hig in H. apply filter_In in H as [Hin Hnp].
  unfold is_point in Hnp. cbn [fst snd] in Hnp. apply negb_true_iff in Hnp. apply Nat.eqb_neq in Hnp.
  split; [exact Hnp|]. split; [|exact Hin]. destruct Hlen as [Hlen|Hlen]; [contradiction|exact Hlen].
Qed.

(** both variants are pairwise disjoint, not only consecutively *)
Theorem capa_output_pairwise_disjoint :
  StronglySorted iv_before (capa_predict false c p) /\ StronglySorted iv_before (capa_predict true c p).
Proof.
  destruct capa_output_wellformed as (H1 & H2 & _).
  split; [exact (intervals_wf_pairwise m M n _ H1)|exact (intervals_wf_pairwise m M n _ H2)].
Qed.
End CapaOutput.

(** * 4. Seeded binary segmentation *)

Theorem sbs_output_wellformed : forall CS m thr n ivs cpts am,
  0 <= thr -> (1 <= m)%nat ->
  (forall s e, In (s, e) ivs -> (s + 2 * m <= e <= n)%nat) ->
  sbs CS m thr ivs = Some (cpts, am) ->
  StronglySorted lt cpts /\
  (forall c, In c cpts -> (1 <= c <= n - 1 /\ m <= c /\ c + m <= n)%nat) /\
  (forall i, (S i < length cpts)%nat -> (nthN cpts i + m <= nthN cpts (S i))%nat).
Proof.
  intros CS m thr n ivs cpts am Hthr Hm Hivs Hrun.
  destruct (sbs_wellformed CS m thr n ivs cpts am Hthr Hm Hivs Hrun) as (Hgap & Hin & _).
  assert (Hgap' : forall i, (S i < length cpts)%nat -> (nthN cpts i + m <= nthN cpts (S i))%nat).
  { intros i Hi. exact (proj2 (Hgap i Hi)). }
  split; [exact (consec_gap_sorted m cpts Hm Hgap')|]. split; [|exact Hgap'].
  intros c Hc. specialize (Hin c Hc). lia.
Qed.

(** the output is an admissible segmentation in the sense of PELT's [Adm] whenever one exists *)
Corollary sbs_output_adm : forall CS m thr n ivs cpts am,
  0 <= thr -> (1 <= m)%nat -> (m <= n)%nat ->
  (forall s e, In (s, e) ivs -> (s + 2 * m <= e <= n)%nat) ->
  sbs CS m thr ivs = Some (cpts, am) -> Adm m cpts n.
Proof.
  intros CS m thr n ivs cpts am Hthr Hm Hn Hivs Hrun.
  destruct (sbs_output_wellformed CS m thr n ivs cpts am Hthr Hm Hivs Hrun) as (_ & Hin & Hgap).
  apply concrete_adm; [exact Hn| |exact Hgap]. intros c Hc. specialize (Hin c Hc). lia.
Qed.

(** * 5. Moving window *)

Theorem mw_output_wellformed : forall CS b n thr mdi, 0 <= thr -> (1 <= b)%nat ->
  let cpts := snd (mw CS b n thr mdi) in
  StronglySorted lt cpts /\
  forall c, In c cpts -> (b <= c /\ c + b <= n /\ 1 <= c <= n - 1)%nat.
Proof.
  intros CS b n thr mdi Hthr Hb cpts. split.
  - unfold cpts, mw. cbn [snd]. apply mw_cpts_sorted.
  - intros c Hc. destruct (mw_cpts_range CS b n thr mdi c Hthr Hc) as [H1 H2]. lia.
Qed.

(** * 6. Circular binary segmentation *)

Theorem cbs_output_wellformed : forall LS m thr n ivs anoms am,
  0 <= thr -> (1 <= m)%nat ->
  (forall s e, In (s, e) ivs -> (e <= n)%nat) ->
  cbs LS m thr ivs = Some (anoms, am) ->
  (* consecutive anomalies: increasing and disjoint *)
  (forall i, (S i < length anoms)%nat ->
     (fst (nthP anoms i) < fst (nthP anoms (S i)) /\
      snd (nthP anoms i) <= fst (nthP anoms (S i)))%nat) /\
  (* every anomaly: non-empty, strictly inside the data, length >= m *)
  (forall a z, In (a, z) anoms -> (a < z /\ 1 <= a /\ z <= n - 1 /\ z < n /\ a + m <= z)%nat) /\
  (* pairwise disjoint *)
  StronglySorted iv_before anoms.
Proof.
  intros LS m thr n ivs anoms am Hthr Hm Hivs Hrun.
  destruct (cbs_wellformed LS m thr n ivs anoms am Hthr Hm Hivs Hrun) as (Hcons & Hin & _).
  assert (Hin' : forall a z, In (a, z) anoms -> (a < z /\ 1 <= a /\ z <= n - 1 /\ z < n /\ a + m <= z)%nat).
  { intros a z H. specialize (Hin a z H). lia. }
  split; [exact Hcons|]. split; [exact Hin'|].
  apply consec_ivs_pairwise.
  - intros s e H. specialize (Hin' s e H). lia.
  - intros i Hi. exact (proj2 (Hcons i Hi)).
Qed.

(** * 7. MVCAPA affected columns *)

Theorem affected_columns_wellformed : forall sav alpha betas,
  length betas = length sav -> (1 <= length sav)%nat ->
  affected sav alpha betas <> [] /\ NoDup (affected sav alpha betas) /\
  forall j, In j (affected sav alpha betas) -> (j < length sav)%nat.
Proof. intros sav alpha betas HL Hp. exact (affected_ok sav alpha betas HL Hp). Qed.

Corollary affected_columns_count : forall sav alpha betas,
  length betas = length sav -> (1 <= length sav)%nat ->
  (1 <= length (affected sav alpha betas) <= length sav)%nat.
Proof.
  intros sav alpha betas HL Hp. apply subset_ok_length. exact (affected_ok sav alpha betas HL Hp).
Qed.

(** * 8. Output frame: labels 1..K of the dense output, RangeIndex 0..K-1 of the sparse one *)

Definition event_labels (K : nat) : list nat := seq 1 K.
Definition range_index (K : nat) : list nat := seq 0 K.

Lemma event_labels_length : forall K, length (event_labels K) = K.
Proof. intros K. apply seq_length. Qed.
Lemma range_index_length : forall K, length (range_index K) = K.
Proof. intros K. apply seq_length. Qed.
Lemma event_labels_spec : forall K i, (i < K)%nat -> nth i (event_labels K) 0%nat = S i.
Proof. intros K i Hi. unfold event_labels. rewrite seq_nth by exact Hi. reflexivity. Qed.
Lemma range_index_spec : forall K i, (i < K)%nat -> nth i (range_index K) 0%nat = i.
Proof. intros K i Hi. unfold range_index. rewrite seq_nth by exact Hi. reflexivity. Qed.
Lemma event_labels_in : forall K l, In l (event_labels K) <-> (1 <= l <= K)%nat.
Proof. intros K l. unfold event_labels. rewrite in_seq. lia. Qed.
Lemma range_index_in : forall K i, In i (range_index K) <-> (i < K)%nat.
Proof. intros K i. unfold range_index. rewrite in_seq. lia. Qed.
Lemma event_labels_nodup : forall K, NoDup (event_labels K).
Proof. intros K. apply seq_NoDup. Qed.
Lemma range_index_nodup : forall K, NoDup (range_index K).
Proof. intros K. apply seq_NoDup. Qed.
(** label 0 (= "no event") is never an event label *)
Lemma event_labels_positive : forall K, ~ In 0%nat (event_labels K).
Proof. intros K H. apply event_labels_in in H. lia. Qed.

(** * 9. Worked examples (vm_compute) *)

(** PELT: nine observations, two candidate levels, level shifts after 3 and 6 *)
Definition ex_loss : list (list Z) := [[0;3];[0;3];[0;3];[3;0];[3;0];[3;0];[0;3];[0;3];[0;3]].
Example pelt_example :
  snd (pelt_code (tcost ex_loss 1) 1 2 9) = [3; 6]%nat /\
  cpts_wf_b 2 9 (snd (pelt_code (tcost ex_loss 1) 1 2 9)) = true.
Proof. vm_compute. split; reflexivity. Qed.

(** CAPA: a point anomaly at 2 and a collective anomaly [4,7) *)
Definition ex_closs : list (list Z) := [[0;3;9];[0;3;9];[9;9;0];[0;3;9];[3;0;9];[3;0;9];[3;0;9];[0;3;9]].
Definition ex_Sc (s e : nat) : list Z := [lsav ex_closs 2 s e].
Definition ex_Sp (t : nat) : list Z := [lsav ex_closs 2 t (S t)].
Example capa_example :
  capa ex_Sc ex_Sp 1 [0] 4 [0] 2 4 1 8 = ([0; 0; 5; 5; 5; 10; 13; 13], [(4, 7)]%nat, [(2, 3)]%nat) /\
  capa_predict false [(4, 7)]%nat [(2, 3)]%nat = [(2, 3); (4, 7)]%nat /\
  capa_predict true [(4, 7)]%nat [(2, 3)]%nat = [(4, 7)]%nat /\
  intervals_wf_b 2 4 8 (capa_predict false [(4, 7)]%nat [(2, 3)]%nat) = true /\
  intervals_wf_b 2 4 8 (capa_predict true [(4, 7)]%nat [(2, 3)]%nat) = true.
Proof. vm_compute. repeat split; reflexivity. Qed.

(** seeded binary segmentation and moving window on the same score profile *)
Definition ex_tab : list Z := [0; 0; 0; 9; 0; 0; 7; 0; 0; 0].
Definition ex_CS (s k e : nat) : Z := nthZ ex_tab k.
Example sbs_example :
  sbs ex_CS 2 1 [(0, 10); (0, 5); (4, 10)]%nat = Some ([3; 6]%nat, [(3%nat, 9); (3%nat, 9); (6%nat, 7)]) /\
  cpts_wf_b 2 10 [3; 6]%nat = true.
Proof. vm_compute. split; reflexivity. Qed.
Example mw_example :
  snd (mw ex_CS 2 10 1 1) = [3; 6]%nat /\ cpts_wf_b 2 10 (snd (mw ex_CS 2 10 1 1)) = true.
Proof. vm_compute. split; reflexivity. Qed.

(** circular binary segmentation: two disjoint anomalies *)
Definition ex_LS (s a z e : nat) : Z :=
  if ((s =? 0) && (a =? 3) && (z =? 5))%nat then 9
  else if ((s =? 5) && (a =? 7) && (z =? 9))%nat then 7 else 0.
Example cbs_example :
  cbs ex_LS 2 1 [(0, 10); (5, 10)]%nat = Some ([(3, 5); (7, 9)]%nat, [((3, 5)%nat, 9); ((7, 9)%nat, 7)]) /\
  intervals_wf_b 2 10 9 [(3, 5); (7, 9)]%nat = true.
Proof. vm_compute. split; reflexivity. Qed.

(** MVCAPA: columns ordered by decreasing saving, cut where the penalised sum peaks *)
Example affected_example : affected [3; 5; 1] 0 [1; 2; 3] = [1; 0]%nat.
Proof. vm_compute. reflexivity. Qed.

Example labels_example : event_labels 3 = [1; 2; 3]%nat /\ range_index 3 = [0; 1; 2]%nat.
Proof. vm_compute. split; reflexivity. Qed.

(** the checkers applied to the examples give the Prop-level clauses *)
Example pelt_example_clauses :
  let cpts := snd (pelt_code (tcost ex_loss 1) 1 2 9) in
  StronglySorted lt cpts /\
  (forall c, In c cpts -> (1 <= c <= 9 - 1 /\ 2 <= c /\ c + 2 <= 9)%nat) /\
  (forall i, (S i < length cpts)%nat -> (nthN cpts i + 2 <= nthN cpts (S i))%nat).
Proof. apply cpts_wf_b_sound; [lia|]. exact (proj2 pelt_example). Qed.

Print Assumptions admseg_concrete.
Print Assumptions adm_concrete.
Print Assumptions concrete_adm.
Print Assumptions adm_iff_concrete.
Print Assumptions cpts_wf_b_sound.
Print Assumptions pelt_wellformed_any_delay.
Print Assumptions pelt_wellformed.
Print Assumptions pelt_count.
Print Assumptions valid_concrete.
Print Assumptions intervals_wf_filter.
Print Assumptions intervals_wf_b_sound.
Print Assumptions capa_output_wellformed.
Print Assumptions capa_output_pairwise_disjoint.
Print Assumptions sbs_output_wellformed.
Print Assumptions sbs_output_adm.
Print Assumptions mw_output_wellformed.
Print Assumptions cbs_output_wellformed.
Print Assumptions affected_columns_wellformed.
Print Assumptions affected_columns_count.
Print Assumptions event_labels_spec.
Print Assumptions event_labels_length.
Print Assumptions range_index_length.
Print Assumptions range_index_spec.
Print Assumptions pelt_example.
Print Assumptions capa_example.
Print Assumptions sbs_example.
Print Assumptions mw_example.
Print Assumptions cbs_example.
Print Assumptions affected_example.
Print Assumptions pelt_example_clauses.
