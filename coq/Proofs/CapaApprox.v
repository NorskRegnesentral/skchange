(** Robustness of CAPA under inexact arithmetic.

    Model/CapaA.v is the transcription of run_base_capa in which every arithmetic step
    ([opt[a] + penalised saving], [opt[t] + point saving], the left-hand side [cand + K] of
    the prune test) is an uninterpreted function [Vc] / [Vp] / [Wk].  This file proves that
    if each of these steps is within [eps] of the exact real operation -- and this is only
    required AT THE VALUES THE RUN ITSELF PRODUCES -- then

    - the reported anomalies are a valid anomaly set                ([capaA_wellformed], no
      hypothesis on [Vc] / [Vp] / [Wk] at all);
    - the reported final score is within [n * eps] of the TRUE total penalised saving of
      the reported anomalies                                        ([capaA_final_close]);
    - the TRUE total penalised saving of the reported anomalies is within [3 * n * eps] of
      the optimum over ALL valid anomaly sets                       ([capaA_near_optimal]).

    The [_run] versions take the hypotheses at realised values only; the plain versions
    (hypotheses for all [g] / [c]) are corollaries.  Pruning (delay >= m - 1, sub-additive
    [pc]) is covered: a start that is pruned because its computed candidate looked too low
    loses at most [2 * eps] per hop of the chain of starts that replace it.

    [capaA] is the loop of Proofs/CapaSkeleton.v over R ([capaA_C]); the error analysis is
    that of Proofs/CapaInexact.v with the optimum [GR] and the total [totalR] of
    Proofs/CapaReal.v. *)
From Coq Require Import Reals Lra List Lia.
From SK Require Import Proofs.RealLib Proofs.CapaSpec Proofs.CapaDP Model.PeltR Model.Capa
                       Model.CapaR Proofs.CapaReal Model.CapaA Model.GenericCapa Proofs.GenericR
                       Proofs.GenericCapaR Proofs.CapaInexact.
Import ListNotations.
Open Scope R_scope.

(** * Structure: independent of the computed values                      *)
Section StructA.
Variable Vc : nat -> nat -> R -> R.
Variable Vp : nat -> R -> R.
Variable Wk : nat -> nat -> R -> R.
Variables (m M delay : nat).
Hypothesis Hm2 : (2 <= m)%nat.
Hypothesis HmM : (m <= M)%nat.

Notation capaM := (capaA Vc Vp Wk m M delay).

Lemma capaA_C n : capaM n = ccapa Rn Vc Vp Wk m M delay n.
Proof using. symmetry. now apply ccapa_A. Qed.

(** the reported score at index t is the stored value opt[t+1] *)
Lemma scoresA_nth n scores c p t : capaM n = (scores, c, p) -> (t < n)%nat ->
  nthR scores t = cG Rn Vc Vp Wk m M delay (S t).
Proof using. rewrite capaA_C. apply (cscores_nth Rn). Qed.

Theorem capaA_scores_length n scores c p : capaM n = (scores, c, p) -> length scores = n.
Proof using Hm2 HmM. rewrite capaA_C. apply (ccapa_scores_length Rn). Qed.

(** the reported anomalies are a valid anomaly set, WHATEVER the arithmetic does *)
Theorem capaA_wellformed n scores c p : capaM n = (scores, c, p) ->
  Valid m M (map to_anom (capa_predict false c p)) n.
Proof using Hm2 HmM. rewrite capaA_C. now apply (ccapa_valid Rn). Qed.

Theorem capaA_ignore_points n scores c p : capaM n = (scores, c, p) ->
  capa_predict true c p = filter (fun se => negb (is_point se)) (capa_predict false c p).
Proof using. rewrite capaA_C. apply (ccapa_ignore_points Rn). Qed.

(** the scores are non-decreasing exactly (the "no anomaly" option is not rounded) *)
Theorem capaA_scores_monotone n scores c p : capaM n = (scores, c, p) ->
  forall t, (S t < n)%nat -> nthR scores t <= nthR scores (S t).
Proof using Hm2 HmM.
  intros Hc t Ht. rewrite !(scoresA_nth n scores c p) by (try exact Hc; lia).
  exact (cG_mono Rn Vc Vp Wk m M delay Rle Rle_refl Rle_trans
           Rltb_true_le Rltb_false_le (S t)).
Qed.

End StructA.

(** * Values: every arithmetic step within eps AT THE REALISED VALUES     *)
Section ApproxA.
Variable Vc : nat -> nat -> R -> R.
Variable Vp : nat -> R -> R.
Variable Wk : nat -> nat -> R -> R.
Variables (m M delay : nat).
Variable pc : nat -> nat -> R.    (* TRUE penalised saving of the collective anomaly [s,e) *)
Variable pp : nat -> R.           (* TRUE penalised saving of the point anomaly at t *)
Variable K : R.                   (* the prune constant alpha + sum beta *)
Variable eps : R.
Variable N : nat.                 (* length of the run *)
Hypothesis Hm2 : (2 <= m)%nat.
Hypothesis HmM : (m <= M)%nat.

Notation capaM := (capaA Vc Vp Wk m M delay).
Notation G := (cG Rn Vc Vp Wk m M delay).
Notation GG := (GR pc pp m M).
Notation ValidM := (Valid m M).
Notation totalM := (totalR pc pp).

Hypothesis Heps : 0 <= eps.
(** the three kinds of arithmetic steps, at the values the run itself produces *)
Hypothesis Vc_ok : forall a T, (a < T <= N)%nat -> Rabs (Vc a T (G a) - (G a + pc a T)) <= eps.
Hypothesis Vp_ok : forall t, (t < N)%nat -> Rabs (Vp t (G t) - (G t + pp t)) <= eps.

Lemma one_le_mA : (1 <= m)%nat.
Proof using Hm2. clear - Hm2. lia. Qed.

(** the stored value is close to the TRUE value of its own chain *)
Lemma chainA_close n : (n <= N)%nat -> forall fuel e, (e <= fuel)%nat -> (e <= n)%nat ->
  G e - Eb eps e <= totalM (map to_anom (chain fuel (gcastart Rn (crun Rn Vc Vp Wk m M delay n)) e))
    <= G e + Eb eps e.
Proof using Hm2 HmM Heps Vc_ok Vp_ok.
  apply (chainK_close Vc Vp Wk m M delay pc pp eps N totalM Hm2 HmM eq_refl
           (fun l i => totalR_snoc pc pp l (Pt i)) (fun l a e => totalR_snoc pc pp l (Coll a e))
           Heps Vc_ok Vp_ok).
Qed.

Theorem capaA_final_close_N scores c p : capaM N = (scores, c, p) -> (1 <= N)%nat ->
  Rabs (nthR scores (N - 1) - totalM (map to_anom (capa_predict false c p))) <= INR N * eps.
Proof using Hm2 HmM Heps Vc_ok Vp_ok.
  intros Hc HN. rewrite (scoresA_nth Vc Vp Wk m M delay N scores c p (N - 1) Hc) by lia.
  rewrite capaA_C in Hc. rewrite (ccapa_predict_chain Rn _ _ _ _ _ _ _ _ _ _ Hc).
  pose proof (chainA_close N (le_n N) N N (le_n N) (le_n N)) as H.
  replace (S (N - 1)) with N by lia.
  apply Rabs_le. unfold Eb in H. lra.
Qed.

Hypothesis Hd : (m <= delay + 1)%nat.
Hypothesis Hsub : forall s k e, (s + m <= k)%nat -> (k + m <= e)%nat -> (e <= s + M)%nat ->
  pc s e <= pc s k + K + pc k e.
Hypothesis Wk_ok : forall a T, (a < T <= N)%nat ->
  Rabs (Wk a T (Vc a T (G a)) - (Vc a T (G a) + K)) <= eps.

(** the stored value is within 2 i eps of the exact optimum, from below *)
Lemma Gv_lower i : (i <= N)%nat -> GG i <= G i + 2 * Eb eps i.
Proof using Hm2 HmM Heps Vc_ok Vp_ok Hd Hsub Wk_ok.
  apply (Gk_lower Vc Vp Wk m M delay pc pp K eps N GG Hm2 HmM eq_refl
           (GR_attained_step pc pp m M one_le_mA) Heps Vc_ok Vp_ok Hd Hsub Wk_ok).
Qed.

Theorem capaA_near_optimal_N scores c p : capaM N = (scores, c, p) ->
  forall l, ValidM l N ->
    totalM l <= totalM (map to_anom (capa_predict false c p)) + 3 * INR N * eps.
Proof using Hm2 HmM Heps Vc_ok Vp_ok Hd Hsub Wk_ok.
  rewrite capaA_C. intros Hc l Hl.
  rewrite (ccapa_predict_chain Rn _ _ _ _ _ _ _ _ _ _ Hc).
  pose proof (chainA_close N (le_n N) N N (le_n N) (le_n N)) as H.
  pose proof (Gv_lower N (le_n N)) as HL.
  pose proof (GR_upper pc pp m M one_le_mA N l Hl) as HU.
  unfold Eb in *. lra.
Qed.

End ApproxA.

(** * The theorems in closed form                                        *)

(** the run's own stored value opt[a] (optC of a shorter run is a prefix of the longer one,
    [crun_opt_nth]) *)
Definition Grun (Vc : nat -> nat -> R -> R) (Vp : nat -> R -> R) (Wk : nat -> nat -> R -> R)
           (m M delay n a : nat) : R :=
  nthR (optC (runA Vc Vp Wk m M delay n)) a.

Lemma Grun_kG Vc Vp Wk m M delay n a : (a <= n)%nat ->
  Grun Vc Vp Wk m M delay n a = cG Rn Vc Vp Wk m M delay a.
Proof.
  intros Ha. unfold Grun.
  destruct (crun_A Vc Vc Vp Vp Wk Wk m M delay (fun _ _ _ => eq_refl) (fun _ _ => eq_refl)
              (fun _ _ _ => eq_refl) n) as (<- & _).
  now apply (crun_opt_nth Rn).
Qed.

(** hypotheses only at REALISED values: [Vc] / [Vp] / [Wk] may be tables of the binary64
    values the run produced, ignoring their real argument *)
Theorem capaA_final_close_run
  (Vc : nat -> nat -> R -> R) (Vp : nat -> R -> R) (Wk : nat -> nat -> R -> R)
  (m M delay : nat) (pc : nat -> nat -> R) (pp : nat -> R) (eps : R) (n : nat)
  (scores : list R) (c p : list (nat * nat)) :
  (2 <= m)%nat -> (m <= M)%nat -> 0 <= eps ->
  (forall a T, (a < T <= n)%nat ->
     Rabs (Vc a T (Grun Vc Vp Wk m M delay n a) - (Grun Vc Vp Wk m M delay n a + pc a T)) <= eps) ->
  (forall t, (t < n)%nat ->
     Rabs (Vp t (Grun Vc Vp Wk m M delay n t) - (Grun Vc Vp Wk m M delay n t + pp t)) <= eps) ->
  capaA Vc Vp Wk m M delay n = (scores, c, p) -> (1 <= n)%nat ->
  Rabs (nthR scores (n - 1) - totalR pc pp (map to_anom (capa_predict false c p))) <= INR n * eps.
Proof.
  intros Hm2 HmM Heps HVc HVp Hc Hn.
  apply (capaA_final_close_N Vc Vp Wk m M delay pc pp eps n Hm2 HmM Heps); try assumption.
  - intros a T HT. rewrite <- (Grun_kG Vc Vp Wk m M delay n a) by lia.
    now apply HVc.
  - intros t Ht. rewrite <- (Grun_kG Vc Vp Wk m M delay n t) by lia.
    now apply HVp.
Qed.

Theorem capaA_near_optimal_run
  (Vc : nat -> nat -> R -> R) (Vp : nat -> R -> R) (Wk : nat -> nat -> R -> R)
  (m M delay : nat) (pc : nat -> nat -> R) (pp : nat -> R) (K eps : R) (n : nat)
  (scores : list R) (c p : list (nat * nat)) :
  (2 <= m)%nat -> (m <= M)%nat -> (m <= delay + 1)%nat -> 0 <= eps ->
  (forall s k e, (s + m <= k)%nat -> (k + m <= e)%nat -> (e <= s + M)%nat ->
     pc s e <= pc s k + K + pc k e) ->
  (forall a T, (a < T <= n)%nat ->
     Rabs (Vc a T (Grun Vc Vp Wk m M delay n a) - (Grun Vc Vp Wk m M delay n a + pc a T)) <= eps) ->
  (forall t, (t < n)%nat ->
     Rabs (Vp t (Grun Vc Vp Wk m M delay n t) - (Grun Vc Vp Wk m M delay n t + pp t)) <= eps) ->
  (forall a T, (a < T <= n)%nat ->
     Rabs (Wk a T (Vc a T (Grun Vc Vp Wk m M delay n a))
           - (Vc a T (Grun Vc Vp Wk m M delay n a) + K)) <= eps) ->
  capaA Vc Vp Wk m M delay n = (scores, c, p) ->
  forall l, Valid m M l n ->
    totalR pc pp l <= totalR pc pp (map to_anom (capa_predict false c p)) + 3 * INR n * eps.
Proof.
  intros Hm2 HmM Hd Heps Hsub HVc HVp HWk Hc.
  apply (capaA_near_optimal_N Vc Vp Wk m M delay pc pp K eps n Hm2 HmM Heps) with (scores := scores);
    try assumption.
  - intros a T HT. rewrite <- (Grun_kG Vc Vp Wk m M delay n a) by lia.
    now apply HVc.
  - intros t Ht. rewrite <- (Grun_kG Vc Vp Wk m M delay n t) by lia.
    now apply HVp.
  - intros a T HT. rewrite <- (Grun_kG Vc Vp Wk m M delay n a) by lia.
    now apply HWk.
Qed.

(** hypotheses for ALL arguments: every arithmetic step is within eps of the real one *)
Section MainA.
Variable Vc : nat -> nat -> R -> R.
Variable Vp : nat -> R -> R.
Variable Wk : nat -> nat -> R -> R.
Variables (m M delay : nat).
Variable pc : nat -> nat -> R.
Variable pp : nat -> R.
Variables (K eps : R).
Hypothesis Hm2 : (2 <= m)%nat.
Hypothesis HmM : (m <= M)%nat.
Hypothesis Hd : (m <= delay + 1)%nat.
Hypothesis Hsub : forall s k e, (s + m <= k)%nat -> (k + m <= e)%nat -> (e <= s + M)%nat ->
  pc s e <= pc s k + K + pc k e.
Hypothesis Heps : 0 <= eps.
Hypothesis Vc_ok : forall a T g, Rabs (Vc a T g - (g + pc a T)) <= eps.
Hypothesis Vp_ok : forall t g, Rabs (Vp t g - (g + pp t)) <= eps.
Hypothesis Wk_ok : forall a T c, Rabs (Wk a T c - (c + K)) <= eps.

Theorem capaA_final_close n scores c p :
  capaA Vc Vp Wk m M delay n = (scores, c, p) -> (1 <= n)%nat ->
  Rabs (nthR scores (n - 1) - totalR pc pp (map to_anom (capa_predict false c p))) <= INR n * eps.
Proof using Hm2 HmM Heps Vc_ok Vp_ok.
  intros Hc Hn.
  apply (capaA_final_close_run Vc Vp Wk m M delay pc pp eps n scores c p); auto.
Qed.

Theorem capaA_near_optimal n scores c p :
  capaA Vc Vp Wk m M delay n = (scores, c, p) ->
  forall l, Valid m M l n ->
    totalR pc pp l <= totalR pc pp (map to_anom (capa_predict false c p)) + 3 * INR n * eps.
Proof using Hm2 HmM Hd Hsub Heps Vc_ok Vp_ok Wk_ok.
  intros Hc.
  apply (capaA_near_optimal_run Vc Vp Wk m M delay pc pp K eps n scores c p); auto.
Qed.

(** every intermediate score is within 2 (t+1) eps below / (t+1) eps above the exact
    optimum of its prefix *)
Theorem capaA_scores_near_optimal n scores c p :
  capaA Vc Vp Wk m M delay n = (scores, c, p) ->
  forall t, (t < n)%nat ->
    GR pc pp m M (S t) - 2 * INR (S t) * eps <= nthR scores t
      <= GR pc pp m M (S t) + INR (S t) * eps.
Proof using Hm2 HmM Hd Hsub Heps Vc_ok Vp_ok Wk_ok.
  intros Hc t Ht. rewrite (scoresA_nth Vc Vp Wk m M delay n scores c p t Hc Ht).
  assert (Hm1 : (1 <= m)%nat) by lia.
  split.
  - pose proof (Gv_lower Vc Vp Wk m M delay pc pp K eps n Hm2 HmM Heps
                  ltac:(intros; apply Vc_ok) ltac:(intros; apply Vp_ok) Hd Hsub
                  ltac:(intros; apply Wk_ok) (S t) Ht) as H.
    unfold Eb in H. lra.
  - pose proof (chainA_close Vc Vp Wk m M delay pc pp eps n Hm2 HmM Heps
                  ltac:(intros; apply Vc_ok) ltac:(intros; apply Vp_ok) n (le_n n)
                  (S t) (S t) (le_n _) Ht) as [H _].
    assert (V : Valid m M (map to_anom (chain (S t) (gcastart Rn (crun Rn Vc Vp Wk m M delay n))
                                          (S t))) (S t)).
    { apply (chain_valid_from m M Hm2 _ n); [|lia|lia].
      intros j Hj. apply (crun_ptr Rn); assumption. }
    pose proof (GR_upper pc pp m M Hm1 (S t) _ V) as HU.
    unfold Eb in H. lra.
Qed.
End MainA.

(** * Non-vacuity                                                        *)

(** (1) the exact arithmetic meets the hypotheses with any eps >= 0 ([exact_steps_ok]),
    and with eps = 0 the robustness theorem gives back the exact optimality theorem
    [capaR_optimal] of Proofs/CapaReal.v *)
Corollary capaR_optimal_from_approx
  (Sc : nat -> nat -> list R) (Sp : nat -> list R) (ac : R) (bc : list R) (ap : R) (bp : list R)
  (m M delay n : nat) (scores : list R) (c p : list (nat * nat)) :
  (2 <= m)%nat -> (m <= M)%nat -> (m <= delay + 1)%nat ->
  (forall s k e, (s + m <= k)%nat -> (k + m <= e)%nat -> (e <= s + M)%nat ->
     PcR Sc ac bc s e <= PcR Sc ac bc s k + (ac + sumR bc) + PcR Sc ac bc k e) ->
  capaR Sc Sp ac bc ap bp m M delay n = (scores, c, p) ->
  forall l, Valid m M l n ->
    totalR (PcR Sc ac bc) (PpR Sp ap bp) l
    <= totalR (PcR Sc ac bc) (PpR Sp ap bp) (map to_anom (capa_predict false c p)).
Proof.
  intros Hm2 HmM Hd Hsub Hc l Hl. rewrite <- capaA_exact in Hc.
  destruct (exact_steps_ok (PcR Sc ac bc) (PpR Sp ap bp) (ac + sumR bc) 0 (Rle_refl 0))
    as (H1 & H2 & H3).
  pose proof (capaA_near_optimal _ _ _ m M delay (PcR Sc ac bc) (PpR Sp ap bp) (ac + sumR bc) 0
                Hm2 HmM Hd Hsub (Rle_refl 0) H1 H2 H3 n scores c p Hc l Hl) as H.
  lra.
Qed.

(** (2) a genuinely perturbed arithmetic: every candidate is off by exactly eps (the sign
    alternates with a + T), every point option by eps / 2, every prune sum by eps *)
Section Perturbed.
Variable pc : nat -> nat -> R.
Variable pp : nat -> R.
Variables (K eps : R).
Hypothesis Heps : 0 <= eps.

Definition VcP (a T : nat) (g : R) : R :=
  g + pc a T + (if Nat.even (a + T) then eps else - eps).
Definition VpP (t : nat) (g : R) : R := g + pp t - eps / 2.
Definition WkP (a T : nat) (c : R) : R := c + K + eps.

Lemma VcP_ok a T g : Rabs (VcP a T g - (g + pc a T)) <= eps.
Proof. unfold VcP. apply Rabs_le. destruct (Nat.even (a + T)); lra. Qed.
Lemma VpP_ok t g : Rabs (VpP t g - (g + pp t)) <= eps.
Proof. unfold VpP. apply Rabs_le. lra. Qed.
Lemma WkP_ok a T c : Rabs (WkP a T c - (c + K)) <= eps.
Proof. unfold WkP. apply Rabs_le. lra. Qed.

(** the perturbation is real: no computed candidate equals the exact one *)
Lemma VcP_perturbed : 0 < eps -> forall a T g, VcP a T g <> g + pc a T.
Proof. intros H a T g. unfold VcP. destruct (Nat.even (a + T)); lra. Qed.

Theorem capaA_perturbed_near_optimal m M delay n scores c p :
  (2 <= m)%nat -> (m <= M)%nat -> (m <= delay + 1)%nat ->
  (forall s k e, (s + m <= k)%nat -> (k + m <= e)%nat -> (e <= s + M)%nat ->
     pc s e <= pc s k + K + pc k e) ->
  capaA VcP VpP WkP m M delay n = (scores, c, p) ->
  forall l, Valid m M l n ->
    totalR pc pp l <= totalR pc pp (map to_anom (capa_predict false c p)) + 3 * INR n * eps.
Proof.
  intros Hm2 HmM Hd Hsub.
  exact (capaA_near_optimal VcP VpP WkP m M delay pc pp K eps Hm2 HmM Hd Hsub Heps
           VcP_ok VpP_ok WkP_ok n scores c p).
Qed.
End Perturbed.

(** (3) all hypotheses at once, on concrete data: m = 2, M = 4, delay = 1, a saving
    that grows with the length, K = 3, eps = 1/1024, the perturbed arithmetic above *)
Definition pc_ex (s e : nat) : R := INR (e - s) - 3.
Definition pp_ex (t : nat) : R := -1.

Lemma pc_ex_subadditive s k e : (s + 2 <= k)%nat -> (k + 2 <= e)%nat -> (e <= s + 4)%nat ->
  pc_ex s e <= pc_ex s k + 3 + pc_ex k e.
Proof.
  intros H1 H2 H3. unfold pc_ex.
  replace (e - s)%nat with ((k - s) + (e - k))%nat by lia. rewrite plus_INR. lra.
Qed.

Theorem capaA_concrete_instance n scores c p :
  capaA (VcP pc_ex (/ 1024)) (VpP pp_ex (/ 1024)) (WkP 3 (/ 1024)) 2 4 1 n = (scores, c, p) ->
  forall l, Valid 2 4 l n ->
    totalR pc_ex pp_ex l
    <= totalR pc_ex pp_ex (map to_anom (capa_predict false c p)) + 3 * INR n * / 1024.
Proof.
  apply (capaA_perturbed_near_optimal pc_ex pp_ex 3 (/ 1024)); try lia.
  - lra.
  - exact pc_ex_subadditive.
Qed.

Print Assumptions capaA_near_optimal.
Print Assumptions capaA_final_close.
Print Assumptions capaA_near_optimal_run.
Print Assumptions capaA_final_close_run.
Print Assumptions capaA_wellformed.
