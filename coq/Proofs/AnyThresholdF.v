(** The any-threshold theorems (Proofs/AnyThreshold.v) at the binary64 instance: for floating-point scores and ANY
    floating-point threshold (negative, infinite, NaN) the greedy loops of the code as fixed terminate and report
    well-formed detections; for non-NaN scores the fixed loops satisfy the specification for every non-NaN threshold. *)
From Coq Require Import List.
From SK Require Import Model.GenericF.
From SK Require Import Proofs.GenericInstances Proofs.AnyThreshold.
Import ListNotations.

Definition F64_sbs_any_total := gsbs_any_total F64.
Definition F64_sbs_any_wellformed := gsbs_any_wellformed F64.
Definition F64_cbs_any_total := gcbs_any_total F64.
Definition F64_cbs_any_wellformed := gcbs_any_wellformed F64.
Definition F64_mw_any_in_range := gmw_any_in_range F64.
Definition F64_mw_any_sorted := gmw_any_sorted F64.
(** with the strict weak order on non-NaN floats: agreement with the original model for a threshold that zero does not exceed, and the
    specification clauses for every threshold *)
Definition F64_sbs_any_agrees := gsbs_any_agrees F64 nonnan F64_swo.
Definition F64_cbs_any_agrees := gcbs_any_agrees F64 nonnan F64_swo.
Definition F64_sbs_any_supported := gsbs_any_supported F64 nonnan F64_swo.
Definition F64_sbs_any_no_interval_left := gsbs_any_no_interval_left F64 nonnan F64_swo.
Definition F64_sbs_any_threshold_monotone := gsbs_any_threshold_monotone F64 nonnan F64_swo.
Definition F64_cbs_any_supported_and_complete := gcbs_any_supported_and_complete F64 nonnan F64_swo.

Print Assumptions F64_sbs_any_total.
Print Assumptions F64_sbs_any_supported.
