(** The greedy loops of Model/Sbs.v and Model/Cbs.v (scores in Z, a removed candidate gets score 0,
    threshold >= 0) as instances of the theorems for an arbitrary strict weak order
    (Proofs/GenericSpec.v, Proofs/AnyThreshold.v): [gsbs Zn] and [gcbs Zn] are [sbs] and [cbs]
    (Proofs/GenericZ.v), and the selection loops at [Zn] are the Z loops by computation. *)
From Coq Require Import ZArith List Permutation.
From SK Require Import Lib.Base Model.Sbs Model.Capa Model.Cbs Model.Generic.
From SK Require Import Proofs.ArgmaxLemmas Proofs.SbsProofs Proofs.CbsProofs.
From SK Require Import Proofs.GenericZ Proofs.GenericOrder Proofs.AnyThreshold Proofs.GenericSpec.
Import ListNotations.
Open Scope Z_scope.

Notation allZ := (fun _ : Z => True).

Lemma sbs_inv : forall CS m thr ivs cpts am, sbs CS m thr ivs = Some (cpts, am) ->
  amocs CS m ivs = Some am /\
  exists picks, greedy_cpts (length ivs) thr ivs (map fst am) (map snd am) = Some picks /\
                cpts = sort_nat picks.
Proof.
  intros CS m thr ivs cpts am H. rewrite <- gsbs_Z in H.
  destruct (gsbs_inv Zn _ _ _ _ _ _ H) as (A & picks & G & E).
  rewrite gamocs_Z in A. rewrite ggreedy_cpts_Z in G. split; [exact A|]. exists picks. split; [exact G | exact E].
Qed.

Theorem sbs_wellformed : forall CS m thr n ivs cpts am,
  0 <= thr -> (1 <= m)%nat ->
  (forall s e, In (s, e) ivs -> (s + 2 * m <= e /\ e <= n)%nat) ->
  sbs CS m thr ivs = Some (cpts, am) ->
  (forall i, (S i < length cpts)%nat ->
     (nthN cpts i < nthN cpts (S i) /\ nthN cpts i + m <= nthN cpts (S i))%nat) /\
  (forall c, In c cpts -> (m <= c /\ c + m <= n)%nat) /\
  exists picks, amocs CS m ivs = Some am /\
    greedy_cpts (length ivs) thr ivs (map fst am) (map snd am) = Some picks /\
    cpts = sort_nat picks /\ Permutation cpts picks.
Proof.
  intros CS m thr n ivs cpts am Hthr Hm Hivs H.
  destruct (sbs_inv _ _ _ _ _ _ H) as (A & picks & G & E).
  rewrite <- (sbs_any_Z CS m thr ivs Hthr) in H.
  destruct (gsbs_any_wellformed Zn CS m thr n ivs cpts am Hm Hivs H) as (W1 & W2 & _).
  split; [exact W1|]. split; [exact W2|]. exists picks. split; [exact A|]. split; [exact G|].
  split; [exact E | rewrite E; apply sort_nat_perm].
Qed.

Theorem sbs_total : forall CS m thr n ivs,
  0 <= thr -> (1 <= m)%nat ->
  (forall s e, In (s, e) ivs -> (s + 2 * m <= e /\ e <= n)%nat) ->
  exists r, sbs CS m thr ivs = Some r.
Proof.
  intros CS m thr n ivs Hthr Hm Hivs. rewrite <- (sbs_any_Z CS m thr ivs Hthr).
  exact (gsbs_any_total Zn CS m thr n ivs Hm Hivs).
Qed.

Lemma anoms_pre_Zn : forall thr ivs inner scores N, anoms_pre thr ivs inner scores N ->
  ganoms_pre Zn thr ivs inner scores N.
Proof.
  intros thr ivs inner scores N (H1 & H2 & H3 & H4 & H5).
  split; [exact H1|]. split; [exact H2|]. split; [exact H3|]. split; [apply thr_Z; exact H4|].
  intros i Hi Hlt. apply H5; [exact Hi | apply Z.ltb_lt; exact Hlt].
Qed.

Theorem greedy_anoms_supported : forall thr ivs inner scores N fuel picks,
  anoms_pre thr ivs inner scores N ->
  greedy_anoms fuel thr ivs inner scores = Some picks ->
  forall ab, In ab picks ->
  exists i, (i < N)%nat /\ nthP inner i = ab /\ thr < nthZ scores i.
Proof.
  intros thr ivs inner scores N fuel picks Hpre H ab Hab.
  destruct (G09_picks_supported Zn allZ swo_Z I thr ivs inner scores N fuel picks I (allZ_Forall _)
              (anoms_pre_Zn _ _ _ _ _ Hpre) H ab Hab) as (i & Hi & E & Hlt).
  exists i. split; [exact Hi|]. split; [exact E | apply Z.ltb_lt; exact Hlt].
Qed.

Theorem greedy_anoms_complete : forall thr ivs inner scores N fuel picks,
  anoms_pre thr ivs inner scores N ->
  greedy_anoms fuel thr ivs inner scores = Some picks ->
  forall i, (i < N)%nat -> thr < nthZ scores i ->
  exists ab, In ab picks /\ overlaps ab (nthP ivs i) = true.
Proof.
  intros thr ivs inner scores N fuel picks Hpre H i Hi Hlt.
  apply (G09_no_candidate_left Zn allZ swo_Z I thr ivs inner scores N fuel picks I (allZ_Forall _)
           (anoms_pre_Zn _ _ _ _ _ Hpre) H i Hi). apply Z.ltb_lt. exact Hlt.
Qed.

Theorem greedy_anoms_threshold_incl : forall thr thr' ivs inner scores fuel fuel' picks picks',
  length ivs = length scores -> thr <= thr' ->
  greedy_anoms fuel thr ivs inner scores = Some picks ->
  greedy_anoms fuel' thr' ivs inner scores = Some picks' ->
  incl picks' picks.
Proof.
  intros thr thr' ivs inner scores fuel fuel' picks picks' Hlen Hle H H'.
  apply (G09_threshold_monotone Zn allZ swo_Z I thr thr' ivs inner scores fuel fuel' picks picks' I I
           (allZ_Forall _) Hlen); [apply Z.ltb_ge; exact Hle | exact H | exact H'].
Qed.

Theorem cbs_wellformed : forall LS m thr n ivs anoms am,
  0 <= thr -> (1 <= m)%nat ->
  (forall s e, In (s, e) ivs -> (e <= n)%nat) ->
  cbs LS m thr ivs = Some (anoms, am) ->
  (forall i, (S i < length anoms)%nat ->
     (fst (nthP anoms i) < fst (nthP anoms (S i)) /\
      snd (nthP anoms i) <= fst (nthP anoms (S i)))%nat) /\
  (forall a z, In (a, z) anoms -> (1 <= a /\ a + m <= z /\ z <= n - 1)%nat) /\
  am = map (inner_or_zero LS m) ivs /\
  exists picks,
    greedy_anoms (length ivs) thr ivs (map fst am) (map snd am) = Some picks /\
    anoms = sort_pairs picks /\ Permutation anoms picks.
Proof.
  intros LS m thr n ivs anoms am Hthr Hm Hivs H.
  rewrite <- gcbs_Z in H. destruct (gcbs_inv Zn _ _ _ _ _ _ H) as (E & picks & G & Es).
  rewrite (map_ext _ _ (ginner_or_zero_Z LS m)) in E. rewrite ggreedy_anoms_Z in G.
  destruct (G09_wellformed Zn allZ swo_Z I LS m thr n ivs anoms am (fun _ _ _ _ _ _ => I) I (thr_Z thr Hthr)
              Hm Hivs H) as (W1 & W2 & _).
  split; [exact W1|]. split; [exact W2|]. split; [exact E|].
  exists picks. split; [exact G|]. split; [exact Es | rewrite Es; apply sort_pairs_perm].
Qed.

Theorem cbs_total : forall LS m thr ivs, 0 <= thr -> exists r, cbs LS m thr ivs = Some r.
Proof.
  intros LS m thr ivs Hthr. rewrite <- gcbs_Z.
  exact (G09_total Zn allZ swo_Z I LS m thr ivs (fun _ _ _ _ _ _ => I) I (thr_Z thr Hthr)).
Qed.

Print Assumptions sbs_wellformed.
Print Assumptions sbs_total.
Print Assumptions greedy_anoms_supported.
Print Assumptions greedy_anoms_complete.
Print Assumptions greedy_anoms_threshold_incl.
Print Assumptions cbs_wellformed.
Print Assumptions cbs_total.
