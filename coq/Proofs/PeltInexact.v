(** The PELT loop over R with inexact arithmetic, measured against an optimal-value function.

    The loop is [krun Rn V W] of Proofs/PeltLoop.v (it is Model/PeltA.v, and with exact sums
    Model/PeltR.v: Proofs/GenericR.v).  Write [G e] for the value the run of length [n] stores
    in [opt_cost[e]].  If every arithmetic step is within [eps] of the exact real operation on
    a TRUE cost [C] AT THE VALUES THE RUN ITSELF STORES, then

    (a) along the back-pointer chain every link contributes one [V]-error (one [I0]-error for
        the first segment): |G e - cost (chain e)| <= e * eps  ([chain_close]);
    (b) a start [a] pruned at the end [tau] satisfies  G a + C a tau > G tau - 2 eps, so by
        the split inequality the start [tau] is at most 2 eps worse than [a] for every later
        end; [tau] may have been pruned as well, but the chain is strictly increasing, hence
        for each admissible start [a] of an end some CURRENT start [s0 >= a] is at most
        2 (s0 - a) eps worse ([current_dominates]).  This gives G T <= Fo T + 2 T eps
        ([G_upper]).

    The optimal value [Fo] and the penalised cost [cost] of a segmentation enter through the
    facts they satisfy, so that the exact theory of Proofs/PeltReal.v (eps = 0) and the
    robustness theorems of Proofs/PeltApprox.v are both instances. *)
From Coq Require Import Reals Lra List Lia.
From SK Require Import Lib.Base Proofs.RealLib Model.Pelt Model.Generic Proofs.PeltSpec
                       Proofs.PeltLoop Proofs.GenericR.
Import ListNotations.
Open Scope R_scope.

(** exact arithmetic meets every error hypothesis below with eps = 0 *)
Lemma Rabs_le_0 x y : Rabs (x - y) <= 0 -> x = y.
Proof. intros H. apply Rabs_le_both in H. lra. Qed.

Lemma INR_succ_le a b : (a < b)%nat -> INR a + 1 <= INR b.
Proof. intros H. rewrite <- S_INR. now apply le_INR. Qed.

Section Inexact.
Variable V : nat -> nat -> R -> R.
Variable W : nat -> R -> R.
Variable I0 : nat -> R.
Variable pen : R.
Variables (m delay n : nat).
Variable C : nat -> nat -> R.             (* TRUE cost of the segment [a, T) *)
Variable eps : R.
Variable cost : list nat -> nat -> R.     (* TRUE penalised cost of a segmentation *)
Hypothesis m_pos : (1 <= m)%nat.
Hypothesis n_big : (2 * m <= n)%nat.
Hypothesis cost_nil : forall T, cost [] T = C 0 T.
Hypothesis cost_snoc : forall cp c T, cost (cp ++ [c]) T = cost cp c + C c T + pen.

Notation runK := (krun Rn V W m delay (- pen) I0).

(** the value stored for the end [e] by the run of length [n] *)
Definition stored (e : nat) : R := nthV Rn (gopt Rn (runK n)) e.
Notation G := stored.

Lemma runK_stored T e : (2 * m - 1 <= T <= n)%nat -> (e <= T)%nat ->
  nthV Rn (gopt Rn (runK T)) e = G e.
Proof. intros HT He. symmetry. apply krun_opt_prefix; [exact m_pos|lia|lia|exact He]. Qed.

Lemma stored_small e : (e < m)%nat -> G e = - pen.
Proof.
  apply (ki_small (krun_KInv Rn V W m delay (- pen) I0 m_pos n ltac:(lia))).
Qed.

Hypothesis V_ok : forall a T, (2 * m <= T <= n)%nat -> last_start m T a ->
  Rabs (V a T (G a) - (G a + C a T + pen)) <= eps.
Hypothesis I0_ok : forall e, (m <= e < 2 * m)%nat -> Rabs (I0 e - C 0 e) <= eps.

Notation bp e := (nthN (gprev Rn (runK n)) (e - 1)).

(** every stored value is within [eps] of "value at the back pointer + true cost + pen" *)
Lemma link_close e : (m <= e <= n)%nat -> Rabs (G e - (G (bp e) + C (bp e) e + pen)) <= eps.
Proof.
  intros He. pose proof (krun_KInv Rn V W m delay (- pen) I0 m_pos n ltac:(lia)) as K.
  destruct (lt_dec e (2 * m)) as [Hlt|Hge].
  - destruct (ki_lo K e ltac:(lia) ltac:(lia)) as [Hp Ho].
    rewrite Hp, (stored_small 0) by lia. unfold stored. rewrite Ho.
    replace (I0 e - (- pen + C 0 e + pen)) with (I0 e - C 0 e) by lra. apply I0_ok. lia.
  - unfold stored at 1. rewrite (ki_hi K e) by lia.
    apply V_ok; [lia|]. apply (ki_bp K e He).
Qed.

(** (a) the back-pointer chain from [T] is admissible, and the stored value is close to its
    TRUE cost *)
Lemma chain_close T : (m <= T <= n)%nat ->
  Adm m (changepoints (gprev Rn (runK n)) T) T /\
  Rabs (G T - cost (changepoints (gprev Rn (runK n)) T) T) <= INR T * eps.
Proof.
  pose proof (krun_KInv Rn V W m delay (- pen) I0 m_pos n ltac:(lia)) as K.
  apply (changepoints_chain m _ n (fun cp e => Rabs (G e - cost cp e) <= INR e * eps) m_pos
           (ki_bp K)).
  - intros e He E0. pose proof (Rabs_le_both _ _ (link_close e He)) as Hl.
    rewrite E0, (stored_small 0) in Hl by lia.
    rewrite cost_nil. apply Rabs_le_of.
    assert (1 <= INR e) by (apply (le_INR 1); lia). assert (0 <= eps) by lra. nra.
  - intros e cp He H1 H2 HP. pose proof (Rabs_le_both _ _ (link_close e He)) as Hl.
    apply Rabs_le_both in HP. rewrite cost_snoc. apply Rabs_le_of.
    pose proof (INR_succ_le (bp e) e ltac:(lia)). assert (0 <= eps) by lra. nra.
Qed.

Notation out := (kpelt Rn V W m delay (- pen) I0 n).

Lemma scores_stored t : (1 <= t)%nat -> nth (t - 1) (fst out) 0 = G t.
Proof. exact (kpelt_scores_nth Rn V W m delay (- pen) I0 n t). Qed.

Lemma final_close : Rabs (nth (n - 1) (fst out) 0 - cost (snd out) n) <= INR n * eps.
Proof. rewrite scores_stored by lia. apply chain_close. lia. Qed.

(** ** Near-optimality of the stored values *)
Variable Fo : nat -> R.                   (* optimal penalised cost of each prefix *)
Hypothesis Fo_small : forall e, (e < m)%nat -> Fo e = - pen.
Hypothesis Fo_mid : forall e, (m <= e < 2 * m)%nat -> Fo e = C 0 e.
Hypothesis Fo_attained : forall T, (m <= T)%nat ->
  exists a, last_start m T a /\ Fo T = Fo a + C a T + pen.
Hypothesis Fo_lower : forall T cp, Adm m cp T -> Fo T <= cost cp T.

(** ... from below: needs neither the split inequality nor anything on [W] *)
Lemma G_lower t : (m <= t <= n)%nat -> Fo t - INR t * eps <= G t.
Proof.
  intros Ht. destruct (chain_close t Ht) as [Hadm Hcl]. apply Rabs_le_both in Hcl.
  pose proof (Fo_lower t _ Hadm). lra.
Qed.

Hypothesis eps_nonneg : 0 <= eps.
Hypothesis delay_ok : (m <= delay + 1)%nat.
Hypothesis split : forall s k e, (s + m <= k)%nat -> (k + m <= e)%nat -> (e <= n)%nat ->
  C s k + C k e <= C s e.
Hypothesis W_ok : forall T, (2 * m <= T <= n)%nat -> Rabs (W T (G T) - (G T + pen)) <= eps.

(** [a] was found worse than the stored value at end [tau], up to the slack [2 eps]
    (one [V]-error on the left of the prune test, one [W]-error on its right) *)
Definition condemned (a tau : nat) : Prop :=
  last_start m tau a /\ (m <= tau)%nat /\ G a + C a tau > G tau - 2 * eps.

Definition Inv (T : nat) (s : gst Rn) : Prop :=
  (forall e, (e <= T)%nat -> G e <= Fo e + 2 * INR e * eps) /\
  QInv m delay (last_start m) condemned T (gstarts Rn s) (gpending Rn s).

(** the chain argument: every admissible start [a] of the end [S T] is dominated, up to
    [2 (s0 - a) eps], by a start [s0 >= a] of the CURRENT start set [R1] *)
Lemma current_dominates T (R1 : list nat) :
  (S T <= n)%nat ->
  (forall a, last_start m (S T) a -> ~ In a R1 ->
     exists tau, (tau + m <= T + 1)%nat /\ condemned a tau) ->
  forall k a, (S T - a <= k)%nat -> last_start m (S T) a ->
    exists s0, In s0 R1 /\ (a <= s0)%nat /\
      G s0 + C s0 (S T) <= G a + C a (S T) + 2 * (INR s0 - INR a) * eps.
Proof.
  intros HTn Hmiss. induction k as [|k IH]; intros a Hk Hf.
  - exfalso. unfold last_start in Hf. lia.
  - destruct (in_dec Nat.eq_dec a R1) as [Hin|Hnin].
    + exists a. split; [exact Hin|]. split; [lia|]. lra.
    + destruct (Hmiss a Hf Hnin) as (tau & Htau & (Hfa & Hmt & Hgt)).
      assert (Hat : (a + m <= tau)%nat) by (unfold last_start in Hfa; lia).
      destruct (IH tau ltac:(lia) ltac:(right; lia)) as (s0 & Hs0 & Hle & Hval).
      exists s0. split; [exact Hs0|]. split; [lia|].
      pose proof (split a tau (S T) Hat ltac:(lia) HTn) as Hsp.
      pose proof (INR_succ_le a tau ltac:(lia)). nra.
Qed.

Lemma step_Inv T : (2 * m - 1 <= T)%nat -> (S T <= n)%nat ->
  Inv T (runK T) -> Inv (S T) (runK (S T)).
Proof.
  intros HT HTn [Hup HQ].
  pose proof (krun_KInv Rn V W m delay (- pen) I0 m_pos T HT) as K.
  pose proof (runK_stored (S T) (S T) ltac:(lia) (le_n _)) as HbG.
  rewrite krun_S in HbG |- * by exact HT.
  destruct (kstep_cases Rn V W m delay (runK T) T) as (i & b & Harg & _ & _ & Hstep).
  rewrite Hstep in HbG |- *. cbn [gopt gstarts gpending] in *.
  unfold nthV in HbG. rewrite <- (ki_len_opt K) in HbG at 1. rewrite nth_middle in HbG.
  pose proof (starts1_ok m T _ HT (ki_starts K)) as Hsub1.
  fold (kstarts1 Rn m (runK T) T) in Hsub1. set (R1 := kstarts1 Rn m (runK T) T) in *.
  (* the computed candidates of the current starts are within eps of the exact ones *)
  assert (HV : forall a, In a R1 -> kcandv Rn V (runK T) T a = V a (S T) (G a) /\
            Rabs (V a (S T) (G a) - (G a + C a (S T) + pen)) <= eps).
  { intros a Ha. pose proof (last_start_lt m (S T) a m_pos ltac:(lia) (Hsub1 a Ha)).
    unfold kcandv. rewrite runK_stored by lia. split; [reflexivity|].
    apply V_ok; [lia|now apply Hsub1]. }
  assert (Hmin : forall a, In a R1 -> b <= V a (S T) (G a)).
  { intros a Ha. rewrite <- (proj1 (HV a Ha)).
    exact (gargmin_Rn_le _ i b Harg _ (in_map _ _ a Ha)). }
  split.
  - (* the selected value is at most Fo (S T) + 2 (S T) eps *)
    intros e He. destruct (Nat.eq_dec e (S T)) as [->|Hne]; [|apply Hup; lia].
    rewrite <- HbG.
    destruct (Fo_attained (S T) ltac:(lia)) as (a & Hfa & Ea).
    destruct (current_dominates T R1 HTn (q_missing1 m delay m_pos condemned T _ _ HT HQ)
                (S T) a ltac:(lia) Hfa) as (s0 & Hs0 & Hle & Hval).
    pose proof (Hmin s0 Hs0) as Hb0.
    pose proof (Rabs_le_both _ _ (proj2 (HV s0 Hs0))) as Hv.
    pose proof (Hup a ltac:(unfold last_start in Hfa; lia)) as Hua.
    pose proof (INR_succ_le s0 (S T)
                  (last_start_lt m (S T) s0 m_pos ltac:(lia) (Hsub1 s0 Hs0))).
    nra.
  - apply (pqueue_step m delay m_pos condemned); auto.
    (* a start queued now has a candidate above the threshold *)
    intros a Ha. apply in_kdrop in Ha as [Ha Hgt]. apply Rleb_false in Hgt.
    destruct (HV a Ha) as [Ecv Hv]. rewrite Ecv, HbG in Hgt. apply Rabs_le_both in Hv.
    pose proof (Rabs_le_both _ _ (W_ok (S T) ltac:(lia))) as Hw.
    split; [now apply Hsub1|]. split; [lia|]. lra.
Qed.

Lemma run_Inv T : (2 * m - 1 <= T)%nat -> (T <= n)%nat -> Inv T (runK T).
Proof.
  intros HT. induction HT as [|T HT IH]; intros HTn; [|apply step_Inv; [exact HT|exact HTn|apply IH; lia]].
  rewrite krun_init. split; [|exact (QInv_init m delay m_pos _)].
  intros e He. rewrite <- (runK_stored (2 * m - 1) e) by lia. rewrite krun_init.
  destruct (lt_dec e m) as [Hlt|Hge].
  - rewrite kinit_opt_small, Fo_small by lia. pose proof (pos_INR e). nra.
  - rewrite kinit_opt_mid, Fo_mid by lia.
    pose proof (Rabs_le_both _ _ (I0_ok e ltac:(lia))).
    assert (1 <= INR e) by (apply (le_INR 1); lia). nra.
Qed.

(** (b) every stored value is at most [2 e eps] above the optimal value *)
Lemma G_upper e : (e <= n)%nat -> G e <= Fo e + 2 * INR e * eps.
Proof. apply (proj1 (run_Inv n ltac:(lia) (le_n n))). Qed.

Lemma scores_close t : (m <= t <= n)%nat ->
  Fo t - INR t * eps <= nth (t - 1) (fst out) 0 <= Fo t + 2 * INR t * eps.
Proof. intros Ht. rewrite scores_stored by lia. split; [now apply G_lower|apply G_upper; lia]. Qed.

End Inexact.

(** * Exact arithmetic: eps = 0 *)
Section Exact.
Variable C : nat -> nat -> R.
Variable pen : R.
Variables (m delay n : nat).
Variable cost : list nat -> nat -> R.
Hypothesis m_pos : (1 <= m)%nat.
Hypothesis n_big : (2 * m <= n)%nat.
Hypothesis cost_nil : forall T, cost [] T = C 0 T.
Hypothesis cost_snoc : forall cp c T, cost (cp ++ [c]) T = cost cp c + C c T + pen.

Notation VR := (fun (a T : nat) (g : R) => g + C a T + pen).
Notation WR := (fun (_ : nat) (b : R) => b + pen).
Notation out := (kpelt Rn VR WR m delay (- pen) (C 0%nat) n).

(** the final score is the penalised cost of exactly the reported segmentation *)
Lemma exact_final : nth (n - 1) (fst out) 0 = cost (snd out) n.
Proof.
  pose proof (final_close VR WR (C 0%nat) pen m delay n C 0 cost m_pos n_big cost_nil cost_snoc
                (fun a T _ _ => Rabs_diag_0 _) (fun e _ => Rabs_diag_0 _)).
  apply Rabs_le_0. lra.
Qed.

Variable Fo : nat -> R.
Hypothesis Fo_small : forall e, (e < m)%nat -> Fo e = - pen.
Hypothesis Fo_mid : forall e, (m <= e < 2 * m)%nat -> Fo e = C 0 e.
Hypothesis Fo_attained : forall T, (m <= T)%nat ->
  exists a, last_start m T a /\ Fo T = Fo a + C a T + pen.
Hypothesis Fo_lower : forall T cp, Adm m cp T -> Fo T <= cost cp T.
Hypothesis delay_ok : (m <= delay + 1)%nat.
Hypothesis split : forall s k e, (s + m <= k)%nat -> (k + m <= e)%nat -> (e <= n)%nat ->
  C s k + C k e <= C s e.

(** pruning never removes a start that can still be optimal: every score is the optimal
    value of its prefix *)
Lemma exact_scores t : (m <= t <= n)%nat -> nth (t - 1) (fst out) 0 = Fo t.
Proof.
  intros Ht.
  pose proof (scores_close VR WR (C 0%nat) pen m delay n C 0 cost m_pos n_big cost_nil cost_snoc
                (fun a T _ _ => Rabs_diag_0 _) (fun e _ => Rabs_diag_0 _)
                Fo Fo_small Fo_mid Fo_attained Fo_lower (Rle_refl 0) delay_ok split
                (fun T _ => Rabs_diag_0 _) t Ht).
  lra.
Qed.

Lemma exact_optimal c : Adm m c n -> cost (snd out) n <= cost c n.
Proof.
  intros Hc. rewrite <- exact_final, exact_scores by lia. now apply Fo_lower.
Qed.
End Exact.
