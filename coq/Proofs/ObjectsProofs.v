(** Proofs about the object-state model [Model/Objects.v] (property C10).  One lemma,
    [step_shape], says what a single operation may do to each heap cell; well-formedness,
    non-interference and the equality of a fitted detector's answers with those of a
    freshly built one follow from it by induction over [run], for histories of any length. *)
From Coq Require Import List Arith Bool Lia.
Import ListNotations.
From SK Require Import Model.Objects Proofs.ListFacts Proofs.StateMachine.

(** * List helpers: [upd], [set_sfit], [sparams_of] *)

Lemma nth_error_upd :
  forall (A : Type) (l : list A) (i : nat) (v : A) (j : nat),
    nth_error (upd l i v) j =
    option_map (fun x => if j =? i then v else x) (nth_error l j).
Proof. exact @nth_error_set_cell. Qed.

Lemma nth_error_upd_bool :
  forall (A : Type) (l : list A) (i : nat) (v : A) (j : nat),
    nth_error (upd l i v) j =
    if j =? i then (if j <? length l then Some v else None) else nth_error l j.
Proof.
  intros A l i v j. rewrite nth_error_upd.
  destruct (j =? i) eqn:Hji.
  - destruct (j <? length l) eqn:Hlt.
    + apply Nat.ltb_lt in Hlt. destruct (nth_error l j) eqn:Hn; [reflexivity|].
      apply nth_error_None in Hn. lia.
    + apply Nat.ltb_ge in Hlt. apply nth_error_None in Hlt. rewrite Hlt. reflexivity.
  - destruct (nth_error l j); reflexivity.
Qed.

Lemma nth_error_upd_same :
  forall (A : Type) (l : list A) (i : nat) (v x : A),
    nth_error l i = Some x -> nth_error (upd l i v) i = Some v.
Proof. exact @nth_error_set_cell_same. Qed.

Lemma nth_error_upd_other :
  forall (A : Type) (l : list A) (i : nat) (v : A) (j : nat),
    j <> i -> nth_error (upd l i v) j = nth_error l j.
Proof. exact @nth_error_set_cell_other. Qed.

Lemma length_upd :
  forall (A : Type) (l : list A) (i : nat) (v : A), length (upd l i v) = length l.
Proof. exact @length_set_cell. Qed.

Lemma nth_error_set_sfit :
  forall (ss : list scorer) (refs : list nat) (D : dterm) (j : nat),
    nth_error (set_sfit ss refs D) j =
    option_map (fun s => if existsb (Nat.eqb j) refs
                         then {| s_param := s_param s; s_fit := Some D |} else s)
               (nth_error ss j).
Proof. intros ss refs D j. exact (nth_error_map_combine_seq _ _ _ ss 0 j). Qed.

Lemma length_set_sfit :
  forall (ss : list scorer) (refs : list nat) (D : dterm),
    length (set_sfit ss refs D) = length ss.
Proof. intros ss refs D. exact (map_combine_seq_length _ _ _ ss 0). Qed.

Definition sparam_at (ss : list scorer) (r : nat) : option nat :=
  option_map s_param (nth_error ss r).

Lemma sparam_at_set_sfit :
  forall ss refs D r, sparam_at (set_sfit ss refs D) r = sparam_at ss r.
Proof.
  intros ss refs D r. unfold sparam_at. rewrite nth_error_set_sfit.
  destruct (nth_error ss r) as [s|]; simpl; [|reflexivity].
  destruct (existsb (Nat.eqb r) refs); reflexivity.
Qed.

Lemma sparams_of_ext :
  forall ss ss' refs,
    (forall r, In r refs -> sparam_at ss' r = sparam_at ss r) ->
    sparams_of ss' refs = sparams_of ss refs.
Proof.
  intros ss ss' refs H. unfold sparams_of. apply map_ext_in. intros r Hin.
  specialize (H r Hin). unfold sparam_at in H.
  destruct (nth_error ss' r), (nth_error ss r); simpl in H; congruence.
Qed.

Lemma sparams_of_set_sfit :
  forall ss refs D r, sparams_of (set_sfit ss refs D) r = sparams_of ss r.
Proof.
  intros ss refs D r. apply sparams_of_ext. intros r0 _. apply sparam_at_set_sfit.
Qed.

Lemma length_sparams_of : forall ss refs, length (sparams_of ss refs) = length refs.
Proof. intros ss refs. unfold sparams_of. apply map_length. Qed.

Definition mk_scorer (p : nat) : scorer := {| s_param := p; s_fit := None |}.

Lemma sparams_of_app_seq :
  forall (SP : list nat) (pre : list scorer),
    sparams_of (pre ++ map mk_scorer SP) (seq (length pre) (length SP)) = SP.
Proof.
  induction SP as [|p SP IH]; intros pre.
  - reflexivity.
  - simpl. unfold sparams_of in *. simpl. f_equal.
    + rewrite nth_error_app2 by lia. rewrite Nat.sub_diag. reflexivity.
    + specialize (IH (pre ++ [mk_scorer p])).
      rewrite app_length in IH. simpl in IH. rewrite Nat.add_1_r in IH.
      rewrite <- app_assoc in IH. simpl in IH. exact IH.
Qed.

Lemma sparams_of_mk_seq :
  forall SP, sparams_of (map mk_scorer SP) (seq 0 (length SP)) = SP.
Proof. intros SP. exact (sparams_of_app_seq SP []). Qed.

Lemma forallb_ltb_seq :
  forall n m, n <= m -> forallb (fun r => r <? m) (seq 0 n) = true.
Proof.
  intros n m Hle. apply forallb_forall. intros r Hin. apply in_seq in Hin.
  apply Nat.ltb_lt. lia.
Qed.

(** * [run], reachability *)

(** [run] is [replay step] *)
Lemma run_nil : forall h, run h [] = (h, []).
Proof. reflexivity. Qed.

Lemma run_cons_fst :
  forall h o t, fst (run h (o :: t)) = fst (run (fst (step h o)) t).
Proof. exact (replay_cons_fst _ _ _ step). Qed.

Lemma run_cons_snd :
  forall h o t, snd (run h (o :: t)) = snd (step h o) :: snd (run (fst (step h o)) t).
Proof. exact (replay_cons_snd _ _ _ step). Qed.

Lemma run_app_fst :
  forall a b h, fst (run h (a ++ b)) = fst (run (fst (run h a)) b).
Proof. exact (replay_app_fst _ _ _ step). Qed.

Definition reachable (h : heap) : Prop := exists ops, fst (run empty ops) = h.

Lemma reachable_empty : reachable empty.
Proof. exact (reachable_from_init _ _ _ step empty). Qed.

Lemma reachable_step : forall h o, reachable h -> reachable (fst (step h o)).
Proof. exact (reachable_from_step _ _ _ step empty). Qed.

Lemma reachable_run : forall ops h, reachable h -> reachable (fst (run h ops)).
Proof. exact (reachable_from_run _ _ _ step empty). Qed.

Theorem reachable_ind' :
  forall P : heap -> Prop,
    P empty ->
    (forall h o, reachable h -> P h -> P (fst (step h o))) ->
    forall h, reachable h -> P h.
Proof. exact (reachable_from_ind _ _ _ step empty). Qed.

(** * What an operation writes *)

(** does [o] assign the detector's own hyperparams / drop or recompute
    the fitted attributes of detector [i]? *)
Definition touches_params (i : nat) (o : op) : bool :=
  match o with SetD j _ _ => i =? j | _ => false end.

Definition touches_fit (i : nat) (o : op) : bool :=
  match o with
  | SetD j _ _ | SetNested j _ _ | FitD j _ | UpdateD j _ => i =? j
  | _ => false
  end.

(** the scorer object whose hyperparam [o] assigns, if any *)
Definition param_target (h : heap) (o : op) : option nat :=
  match o with
  | SetS r _ => Some r
  | SetNested i k _ =>
      match nth_error (detectors h) i with
      | Some d => nth_error (d_scorers d) k
      | None => None
      end
  | _ => None
  end.

(** does [o], executed in heap [h], refit or reset scorer object [r]?  A detector
    operation refits [r] only if [r] is among the detector's scorer references;
    fit / update only when the threshold is tuned; predict / update only when fitted. *)
Definition refits (h : heap) (o : op) (r : nat) : bool :=
  match o with
  | FitS s _ | SetS s _ => r =? s
  | SetNested i k _ =>
      match nth_error (detectors h) i with
      | Some d => match nth_error (d_scorers d) k with Some s => r =? s | None => false end
      | None => false
      end
  | FitD i _ =>
      match nth_error (detectors h) i with
      | Some d => d_tunes d && existsb (Nat.eqb r) (d_scorers d)
      | None => false
      end
  | UpdateD i _ =>
      match nth_error (detectors h) i with
      | Some d => match d_fit d, d_X d with
                  | Some _, Some _ => d_tunes d && existsb (Nat.eqb r) (d_scorers d)
                  | _, _ => false
                  end
      | None => false
      end
  | Observe _ i _ =>
      match nth_error (detectors h) i with
      | Some d => match d_fit d with
                  | Some _ => existsb (Nat.eqb r) (d_scorers d)
                  | None => false
                  end
      | None => false
      end
  | _ => false
  end.

(** * Heap well-formedness *)

(** [n] = number of scorer objects on the heap *)
Definition det_ok (n : nat) (d : detector) : Prop :=
  (forall r, In r (d_scorers d) -> r < n) /\
  match d_fit d with
  | Some fr => f_params fr = d_params d /\ d_X d = Some (f_data fr) /\
               length (f_sparams fr) = length (d_scorers d)
  | None => d_X d = None /\ d_scores d = None
  end /\
  (forall p x, d_scores d = Some (p, x) -> p = d_params d).

Definition heap_ok (h : heap) : Prop :=
  forall i d, nth_error (detectors h) i = Some d -> det_ok (length (scorers h)) d.

Lemma det_ok_mono : forall n m d, n <= m -> det_ok n d -> det_ok m d.
Proof.
  intros n m d Hle [Hrefs Hrest]. split; [|exact Hrest].
  intros r Hin. specialize (Hrefs r Hin). lia.
Qed.

Lemma heap_ok_empty : heap_ok empty.
Proof. intros i d Hn. destruct i; discriminate Hn. Qed.

(** a new detector, and one that [set_params] has reset ([reset_d] builds this record) *)
Lemma det_ok_unfitted :
  forall n p tn refs,
    (forall r, In r refs -> r < n) ->
    det_ok n {| d_params := p; d_tunes := tn; d_scorers := refs;
                d_fit := None; d_X := None; d_scores := None |}.
Proof.
  intros n p tn refs Hrefs. split; [exact Hrefs|]. simpl. split; [split; reflexivity|].
  intros p0 x Hs. discriminate Hs.
Qed.

Lemma det_ok_fit :
  forall n d ss D, det_ok n d ->
    det_ok n {| d_params := d_params d; d_tunes := d_tunes d; d_scorers := d_scorers d;
                d_fit := Some {| f_params := d_params d;
                                 f_sparams := sparams_of ss (d_scorers d);
                                 f_data := D |};
                d_X := Some D; d_scores := d_scores d |}.
Proof.
  intros n d ss D [Hrefs [_ Hsc]]. split; [exact Hrefs|]. simpl. split.
  - split; [reflexivity|]. split; [reflexivity|]. apply length_sparams_of.
  - exact Hsc.
Qed.

(** * The shape of a step *)

Definition fit_relation (h : heap) (d d' : detector) : Prop :=
  d_fit d' = d_fit d \/ d_fit d' = None \/
  exists D, d_fit d' = Some {| f_params := d_params d;
                               f_sparams := sparams_of (scorers h) (d_scorers d);
                               f_data := D |}.

(** what [o] may turn the scorer cell [r] / the detector cell [i] into *)
Definition scell_ok (h : heap) (o : op) (r : nat) (s s' : scorer) : Prop :=
  (param_target h o <> Some r -> s_param s' = s_param s) /\
  (refits h o r = false -> s' = s).

Definition dcell_ok (h : heap) (o : op) (i : nat) (d d' : detector) : Prop :=
  (forall n, det_ok n d -> det_ok n d') /\
  d_scorers d' = d_scorers d /\
  (touches_params i o = false -> d_params d' = d_params d /\ d_tunes d' = d_tunes d) /\
  (touches_fit i o = false -> d_fit d' = d_fit d /\ d_X d' = d_X d) /\
  fit_relation h d d'.

(** Every operation rewrites the existing cells one by one, each within the bounds above,
    and appends new cells ([cells], Proofs/StateMachine.v), so no object is ever removed or
    renumbered; the new detectors are unfitted.  All frame properties, the preservation of
    [heap_ok] and the monotonicity of the heap sizes are read off this. *)
Definition sshape (h : heap) (o : op) : list scorer -> Prop :=
  cells scorer (scell_ok h o) (fun _ => True) (scorers h).

Definition dshape (h : heap) (o : op) (n : nat) : list detector -> Prop :=
  cells detector (dcell_ok h o) (fun d => d_fit d = None /\ det_ok n d) (detectors h).

Definition shape (h : heap) (o : op) (h' : heap) : Prop :=
  sshape h o (scorers h') /\ dshape h o (length (scorers h')) (detectors h').

Lemma scell_ok_refl : forall h o r s, scell_ok h o r s s.
Proof. intros h o r s. split; reflexivity. Qed.

Lemma dcell_ok_refl : forall h o i d, dcell_ok h o i d d.
Proof.
  intros h o i d. split; [intros n H; exact H|]. split; [reflexivity|].
  split; [intros _; split; reflexivity|]. split; [intros _; split; reflexivity | left; reflexivity].
Qed.

Lemma sshape_app : forall h o es, sshape h o (scorers h ++ es).
Proof. intros h o es. apply cells_app, Forall_forall. intros s _. exact I. Qed.

(** the scorers refitted by a detector operation keep their hyperparam *)
Lemma sshape_set_sfit :
  forall h o refs D,
    (forall r, refits h o r = false -> existsb (Nat.eqb r) refs = false) ->
    sshape h o (set_sfit (scorers h) refs D).
Proof.
  intros h o refs D Hr.
  apply (cells_imap _ _ _ (fun r s => if existsb (Nat.eqb r) refs
                                      then {| s_param := s_param s; s_fit := Some D |} else s)).
  intros r s _. right. split.
  - intros _. destruct (existsb (Nat.eqb r) refs); reflexivity.
  - intros H. rewrite (Hr r H). reflexivity.
Qed.

Lemma dshape_upd :
  forall h o n j dj v,
    nth_error (detectors h) j = Some dj -> dcell_ok h o j dj v ->
    dshape h o n (upd (detectors h) j v).
Proof.
  intros h o n j dj v Hj Hv. apply cells_set_cell. intros d Hd.
  rewrite Hj in Hd. injection Hd as <-. exact Hv.
Qed.

Lemma shape_same : forall h o, shape h o h.
Proof. intros h o. split; apply cells_same. Qed.

Lemma shape_intro :
  forall h o ss' ds' (r : out),
    sshape h o ss' -> dshape h o (length ss') ds' ->
    shape h o (fst ({| scorers := ss'; detectors := ds' |}, r)).
Proof. intros h o ss' ds' r Hs Hd. split; assumption. Qed.

Lemma shape_do_fit :
  forall h o j dj D,
    nth_error (detectors h) j = Some dj ->
    touches_params j o = false -> touches_fit j o = true ->
    (forall r, refits h o r = d_tunes dj && existsb (Nat.eqb r) (d_scorers dj)) ->
    shape h o (do_fit h j dj D).
Proof.
  intros h o j dj D Hj Hp Hf Hr. split; cbn [do_fit scorers detectors].
  - destruct (d_tunes dj); [|apply cells_same].
    apply sshape_set_sfit. intros r. rewrite Hr. exact (fun H => H).
  - apply (dshape_upd _ _ _ j dj _ Hj).
    split; [intros n; apply det_ok_fit|]. split; [reflexivity|].
    split; [intros _; split; reflexivity|]. split; [rewrite Hf; discriminate|].
    right; right. exists D. reflexivity.
Qed.

Lemma step_shape : forall h o, shape h o (fst (step h o)).
Proof.
  intros h o.
  destruct o as [p|p tn refs|j p tn|j k p|r0 p|j|r0|r0 D|r0 c|j D|j D|ob j x]; cbn [step].
  - (* NewS *) apply shape_intro; [apply sshape_app | apply cells_same].
  - (* NewD *)
    destruct (forallb (fun r => r <? length (scorers h)) refs) eqn:Hfa; [|apply shape_same].
    apply shape_intro; [apply cells_same|]. apply cells_app. constructor; [|constructor].
    split; [reflexivity|]. apply det_ok_unfitted. intros r Hin.
    rewrite forallb_forall in Hfa. apply Nat.ltb_lt. exact (Hfa r Hin).
  - (* SetD *)
    destruct (nth_error (detectors h) j) as [dj|] eqn:Hj; [|apply shape_same].
    apply shape_intro; [apply cells_same|]. apply (dshape_upd _ _ _ j dj _ Hj).
    unfold dcell_ok. cbn [touches_params touches_fit]. rewrite Nat.eqb_refl.
    split; [intros n H; exact (det_ok_unfitted n p tn _ (proj1 H))|]. split; [reflexivity|].
    split; [discriminate|]. split; [discriminate | right; left; reflexivity].
  - (* SetNested *)
    destruct (nth_error (detectors h) j) as [dj|] eqn:Hj; [|apply shape_same].
    destruct (nth_error (d_scorers dj) k) as [r1|] eqn:Hk; [|apply shape_same].
    apply shape_intro.
    + apply cells_set_cell. intros s _. unfold scell_ok. cbn [param_target refits].
      rewrite Hj, Hk, Nat.eqb_refl. split; [intros H; contradiction H; reflexivity | discriminate].
    + apply (dshape_upd _ _ _ j dj _ Hj).
      unfold dcell_ok. cbn [touches_params touches_fit]. rewrite Nat.eqb_refl.
      split; [intros n H; exact (det_ok_unfitted n _ _ _ (proj1 H))|]. split; [reflexivity|].
      split; [intros _; split; reflexivity|]. split; [discriminate | right; left; reflexivity].
  - (* SetS *)
    destruct (r0 <? length (scorers h)); [|apply shape_same].
    apply shape_intro; [|apply cells_same]. apply cells_set_cell. intros s _. unfold scell_ok.
    cbn [param_target refits]. rewrite Nat.eqb_refl.
    split; [intros H; contradiction H; reflexivity | discriminate].
  - (* CloneD *)
    destruct (nth_error (detectors h) j) as [dj|] eqn:Hj; [|apply shape_same].
    apply shape_intro; [apply sshape_app|]. apply cells_app. constructor; [|constructor].
    split; [reflexivity|]. apply det_ok_unfitted. intros r Hin. apply in_seq in Hin.
    rewrite app_length, map_length, length_sparams_of. lia.
  - (* CloneS *)
    destruct (nth_error (scorers h) r0) as [s0|]; [|apply shape_same].
    apply shape_intro; [apply sshape_app | apply cells_same].
  - (* FitS *)
    destruct (nth_error (scorers h) r0) as [s0|] eqn:Hs0; [|apply shape_same].
    apply shape_intro; [|apply cells_same]. apply cells_set_cell. intros s Hs. rewrite Hs0 in Hs.
    injection Hs as <-. unfold scell_ok. cbn [refits]. rewrite Nat.eqb_refl.
    split; [reflexivity | discriminate].
  - (* EvalS *)
    destruct (nth_error (scorers h) r0) as [s0|]; [|apply shape_same].
    destruct (s_fit s0); apply shape_same.
  - (* FitD *)
    destruct (nth_error (detectors h) j) as [dj|] eqn:Hj; [|apply shape_same].
    apply (shape_do_fit _ _ _ _ _ Hj); [reflexivity | apply Nat.eqb_refl |].
    intros r. cbn [refits]. rewrite Hj. reflexivity.
  - (* UpdateD *)
    destruct (nth_error (detectors h) j) as [dj|] eqn:Hj; [|apply shape_same].
    destruct (d_fit dj) as [fr|] eqn:Hfj; [|apply shape_same].
    destruct (d_X dj) as [old|] eqn:HXj; [|apply shape_same].
    apply (shape_do_fit _ _ _ _ _ Hj); [reflexivity | apply Nat.eqb_refl |].
    intros r. cbn [refits]. rewrite Hj, Hfj, HXj. reflexivity.
  - (* Observe *)
    destruct (nth_error (detectors h) j) as [dj|] eqn:Hj; [|apply shape_same].
    destruct (d_fit dj) as [fr|] eqn:Hfj; [|apply shape_same]. apply shape_intro.
    + apply sshape_set_sfit. intros r. cbn [refits]. rewrite Hj, Hfj. exact (fun H => H).
    + apply (dshape_upd _ _ _ j dj _ Hj). split.
      { intros n [Hrefs [Hfit _]]. split; [exact Hrefs|]. cbn. rewrite Hfj in *.
        split; [exact Hfit|]. intros p0 x0 Hs. injection Hs as <- _. reflexivity. }
      split; [reflexivity|]. split; [intros _; split; reflexivity|]. cbn [d_fit d_X]. rewrite Hfj.
      split; [intros _; split; reflexivity | left; symmetry; exact Hfj].
Qed.

Lemma step_scorer_cell :
  forall h o r s,
    nth_error (scorers h) r = Some s ->
    exists s', nth_error (scorers (fst (step h o))) r = Some s' /\ scell_ok h o r s s'.
Proof.
  intros h o r s Hn.
  destruct (cells_old _ _ _ _ _ r s (proj1 (step_shape h o)) Hn) as (s' & Hn' & Hs).
  exists s'. split; [exact Hn'|]. destruct Hs as [->|Hs]; [apply scell_ok_refl | exact Hs].
Qed.

Lemma step_det_cell :
  forall h o i d,
    nth_error (detectors h) i = Some d ->
    exists d', nth_error (detectors (fst (step h o))) i = Some d' /\ dcell_ok h o i d d'.
Proof.
  intros h o i d Hn.
  destruct (cells_old _ _ _ _ _ i d (proj2 (step_shape h o)) Hn) as (d' & Hn' & Hd).
  exists d'. split; [exact Hn'|]. destruct Hd as [->|Hd]; [apply dcell_ok_refl | exact Hd].
Qed.

Lemma step_det_cases :
  forall h o i d',
    nth_error (detectors (fst (step h o))) i = Some d' ->
    (exists d, nth_error (detectors h) i = Some d /\ dcell_ok h o i d d') \/
    (nth_error (detectors h) i = None /\ d_fit d' = None /\
     det_ok (length (scorers (fst (step h o)))) d').
Proof.
  intros h o i d' Hn'.
  destruct (cells_inv _ _ _ _ _ i d' (proj2 (step_shape h o)) Hn') as [(d & Hn & Hd) | Hnew];
    [left | right; exact Hnew].
  exists d. split; [exact Hn|]. destruct Hd as [->|Hd]; [apply dcell_ok_refl | exact Hd].
Qed.

Lemma step_scorers_length :
  forall h o, length (scorers h) <= length (scorers (fst (step h o))).
Proof. intros h o. exact (cells_length _ _ _ _ _ (proj1 (step_shape h o))). Qed.

Lemma step_detectors_length :
  forall h o, length (detectors h) <= length (detectors (fst (step h o))).
Proof. intros h o. exact (cells_length _ _ _ _ _ (proj2 (step_shape h o))). Qed.

Theorem step_heap_ok : forall h o, heap_ok h -> heap_ok (fst (step h o)).
Proof.
  intros h o Hok i d' Hn'.
  destruct (step_det_cases h o i d' Hn') as [(d & Hn & Hd & _) | (_ & _ & Hd')]; [|exact Hd'].
  apply Hd. apply (det_ok_mono (length (scorers h))); [apply step_scorers_length | exact (Hok i d Hn)].
Qed.

Theorem reachable_heap_ok : forall h, reachable h -> heap_ok h.
Proof.
  apply reachable_ind'.
  - exact heap_ok_empty.
  - intros h o _ Hok. apply step_heap_ok. exact Hok.
Qed.

Lemma run_heap_ok : forall ops h, heap_ok h -> heap_ok (fst (run h ops)).
Proof. exact (replay_invariant _ _ _ step heap_ok step_heap_ok). Qed.

Lemma sparams_of_step :
  forall h o refs,
    (forall r, In r refs -> r < length (scorers h)) ->
    (forall r, param_target h o = Some r -> ~ In r refs) ->
    sparams_of (scorers (fst (step h o))) refs = sparams_of (scorers h) refs.
Proof.
  intros h o refs Hrefs Ht. apply sparams_of_ext. intros r Hin. unfold sparam_at.
  destruct (nth_error_lt_some _ _ _ (Hrefs r Hin)) as [s Hs].
  destruct (step_scorer_cell h o r s Hs) as (s' & Hs' & Hp & _).
  rewrite Hs', Hs. simpl. f_equal. apply Hp. intros Heq. exact (Ht r Heq Hin).
Qed.

(** * What the observing operations read *)

Lemma observe_out :
  forall h ob i x,
    snd (step h (Observe ob i x)) =
    match nth_error (detectors h) i with
    | Some d => match d_fit d with
                | Some fr => ODet ob (d_params d) (sparams_of (scorers h) (d_scorers d)) fr x
                | None => ONotFitted
                end
    | None => OBadRef
    end.
Proof.
  intros h ob i x. simpl. destruct (nth_error (detectors h) i) as [d|]; [|reflexivity].
  destruct (d_fit d); reflexivity.
Qed.

Theorem observe_reads :
  forall h ob i x d fr,
    nth_error (detectors h) i = Some d -> d_fit d = Some fr ->
    snd (step h (Observe ob i x)) =
    ODet ob (d_params d) (sparams_of (scorers h) (d_scorers d)) fr x.
Proof.
  intros h ob i x d fr Hn Hf. rewrite observe_out, Hn, Hf. reflexivity.
Qed.

Lemma observe_step_unfitted :
  forall h ob i x d,
    nth_error (detectors h) i = Some d -> d_fit d = None ->
    step h (Observe ob i x) = (h, ONotFitted).
Proof. intros h ob i x d Hn Hf. simpl. rewrite Hn, Hf. reflexivity. Qed.

Theorem observe_unfitted :
  forall h ob i x d,
    nth_error (detectors h) i = Some d -> d_fit d = None ->
    snd (step h (Observe ob i x)) = ONotFitted /\ fst (step h (Observe ob i x)) = h.
Proof.
  intros h ob i x d Hn Hf. rewrite (observe_step_unfitted h ob i x d Hn Hf). split; reflexivity.
Qed.

Lemma eval_out :
  forall h r c,
    step h (EvalS r c) =
    (h, match nth_error (scorers h) r with
        | Some s => match s_fit s with Some D => OEval (s_param s) D c | None => ONotFitted end
        | None => OBadRef
        end).
Proof.
  intros h r c. simpl. destruct (nth_error (scorers h) r) as [s|]; [|reflexivity].
  destruct (s_fit s); reflexivity.
Qed.

Theorem eval_reads :
  forall h r c s,
    nth_error (scorers h) r = Some s ->
    step h (EvalS r c) =
    (h, match s_fit s with Some D => OEval (s_param s) D c | None => ONotFitted end).
Proof.
  intros h r c s Hn. rewrite eval_out, Hn. reflexivity.
Qed.

Corollary eval_reads_fitted :
  forall h r c s D,
    nth_error (scorers h) r = Some s -> s_fit s = Some D ->
    snd (step h (EvalS r c)) = OEval (s_param s) D c.
Proof. intros h r c s D Hn Hf. rewrite (eval_reads h r c s Hn), Hf. reflexivity. Qed.

Corollary eval_reads_unfitted :
  forall h r c s,
    nth_error (scorers h) r = Some s -> s_fit s = None ->
    snd (step h (EvalS r c)) = ONotFitted.
Proof. intros h r c s Hn Hf. rewrite (eval_reads h r c s Hn), Hf. reflexivity. Qed.

(** * The fitted attributes belong to the current hyperparams *)

Theorem fitted_params_current :
  forall h i d fr,
    reachable h -> nth_error (detectors h) i = Some d -> d_fit d = Some fr ->
    f_params fr = d_params d /\ d_X d = Some (f_data fr).
Proof.
  intros h i d fr Hr Hn Hf.
  destruct (reachable_heap_ok h Hr i d Hn) as [_ [Hfit _]].
  rewrite Hf in Hfit. destruct Hfit as [H1 [H2 _]]. split; assumption.
Qed.

Theorem unfitted_has_no_state :
  forall h i d,
    reachable h -> nth_error (detectors h) i = Some d -> d_fit d = None ->
    d_X d = None /\ d_scores d = None.
Proof.
  intros h i d Hr Hn Hf.
  destruct (reachable_heap_ok h Hr i d Hn) as [_ [Hfit _]].
  rewrite Hf in Hfit. exact Hfit.
Qed.

(** * Non-interference *)

(** Operations that must not change what a later predict / transform on detector [i]
    returns: creating and cloning objects, fitting / evaluating scorer objects
    directly (including scorers shared with detector [i]), predict / transform on ANY
    detector (including [i] itself, on other data), and fit / update / set_params of
    OTHER detectors (including detectors sharing scorer objects with [i]). *)
Definition benign (i : nat) (o : op) : bool :=
  match o with
  | NewS _ | NewD _ _ _ | CloneD _ | CloneS _ | FitS _ _ | EvalS _ _ | Observe _ _ _ => true
  | FitD j _ | UpdateD j _ | SetD j _ _ => negb (j =? i)
  | SetS _ _ | SetNested _ _ _ => false
  end.

Lemma benign_writes :
  forall h i o, benign i o = true ->
    touches_params i o = false /\ touches_fit i o = false /\ param_target h o = None.
Proof.
  intros h i o Hb.
  destruct o; simpl in *; try discriminate Hb; repeat split; try reflexivity;
    rewrite Nat.eqb_sym; apply negb_true_iff; exact Hb.
Qed.

Theorem benign_preserves_observation :
  forall h o i ob x,
    benign i o = true -> heap_ok h -> i < length (detectors h) ->
    snd (step (fst (step h o)) (Observe ob i x)) = snd (step h (Observe ob i x)).
Proof.
  intros h o i ob x Hb Hok Hlt.
  destruct (nth_error_lt_some _ _ _ Hlt) as [d Hn].
  destruct (step_det_cell h o i d Hn) as (d' & Hn' & _ & Hsc & Hp & Hf & _).
  destruct (benign_writes h i o Hb) as (Hbp & Hbf & Hbt).
  destruct (Hp Hbp) as [Hp1 _]. destruct (Hf Hbf) as [Hf1 _].
  rewrite !observe_out, Hn, Hn', Hf1, Hp1, Hsc.
  rewrite sparams_of_step; [reflexivity | |].
  - exact (proj1 (Hok i d Hn)).
  - intros r Ht. rewrite Hbt in Ht. discriminate Ht.
Qed.

Theorem benign_seq_preserves_observation :
  forall ops h i ob x,
    forallb (benign i) ops = true -> heap_ok h -> i < length (detectors h) ->
    snd (step (fst (run h ops)) (Observe ob i x)) = snd (step h (Observe ob i x)).
Proof.
  induction ops as [|o ops IH]; intros h i ob x Hall Hok Hlt; [reflexivity|].
  apply andb_true_iff in Hall as [Ho Hall]. rewrite run_cons_fst, IH.
  - apply benign_preserves_observation; assumption.
  - exact Hall.
  - apply step_heap_ok. exact Hok.
  - pose proof (step_detectors_length h o). lia.
Qed.

Corollary benign_suffix_irrelevant :
  forall pre ops i ob x,
    forallb (benign i) ops = true ->
    i < length (detectors (fst (run empty pre))) ->
    snd (step (fst (run empty (pre ++ ops))) (Observe ob i x)) =
    snd (step (fst (run empty pre)) (Observe ob i x)).
Proof.
  intros pre ops i ob x Hall Hlt. rewrite run_app_fst.
  apply benign_seq_preserves_observation; [exact Hall | | exact Hlt].
  apply run_heap_ok. exact heap_ok_empty.
Qed.

(** ** scorer objects *)

Definition eval_benign (h : heap) (r : nat) (o : op) : bool := negb (refits h o r).

Theorem eval_preserved :
  forall h o r c,
    eval_benign h r o = true -> r < length (scorers h) ->
    snd (step (fst (step h o)) (EvalS r c)) = snd (step h (EvalS r c)).
Proof.
  intros h o r c Hb Hlt. unfold eval_benign in Hb. apply negb_true_iff in Hb.
  destruct (nth_error_lt_some _ _ _ Hlt) as [s Hs].
  destruct (step_scorer_cell h o r s Hs) as (s' & Hs' & _ & Heq).
  rewrite !eval_out. simpl. rewrite Hs', (Heq Hb), Hs. reflexivity.
Qed.

(** a sufficient condition that does not look at the heap *)
Definition eval_benign_static (r : nat) (o : op) : bool :=
  match o with
  | NewS _ | NewD _ _ _ | SetD _ _ _ | CloneD _ | CloneS _ | EvalS _ _ => true
  | FitS s _ | SetS s _ => negb (s =? r)
  | SetNested _ _ _ | FitD _ _ | UpdateD _ _ | Observe _ _ _ => false
  end.

Lemma eval_benign_static_sound :
  forall h r o, eval_benign_static r o = true -> eval_benign h r o = true.
Proof.
  intros h r o Hs. unfold eval_benign.
  destruct o; simpl in *; try reflexivity; try discriminate Hs;
    rewrite Nat.eqb_sym; exact Hs.
Qed.

Theorem eval_seq_preserved :
  forall ops h r c,
    forallb (eval_benign_static r) ops = true -> r < length (scorers h) ->
    snd (step (fst (run h ops)) (EvalS r c)) = snd (step h (EvalS r c)).
Proof.
  induction ops as [|o ops IH]; intros h r c Hall Hlt; [reflexivity|].
  apply andb_true_iff in Hall as [Ho Hall]. rewrite run_cons_fst, IH.
  - apply eval_preserved; [apply eval_benign_static_sound; exact Ho | exact Hlt].
  - exact Hall.
  - pose proof (step_scorers_length h o). lia.
Qed.

(** * Equality with a freshly constructed object *)

(** construct fresh scorers with hyperparams [SP], a fresh detector with
    hyperparams [P] on them, and fit it on [D]; nothing else ever happens *)
Definition fresh_history (P : nat) (tn : bool) (SP : list nat) (D : dterm) : list op :=
  map NewS SP ++ [NewD P tn (seq 0 (length SP)); FitD 0 D].

Lemma run_news :
  forall SP h,
    fst (run h (map NewS SP)) =
    {| scorers := scorers h ++ map mk_scorer SP; detectors := detectors h |}.
Proof.
  induction SP as [|p SP IH]; intros h.
  - simpl. rewrite app_nil_r. destruct h; reflexivity.
  - cbn [map]. rewrite run_cons_fst. rewrite IH. simpl. rewrite <- app_assoc. reflexivity.
Qed.

Definition fresh_heap (P : nat) (tn : bool) (SP : list nat) (D : dterm) : heap :=
  {| scorers := if tn then set_sfit (map mk_scorer SP) (seq 0 (length SP)) D
                else map mk_scorer SP;
     detectors := [ {| d_params := P; d_tunes := tn; d_scorers := seq 0 (length SP);
                       d_fit := Some {| f_params := P; f_sparams := SP; f_data := D |};
                       d_X := Some D; d_scores := None |} ] |}.

Lemma run_fresh_history :
  forall P tn SP D, fst (run empty (fresh_history P tn SP D)) = fresh_heap P tn SP D.
Proof.
  intros P tn SP D. unfold fresh_history. rewrite run_app_fst, run_news.
  rewrite run_cons_fst. cbn [empty scorers detectors app].
  assert (Hfa : forallb (fun r => r <? length (map mk_scorer SP)) (seq 0 (length SP)) = true).
  { apply forallb_ltb_seq. rewrite map_length. lia. }
  cbn [step scorers detectors]. rewrite Hfa. cbn [fst app].
  rewrite run_cons_fst. cbn [step detectors nth_error fst run].
  unfold do_fit, fresh_heap. cbn [scorers detectors d_tunes d_params d_scorers d_scores].
  rewrite sparams_of_mk_seq. reflexivity.
Qed.

Theorem fresh_observation :
  forall P tn SP D ob x,
    snd (step (fst (run empty (fresh_history P tn SP D))) (Observe ob 0 x)) =
    ODet ob P SP {| f_params := P; f_sparams := SP; f_data := D |} x.
Proof.
  intros P tn SP D ob x. rewrite run_fresh_history, observe_out. unfold fresh_heap.
  cbn [detectors nth_error d_fit d_params d_scorers scorers].
  destruct tn; rewrite ?sparams_of_set_sfit, sparams_of_mk_seq; reflexivity.
Qed.

(** In any heap reachable by any history, what predict / transform /
    transform_scores of a fitted detector reads equals what the same call reads on a
    freshly constructed detector with the same hyperparams, fresh scorers with the
    same hyperparams, fitted once on the data of the last fit (+ updates). *)
Theorem observe_equals_fresh :
  forall h i d fr ob x,
    reachable h -> nth_error (detectors h) i = Some d -> d_fit d = Some fr ->
    f_sparams fr = sparams_of (scorers h) (d_scorers d) ->
    snd (step h (Observe ob i x)) =
    snd (step (fst (run empty (fresh_history (d_params d) (d_tunes d)
                                 (sparams_of (scorers h) (d_scorers d)) (f_data fr))))
              (Observe ob 0 x)).
Proof.
  intros h i d fr ob x Hr Hn Hf Hsp.
  destruct (fitted_params_current h i d fr Hr Hn Hf) as [Hp _].
  rewrite fresh_observation, (observe_reads h ob i x d fr Hn Hf).
  destruct fr as [fp fs fd]. simpl in *. subst fp fs. reflexivity.
Qed.

(** two fitted detectors anywhere (same or different heaps, arbitrary histories) with
    equal hyperparams, equal nested hyperparams and equal training data give
    equal results on equal input *)
Corollary observations_agree :
  forall h1 h2 i1 i2 d1 d2 fr1 fr2 ob x,
    reachable h1 -> reachable h2 ->
    nth_error (detectors h1) i1 = Some d1 -> nth_error (detectors h2) i2 = Some d2 ->
    d_fit d1 = Some fr1 -> d_fit d2 = Some fr2 ->
    f_sparams fr1 = sparams_of (scorers h1) (d_scorers d1) ->
    f_sparams fr2 = sparams_of (scorers h2) (d_scorers d2) ->
    d_params d1 = d_params d2 ->
    sparams_of (scorers h1) (d_scorers d1) = sparams_of (scorers h2) (d_scorers d2) ->
    f_data fr1 = f_data fr2 ->
    snd (step h1 (Observe ob i1 x)) = snd (step h2 (Observe ob i2 x)).
Proof.
  intros h1 h2 i1 i2 d1 d2 fr1 fr2 ob x Hr1 Hr2 Hn1 Hn2 Hf1 Hf2 Hs1 Hs2 Hp Hsp Hd.
  rewrite (observe_equals_fresh h1 i1 d1 fr1 ob x Hr1 Hn1 Hf1 Hs1).
  rewrite (observe_equals_fresh h2 i2 d2 fr2 ob x Hr2 Hn2 Hf2 Hs2).
  rewrite !fresh_observation, Hp, Hsp, Hd. reflexivity.
Qed.

(** the side condition of [observe_equals_fresh] is necessary: assigning a hyperparam of
    the user's scorer object directly does not reset the detectors holding it *)
Definition stale_history : list op := [NewS 0; NewD 0 true [0]; FitD 0 (Raw 0); SetS 0 1].

Theorem stale_sparams_possible :
  exists ops i d fr,
    nth_error (detectors (fst (run empty ops))) i = Some d /\
    d_fit d = Some fr /\
    f_sparams fr <> sparams_of (scorers (fst (run empty ops))) (d_scorers d).
Proof.
  exists stale_history, 0,
    {| d_params := 0; d_tunes := true; d_scorers := [0];
       d_fit := Some {| f_params := 0; f_sparams := [0]; f_data := Raw 0 |};
       d_X := Some (Raw 0); d_scores := None |},
    {| f_params := 0; f_sparams := [0]; f_data := Raw 0 |}.
  split; [vm_compute; reflexivity|]. split; [reflexivity|].
  vm_compute. intros H. discriminate H.
Qed.

(** ... and the condition is preserved by every operation that does not assign a
    hyperparam of one of the detector's own scorer objects *)
Theorem sparams_fresh_preserved :
  forall h o i d d',
    heap_ok h ->
    nth_error (detectors h) i = Some d ->
    nth_error (detectors (fst (step h o))) i = Some d' ->
    (forall r, param_target h o = Some r -> ~ In r (d_scorers d)) ->
    (forall fr, d_fit d = Some fr -> f_sparams fr = sparams_of (scorers h) (d_scorers d)) ->
    forall fr', d_fit d' = Some fr' ->
      f_sparams fr' = sparams_of (scorers (fst (step h o))) (d_scorers d').
Proof.
  intros h o i d d' Hok Hn Hn' Ht Hfresh fr' Hf'.
  destruct (step_det_cell h o i d Hn) as (d2 & Hn2 & _ & Hsc & _ & _ & Hrel).
  rewrite Hn' in Hn2. injection Hn2 as <-.
  rewrite Hsc. rewrite sparams_of_step; [| exact (proj1 (Hok i d Hn)) | exact Ht].
  destruct Hrel as [Heq | [Hnone | [D HD]]].
  - apply Hfresh. rewrite <- Heq. exact Hf'.
  - rewrite Hnone in Hf'. discriminate Hf'.
  - rewrite HD in Hf'. inversion Hf'. reflexivity.
Qed.

Definition is_sset (o : op) : bool :=
  match o with SetS _ _ | SetNested _ _ _ => true | _ => false end.

Lemma not_sset_param_target : forall h o, is_sset o = false -> param_target h o = None.
Proof. intros h o Hs. destruct o; simpl in *; try reflexivity; discriminate Hs. Qed.

(** every fitted detector carries up-to-date nested hyperparams *)
Definition sp_fresh (h : heap) : Prop :=
  forall i d fr, nth_error (detectors h) i = Some d -> d_fit d = Some fr ->
                 f_sparams fr = sparams_of (scorers h) (d_scorers d).

Lemma sp_fresh_step :
  forall h o, heap_ok h -> sp_fresh h -> is_sset o = false -> sp_fresh (fst (step h o)).
Proof.
  intros h o Hok Hfr Hs i d' fr' Hn' Hf'.
  destruct (step_det_cases h o i d' Hn') as [(d & Hn & _) | (_ & Hnone & _)].
  - apply (sparams_fresh_preserved h o i d d' Hok Hn Hn'); [| | exact Hf'].
    + intros r Ht. rewrite (not_sset_param_target h o Hs) in Ht. discriminate Ht.
    + intros fr Hf. exact (Hfr i d fr Hn Hf).
  - rewrite Hnone in Hf'. discriminate Hf'.
Qed.

Lemma sp_fresh_run :
  forall ops h,
    forallb (fun o => negb (is_sset o)) ops = true -> heap_ok h -> sp_fresh h ->
    sp_fresh (fst (run h ops)).
Proof.
  induction ops as [|o ops IH]; intros h Hall Hok Hfr; [exact Hfr|].
  apply andb_true_iff in Hall as [Ho Hall]. apply negb_true_iff in Ho. rewrite run_cons_fst.
  apply IH; [exact Hall | apply step_heap_ok; exact Hok | apply sp_fresh_step; assumption].
Qed.

Theorem sp_fresh_without_sets :
  forall ops, forallb (fun o => negb (is_sset o)) ops = true -> sp_fresh (fst (run empty ops)).
Proof.
  intros ops Hall. apply sp_fresh_run; [exact Hall | exact heap_ok_empty |].
  intros i d fr Hn. destruct i; discriminate Hn.
Qed.

(** [observe_equals_fresh] without its side condition, for histories in which nobody assigns a
    hyperparam of a scorer object after construction *)
Corollary observe_equals_fresh_no_sets :
  forall ops i d fr ob x,
    forallb (fun o => negb (is_sset o)) ops = true ->
    let h := fst (run empty ops) in
    nth_error (detectors h) i = Some d -> d_fit d = Some fr ->
    snd (step h (Observe ob i x)) =
    snd (step (fst (run empty (fresh_history (d_params d) (d_tunes d)
                                 (sparams_of (scorers h) (d_scorers d)) (f_data fr))))
              (Observe ob 0 x)).
Proof.
  intros ops i d fr ob x Hall h Hn Hf.
  apply observe_equals_fresh; [exists ops; reflexivity | exact Hn | exact Hf |].
  exact (sp_fresh_without_sets ops Hall i d fr Hn Hf).
Qed.

(** * update is fit on the combined data *)

Theorem update_is_fit_on_combined :
  forall h i d fr old D,
    nth_error (detectors h) i = Some d -> d_fit d = Some fr -> d_X d = Some old ->
    step h (UpdateD i D) = step h (FitD i (Comb (Raw D) old)).
Proof.
  intros h i d fr old D Hn Hf HX. simpl. rewrite Hn, Hf, HX. reflexivity.
Qed.

(** in reachable heaps [_X] is the data of the last fit *)
Corollary update_is_fit_on_combined_reachable :
  forall h i d fr D,
    reachable h -> nth_error (detectors h) i = Some d -> d_fit d = Some fr ->
    step h (UpdateD i D) = step h (FitD i (Comb (Raw D) (f_data fr))).
Proof.
  intros h i d fr D Hr Hn Hf.
  destruct (fitted_params_current h i d fr Hr Hn Hf) as [_ HX].
  exact (update_is_fit_on_combined h i d fr (f_data fr) D Hn Hf HX).
Qed.

Lemma update_step_unfitted :
  forall h i D d,
    nth_error (detectors h) i = Some d -> d_fit d = None ->
    step h (UpdateD i D) = (h, ONotFitted).
Proof. intros h i D d Hn Hf. simpl. rewrite Hn, Hf. reflexivity. Qed.

Theorem update_unfitted :
  forall h i d D,
    nth_error (detectors h) i = Some d -> d_fit d = None ->
    snd (step h (UpdateD i D)) = ONotFitted /\ fst (step h (UpdateD i D)) = h.
Proof.
  intros h i d D Hn Hf. rewrite (update_step_unfitted h i D d Hn Hf). split; reflexivity.
Qed.

(** * The sktime semantics as modelled *)

(** set_params on the detector's own hyperparams: assign + reset *)
Theorem set_params_unfits :
  forall h i d p tn,
    nth_error (detectors h) i = Some d ->
    nth_error (detectors (fst (step h (SetD i p tn)))) i = Some (reset_d d p tn) /\
    (forall ob x, step (fst (step h (SetD i p tn))) (Observe ob i x) =
                  (fst (step h (SetD i p tn)), ONotFitted)) /\
    (forall D, step (fst (step h (SetD i p tn))) (UpdateD i D) =
               (fst (step h (SetD i p tn)), ONotFitted)).
Proof.
  intros h i d p tn Hn.
  assert (Hn' : nth_error (detectors (fst (step h (SetD i p tn)))) i = Some (reset_d d p tn)).
  { simpl. rewrite Hn. simpl. apply (nth_error_upd_same _ _ _ _ d). exact Hn. }
  split; [exact Hn'|]. split.
  - intros ob x. exact (observe_step_unfitted _ ob i x _ Hn' eq_refl).
  - intros D. exact (update_step_unfitted _ i D _ Hn' eq_refl).
Qed.

(** nested set_params: the user's scorer object is mutated and reset, the detector is
    reset and keeps its own hyperparams *)
Theorem set_nested_unfits :
  forall h i k p d r,
    heap_ok h ->
    nth_error (detectors h) i = Some d -> nth_error (d_scorers d) k = Some r ->
    let h' := fst (step h (SetNested i k p)) in
    nth_error (detectors h') i = Some (reset_d d (d_params d) (d_tunes d)) /\
    nth_error (scorers h') r = Some {| s_param := p; s_fit := None |} /\
    (forall ob x, step h' (Observe ob i x) = (h', ONotFitted)).
Proof.
  intros h i k p d r Hok Hn Hk h'.
  assert (Hn' : nth_error (detectors h') i = Some (reset_d d (d_params d) (d_tunes d))).
  { unfold h'. simpl. rewrite Hn, Hk. simpl. apply (nth_error_upd_same _ _ _ _ d). exact Hn. }
  split; [exact Hn'|]. split.
  - unfold h'. simpl. rewrite Hn, Hk. simpl.
    assert (Hr : r < length (scorers h)).
    { apply (proj1 (Hok i d Hn)). apply nth_error_In with k. exact Hk. }
    destruct (nth_error (scorers h) r) as [s|] eqn:Hs; [|apply nth_error_None in Hs; lia].
    apply (nth_error_upd_same _ _ _ _ s). exact Hs.
  - intros ob x. exact (observe_step_unfitted _ ob i x _ Hn' eq_refl).
Qed.

(** clone: a new unfitted detector with equal hyperparams on fresh, unfitted,
    pairwise distinct scorer objects with equal hyperparams *)
Theorem clone_is_unfitted_copy :
  forall h i d,
    nth_error (detectors h) i = Some d ->
    let h' := fst (step h (CloneD i)) in
    snd (step h (CloneD i)) = ONew (length (detectors h)) /\
    exists d',
      nth_error (detectors h') (length (detectors h)) = Some d' /\
      d_params d' = d_params d /\ d_tunes d' = d_tunes d /\
      d_fit d' = None /\ d_X d' = None /\ d_scores d' = None /\
      length (d_scorers d') = length (d_scorers d) /\
      NoDup (d_scorers d') /\
      (forall r, In r (d_scorers d') ->
                 length (scorers h) <= r /\
                 exists s, nth_error (scorers h') r = Some s /\ s_fit s = None) /\
      sparams_of (scorers h') (d_scorers d') = sparams_of (scorers h) (d_scorers d).
Proof.
  intros h i d Hn h'. unfold h'. simpl. rewrite Hn. simpl. split; [reflexivity|].
  eexists. split.
  { rewrite nth_error_app2 by lia. rewrite Nat.sub_diag. reflexivity. }
  simpl. repeat (split; [reflexivity|]).
  split; [apply seq_length|]. split; [apply seq_NoDup|]. split.
  - intros r Hin. apply in_seq in Hin. split; [lia|].
    rewrite nth_error_app2 by lia.
    set (l := sparams_of (scorers h) (d_scorers d)).
    assert (Hl : r - length (scorers h) < length l).
    { unfold l. rewrite length_sparams_of. lia. }
    destruct (nth_error l (r - length (scorers h))) as [p|] eqn:Hp;
      [|apply nth_error_None in Hp; lia].
    eexists. split; [apply map_nth_error; exact Hp | reflexivity].
  - pose proof (sparams_of_app_seq (sparams_of (scorers h) (d_scorers d)) (scorers h)) as H.
    rewrite length_sparams_of in H. exact H.
Qed.

(** clone leaves every existing object exactly as it was and only appends new ones *)
Theorem clone_does_not_touch_original :
  forall h i,
    exists ss ds,
      scorers (fst (step h (CloneD i))) = scorers h ++ ss /\
      detectors (fst (step h (CloneD i))) = detectors h ++ ds.
Proof.
  intros h i. simpl. destruct (nth_error (detectors h) i) as [d|]; simpl.
  - eexists. eexists. split; reflexivity.
  - exists [], []. rewrite !app_nil_r. split; reflexivity.
Qed.

Corollary clone_keeps_objects :
  forall h i,
    (forall j d, nth_error (detectors h) j = Some d ->
                 nth_error (detectors (fst (step h (CloneD i)))) j = Some d) /\
    (forall r s, nth_error (scorers h) r = Some s ->
                 nth_error (scorers (fst (step h (CloneD i)))) r = Some s).
Proof.
  intros h i. destruct (clone_does_not_touch_original h i) as [ss [ds [Hs Hd]]].
  rewrite Hs, Hd. split.
  - intros j d Hn. rewrite nth_error_app1; [exact Hn | apply nth_error_Some; congruence].
  - intros r s Hn. rewrite nth_error_app1; [exact Hn | apply nth_error_Some; congruence].
Qed.

Theorem clone_scorer_is_unfitted_copy :
  forall h r s,
    nth_error (scorers h) r = Some s ->
    step h (CloneS r) =
    ({| scorers := scorers h ++ [{| s_param := s_param s; s_fit := None |}];
        detectors := detectors h |}, ONew (length (scorers h))).
Proof. intros h r s Hn. simpl. rewrite Hn. reflexivity. Qed.

(** hyperparams change only through set_params: the detector's own ones only by
    [SetD] on that detector; a scorer's only by [SetS] on it or a nested set_params
    resolving to it.  In particular fit, update, predict, transform and evaluate never
    modify a hyperparam. *)
Theorem hyperparams_only_by_set :
  forall h o,
    (forall i d, nth_error (detectors h) i = Some d -> touches_params i o = false ->
       exists d', nth_error (detectors (fst (step h o))) i = Some d' /\
                  d_params d' = d_params d /\ d_tunes d' = d_tunes d /\
                  d_scorers d' = d_scorers d) /\
    (forall r s, nth_error (scorers h) r = Some s -> param_target h o <> Some r ->
       exists s', nth_error (scorers (fst (step h o))) r = Some s' /\
                  s_param s' = s_param s).
Proof.
  intros h o. split.
  - intros i d Hn Ht. destruct (step_det_cell h o i d Hn) as (d' & Hn' & _ & Hsc & Hp & _).
    destruct (Hp Ht) as [Hp1 Hp2]. exists d'. repeat split; assumption.
  - intros r s Hn Ht. destruct (step_scorer_cell h o r s Hn) as (s' & Hn' & Hp & _).
    exists s'. split; [exact Hn' | exact (Hp Ht)].
Qed.

Definition is_set (o : op) : bool :=
  match o with SetD _ _ _ | SetNested _ _ _ | SetS _ _ => true | _ => false end.

Corollary non_set_ops_keep_hyperparams :
  forall h o,
    is_set o = false ->
    (forall i d, nth_error (detectors h) i = Some d ->
       exists d', nth_error (detectors (fst (step h o))) i = Some d' /\
                  d_params d' = d_params d /\ d_tunes d' = d_tunes d /\
                  d_scorers d' = d_scorers d) /\
    (forall r s, nth_error (scorers h) r = Some s ->
       exists s', nth_error (scorers (fst (step h o))) r = Some s' /\
                  s_param s' = s_param s).
Proof.
  intros h o Hs. destruct (hyperparams_only_by_set h o) as [H1 H2]. split.
  - intros i d Hn. apply H1; [exact Hn|]. destruct o; simpl in *; try reflexivity; discriminate Hs.
  - intros r s Hn. apply H2; [exact Hn|]. destruct o; simpl in *; try discriminate; discriminate Hs.
Qed.

(** the detector's scorer references are never rebound by anything *)
Theorem scorer_refs_never_change :
  forall h o i d,
    nth_error (detectors h) i = Some d ->
    exists d', nth_error (detectors (fst (step h o))) i = Some d' /\ d_scorers d' = d_scorers d.
Proof.
  intros h o i d Hn. destruct (step_det_cell h o i d Hn) as (d' & Hn' & _ & Hsc & _).
  exists d'. split; assumption.
Qed.

(** * Non-vacuity *)

(** two detectors share scorer object 0; predict / transform on different data are
    interleaved, the scorer is evaluated directly in between (it carries the data of
    the LAST detector call, 21, not its own), detector 1 is updated, detector 0 gets
    new hyperparams (and is unfitted afterwards), detector 1 is cloned (the clone
    is unfitted) and the clone fitted on the combined data answers like detector 1 *)
Definition shared_history : list op :=
  [NewS 7; NewD 1 true [0]; NewD 2 false [0];
   FitD 0 (Raw 10); FitD 1 (Raw 11);
   Observe Predict 0 20; Observe Transform 1 21; EvalS 0 5;
   Observe Predict 0 22; Observe TransformScores 0 20;
   UpdateD 1 12; Observe Transform 1 21;
   SetD 0 3 true; Observe Predict 0 20;
   CloneD 1; Observe Predict 2 20; FitD 2 (Comb (Raw 12) (Raw 11)); Observe Transform 2 21].

Example shared_history_outputs :
  snd (run empty shared_history) =
  [ONew 0; ONew 0; ONew 1; ONone; ONone;
   ODet Predict 1 [7] {| f_params := 1; f_sparams := [7]; f_data := Raw 10 |} 20;
   ODet Transform 2 [7] {| f_params := 2; f_sparams := [7]; f_data := Raw 11 |} 21;
   OEval 7 (Raw 21) 5;
   ODet Predict 1 [7] {| f_params := 1; f_sparams := [7]; f_data := Raw 10 |} 22;
   ODet TransformScores 1 [7] {| f_params := 1; f_sparams := [7]; f_data := Raw 10 |} 20;
   ONone;
   ODet Transform 2 [7]
        {| f_params := 2; f_sparams := [7]; f_data := Comb (Raw 12) (Raw 11) |} 21;
   ONone; ONotFitted; ONew 2; ONotFitted; ONone;
   ODet Transform 2 [7]
        {| f_params := 2; f_sparams := [7]; f_data := Comb (Raw 12) (Raw 11) |} 21].
Proof. vm_compute. reflexivity. Qed.

Example shared_history_reachable : reachable (fst (run empty shared_history)).
Proof. exists shared_history. reflexivity. Qed.

(** the hypotheses of [observe_equals_fresh] are satisfiable: detector 1 of the heap after
    the first seven operations, observed on 21 *)
Example main_theorem_instance :
  let h := fst (run empty (firstn 7 shared_history)) in
  snd (step h (Observe Transform 1 21)) =
  snd (step (fst (run empty (fresh_history 2 false [7] (Raw 11)))) (Observe Transform 0 21)).
Proof. vm_compute. reflexivity. Qed.

(** the stale witness: after [SetS] behind the fitted detector's back, predict reads
    nested hyperparams [1] while the fitted attributes were computed under [0] *)
Example stale_history_outputs :
  snd (run empty (stale_history ++ [Observe Predict 0 9])) =
  [ONew 0; ONew 0; ONone; ONone;
   ODet Predict 0 [1] {| f_params := 0; f_sparams := [0]; f_data := Raw 0 |} 9].
Proof. vm_compute. reflexivity. Qed.

Example stale_differs_from_fresh :
  snd (step (fst (run empty stale_history)) (Observe Predict 0 9)) <>
  snd (step (fst (run empty (fresh_history 0 true [1] (Raw 0)))) (Observe Predict 0 9)).
Proof. vm_compute. intros H. discriminate H. Qed.

(** [heap_ok] in [benign_preserves_observation] cannot be dropped: in an (unreachable)
    heap whose detector holds a dangling scorer reference, creating a scorer object
    changes what the detector reads *)
Example benign_needs_heap_ok :
  let h := {| scorers := [];
              detectors := [ {| d_params := 0; d_tunes := false; d_scorers := [0];
                                d_fit := Some {| f_params := 0; f_sparams := [0]; f_data := Raw 0 |};
                                d_X := Some (Raw 0); d_scores := None |} ] |} in
  benign 0 (NewS 5) = true /\ 0 < length (detectors h) /\
  snd (step (fst (step h (NewS 5))) (Observe Predict 0 1)) <> snd (step h (Observe Predict 0 1)).
Proof.
  split; [reflexivity|]. split; [vm_compute; lia|]. vm_compute. intros H. discriminate H.
Qed.

(** * Assumptions *)

Print Assumptions reachable_ind'.
Print Assumptions step_heap_ok.
Print Assumptions reachable_heap_ok.
Print Assumptions observe_reads.
Print Assumptions observe_unfitted.
Print Assumptions eval_reads.
Print Assumptions eval_reads_fitted.
Print Assumptions eval_reads_unfitted.
Print Assumptions fitted_params_current.
Print Assumptions unfitted_has_no_state.
Print Assumptions benign_preserves_observation.
Print Assumptions benign_seq_preserves_observation.
Print Assumptions benign_suffix_irrelevant.
Print Assumptions eval_preserved.
Print Assumptions eval_seq_preserved.
Print Assumptions fresh_observation.
Print Assumptions observe_equals_fresh.
Print Assumptions observations_agree.
Print Assumptions stale_sparams_possible.
Print Assumptions sparams_fresh_preserved.
Print Assumptions sp_fresh_without_sets.
Print Assumptions observe_equals_fresh_no_sets.
Print Assumptions update_is_fit_on_combined.
Print Assumptions update_is_fit_on_combined_reachable.
Print Assumptions update_unfitted.
Print Assumptions set_params_unfits.
Print Assumptions set_nested_unfits.
Print Assumptions clone_is_unfitted_copy.
Print Assumptions clone_does_not_touch_original.
Print Assumptions clone_keeps_objects.
Print Assumptions clone_scorer_is_unfitted_copy.
Print Assumptions hyperparams_only_by_set.
Print Assumptions non_set_ops_keep_hyperparams.
Print Assumptions scorer_refs_never_change.
Print Assumptions shared_history_outputs.
Print Assumptions main_theorem_instance.
Print Assumptions stale_history_outputs.
Print Assumptions stale_differs_from_fresh.
Print Assumptions benign_needs_heap_ok.
