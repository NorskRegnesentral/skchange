(** END TO END in binary64: univariate CAPA with the L2 saving on one column.

    Data [l : list float] (one column), n = length l, penalties [acf] / [apf] (alpha of the
    collective / point anomalies), betas [[0]] (what CAPA uses: every beta passes the code's
    "beta < 1e-8" test [F64_tiny]), minimum / maximum segment length [m] / [M], pruning delay m - 1,
    float savings   l2ScF l s e = [l2_saving_F l s e],   l2SpF l t = [l2_saving_F l t (S t)]
    ([l2_saving_F]: the operation order of skchange's L2 saving kernel on primitive floats,
    Check/FloatSavingCheck.v).

    FLOAT SHAPE of the single-column penalised saving (lemma [PcF_l2_shape], by computation):
        gpenalise F64 F64_tiny [x] alpha [0]  =  x + (- alpha)
    ONE binary64 addition: the sum of the one-element saving list is the element itself ([gsum] is
    the left fold from the first element, NumPy's order), and the subtraction of alpha is an
    addition of the negation (ONE rounding).
    The prune constant is  Kf = alpha + 0 (the sum of the one-element beta list is 0 itself), whose
    real value is exactly FR alpha (lemma [add_zero_r]).

    Boolean, [vm_compute]-able premises:
      - [l2_saving_all_trace_ok l]     every saving [l2_saving_F l a T], a < T <= n, passes the trace
                                       checker [l2_saving_trace_ok] of Proofs/FloatSaving.v;
      - [capa_trace_finite ..]         every float the CAPA run stores or compares is finite
                                       (Proofs/CapaFloat.v);
      - [capa_mag_ok .. Magf]          every ROUNDED sum the run forms (the penalised savings
                                       saving - alpha, opt[a] + Pc a T, (opt[a] + Pc a T) + K,
                                       opt[t] + Pp t, and K itself) is at most [Magf] in magnitude;
      - the error scale: either a real hypothesis  l2_saving_scale (map FR l) a T <= Sc, or the
        boolean [l2_absmax_ok l Bf] (|x_i| <= Bf), which gives Sc = (n * FR Bf)^2.

    TRUE penalised savings (on the real values [map FR l] of the data):
        pc s e = l2_saving_R (prefix (map FR l)) s e - FR acf,
        pp t   = l2_saving_R (prefix (map FR l)) t (S t) - FR apf
    ([l2_pc_is_PcR]: these are [PcR] / [PpR] of Proofs/CapaReal.v on the column [map FR l] with
    betas [[0]], the objective of [capa_l2_end_to_end]).

    Conclusions ([capa_F64_l2_end_to_end], [capa_F64_l2_final_score], and the [_absmax] versions):
    the anomalies reported by the binary64 run are a valid anomaly set whose total TRUE penalised
    saving is within
        3 n (delta + u53 Mag),  delta = (4.2 n + 5) u53 Sc + u53 Mag,  Mag = FR Magf / (1 - u53)
    of that of ANY valid anomaly set, and the reported final score is within n (delta + u53 Mag) of
    the total true penalised saving of the reported anomalies. *)
From Coq Require Import Reals Lra Lia List Bool Floats.
From Flocq Require Import Core BinarySingleNaN.
From SK Require Import Model.Capa Proofs.CapaSpec Model.PeltR Proofs.RealLib Model.CapaR
                       Proofs.CapaReal Model.Generic Model.GenericCapa Model.GenericF
                       Proofs.GenericCapaWf Gen.KernelsR Proofs.ScoreKernels Proofs.FloatError
                       Proofs.FloatRefine Proofs.FloatRun Proofs.CapaFloat Check.FloatSavingCheck
                       Proofs.FloatSaving Proofs.PeltFloatL2.
Import ListNotations.
Local Open Scope R_scope.

Notation FR := FloatRefine.FR.
Notation float := PrimFloat.float (only parsing).


Lemma finF_opp (a : float) : finF (- a)%float = finF a.
Proof. exact (FloatRun.finF_opp a). Qed.

(** x + 0 is finite and has the real value of x (it IS x, up to the sign of a zero) *)
Lemma add_zero_r (x : float) :
  finF x = true -> finF (x + 0)%float = true /\ FR (x + 0)%float = FR x.
Proof.
  intros Hx. pose proof FloatRefine.finF_zero as H0.
  rewrite finF_B in Hx, H0. rewrite finF_B. unfold FloatRefine.FR. rewrite FP.add_equiv.
  pose proof (Bplus_correct prec emax FP.Hprec FP.Hmax mode_NE _ _ Hx H0) as H.
  assert (E : B2R (FP.Prim2B 0%float) = 0) by exact FloatRefine.FR_zero.
  rewrite E, Rplus_0_r in H.
  rewrite (round_generic radix2 (fexp prec emax) (round_mode mode_NE) _
             (generic_format_B2R prec emax (FP.Prim2B x))) in H.
  rewrite Rlt_bool_true in H by apply abs_B2R_lt_emax.
  destruct H as (H1 & H2 & _). split; assumption.
Qed.

(** a finite binary64 sum has finite operands *)
Lemma finF_add_inv (x y : float) :
  finF (x + y)%float = true -> finF x = true /\ finF y = true.
Proof.
  rewrite !finF_B, FP.add_equiv.
  destruct (FP.Prim2B x) as [sx|sx| |sx mx ex Hx], (FP.Prim2B y) as [sy|sy| |sy my ey Hy];
    cbn; intros H; try discriminate H; try (split; reflexivity).
  destruct (Bool.eqb sx sy); discriminate H.
Qed.

Section MagCapa.
Variable tiny : float -> bool.
Variable Sc : nat -> nat -> list float.
Variable Sp : nat -> list float.
Variables (ac ap : float) (bc bp : list float).
Variables (m M delay n : nat).
Variable Magf : float.

Notation oF := (optF tiny Sc Sp ac ap bc bp m M delay n).
Notation PcF' := (PcF tiny Sc ac bc).
Notation PpF' := (PpF tiny Sp ap bp).
Notation candF' := (candF tiny Sc Sp ac ap bc bp m M delay n).
Notation pointF' := (pointF tiny Sc Sp ac ap bc bp m M delay n).
Notation pruneF' := (pruneF tiny Sc Sp ac ap bc bp m M delay n).
Notation Kf' := (Kf ac bc).
Notation Mag := (FR Magf / (1 - u53)).

(** every ROUNDED sum the run forms is at most [Magf] in magnitude: the float penalised savings
    (whose last operation is the subtraction  saving - alpha), the prune constant alpha + sum beta,
    and the three kinds of sums of the loop *)
Definition capa_mag_ok : bool :=
  finF Magf && absleF Kf' Magf &&
  forallb (fun T => forallb (fun a => absleF (PcF' a T) Magf && absleF (candF' a T) Magf
                                      && absleF (pruneF' a T) Magf)
                            (seq 0 T)) (seq 1 n) &&
  forallb (fun t => absleF (PpF' t) Magf && absleF (pointF' t) Magf) (seq 0 n).

Lemma capa_mag_ok_spec : capa_mag_ok = true ->
  finF Magf = true /\ absleF Kf' Magf = true /\
  (forall a T, (a < T <= n)%nat ->
     absleF (PcF' a T) Magf = true /\ absleF (candF' a T) Magf = true /\
     absleF (pruneF' a T) Magf = true) /\
  (forall t, (t < n)%nat -> absleF (PpF' t) Magf = true /\ absleF (pointF' t) Magf = true).
Proof.
  unfold capa_mag_ok. intros H.
  apply andb_true_iff in H as [H H4]. apply andb_true_iff in H as [H H3].
  apply andb_true_iff in H as [H1 H2].
  split; [exact H1|split; [exact H2|split]].
  - intros a T HaT. pose proof (forallb_triangle _ _ _ H3 a T ltac:(lia) ltac:(lia)) as Ha.
    apply andb_true_iff in Ha as [Ha Hc]. apply andb_true_iff in Ha as [Ha Hb]. auto.
  - intros t Ht. exact (proj1 (andb_true_iff _ _) (forallb_seq _ _ _ H4 t ltac:(lia))).
Qed.

Hypothesis fin : capa_trace_finite tiny Sc Sp ac ap bc bp m M delay n = true.
Hypothesis mag : capa_mag_ok = true.

Lemma capa_Mag_nonneg : 0 <= Mag.
Proof.
  destruct (capa_mag_ok_spec mag) as (HM & HK & _).
  destruct (trace_finite_spec _ _ _ _ _ _ _ _ _ _ _ fin) as (_ & Hk & _).
  pose proof (absleF_FR _ _ Hk HM HK) as H. pose proof (Rabs_pos (FR Kf')) as H0.
  pose proof u53_lt_1 as Hu. apply Rmult_le_pos; [lra|].
  left. apply Rinv_0_lt_compat. lra.
Qed.

Lemma finF_oF a : (a <= n)%nat -> finF (nthV F64 oF a) = true.
Proof.
  intros Ha. destruct (trace_finite_spec _ _ _ _ _ _ _ _ _ _ _ fin) as (Ho & _).
  apply Ho. apply nthV_In. rewrite len_optF. lia.
Qed.

(** the three magnitude hypotheses of [capa_F64_near_optimal_bounds], from the test *)
Lemma magc_bounds :
  (forall a T, (a < T <= n)%nat ->
     Rabs (FR (nthV F64 oF a) + FR (PcF' a T)) <= Mag /\
     Rabs (FR (nthV F64 oF a + PcF' a T)%float + FR Kf') <= Mag) /\
  (forall t, (t < n)%nat -> Rabs (FR (nthV F64 oF t) + FR (PpF' t)) <= Mag).
Proof.
  destruct (capa_mag_ok_spec mag) as (HM & _ & Hc & Hp).
  destruct (trace_finite_spec _ _ _ _ _ _ _ _ _ _ _ fin) as (_ & Hk & Hfc & Hfp).
  split.
  - intros a T HaT. destruct (Hfc a T HaT) as (F1 & F2 & F3), (Hc a T HaT) as (_ & C2 & C3).
    split; apply sum_mag_from_rounded; auto. apply finF_oF. lia.
  - intros t Ht. destruct (Hfp t Ht) as (F1 & F2), (Hp t Ht) as (_ & C2).
    apply sum_mag_from_rounded; auto. apply finF_oF. lia.
Qed.
End MagCapa.


Definition l2ScF (l : list float) (s e : nat) : list float := [l2_saving_F l s e].
Definition l2SpF (l : list float) (t : nat) : list float := [l2_saving_F l t (S t)].

(** the float shape, by computation: saving + (- alpha) *)
Lemma penalise_l2_shape (x alpha : float) :
  gpenalise F64 F64_tiny [x] alpha [0%float] = (x + - alpha)%float.
Proof. reflexivity. Qed.

Lemma PcF_l2_shape l acf a T :
  PcF F64_tiny (l2ScF l) acf [0%float] a T = (l2_saving_F l a T + - acf)%float.
Proof. reflexivity. Qed.

Lemma PpF_l2_shape l apf t :
  PpF F64_tiny (l2SpF l) apf [0%float] t = (l2_saving_F l t (S t) + - apf)%float.
Proof. reflexivity. Qed.

Lemma Kf_l2_shape acf : Kf acf [0%float] = (acf + 0)%float.
Proof. reflexivity. Qed.

(** the real value of the prune constant is exactly FR alpha *)
Lemma Kf_l2_value acf : finF (Kf acf [0%float]) = true -> FR (Kf acf [0%float]) = FR acf.
Proof.
  intros H. rewrite Kf_l2_shape in *.
  apply finF_add_inv in H as [Ha _]. exact (proj2 (add_zero_r acf Ha)).
Qed.

(** ONE penalised saving: error of the saving + one rounding of the subtraction of alpha *)
Lemma l2_pen_error (x af Magf : float) (r dS : R) :
  finF x = true -> finF (x + - af)%float = true ->
  finF Magf = true -> absleF (x + - af)%float Magf = true ->
  Rabs (FR x - r) <= dS ->
  Rabs (FR (x + - af)%float - (r - FR af)) <= dS + u53 * (FR Magf / (1 - u53)).
Proof.
  intros Hx Hz HM Hle Hd.
  destruct (finF_add_inv _ _ Hz) as [_ Hna].
  pose proof (add_error2 x (- af)%float r (- FR af) dS 0 (FR Magf / (1 - u53)) Hx Hna Hz Hd) as H.
  pose proof (sum_mag_from_rounded _ _ _ Hx Hna Hz HM Hle) as Hmag.
  rewrite FR_opp, Rplus_0_r in *. exact (H (Rabs_diag_0 _) Hmag).
Qed.


(** [l2_saving_trace_ok l a T] for every a < T <= length l *)
Definition l2_saving_all_trace_ok (l : list float) : bool :=
  forallb (fun T => forallb (fun a => l2_saving_trace_ok l a T) (seq 0 T)) (seq 0 (S (length l))).

Lemma l2_saving_all_trace_ok_spec l :
  l2_saving_all_trace_ok l = true ->
  forall a T, (a < T <= length l)%nat -> l2_saving_trace_ok l a T = true.
Proof.
  unfold l2_saving_all_trace_ok. intros H a T HaT. apply (forallb_triangle _ _ _ H); lia.
Qed.

(** the error of the whole saving table from a bound [Sc] on the error scale *)
Lemma l2_saving_table_error (l : list float) (Sc : R) :
  INR (length l) * u53 <= 1 / 100 ->
  l2_saving_all_trace_ok l = true ->
  (forall a T, (a < T <= length l)%nat -> l2_saving_scale (map FR l) a T <= Sc) ->
  forall a T, (a < T <= length l)%nat ->
    Rabs (FR (l2_saving_F l a T) - l2_saving_R (prefix (map FR l)) a T)
    <= (42 / 10 * INR (length l) + 5) * u53 * Sc.
Proof.
  intros Hsmall Hok HSc a T HaT.
  apply (kernel_bound_le 5 _ (l2_saving_scale (map FR l) a T) Sc T); [lra|lia| |].
  - exact (l2_saving_F_vs_R l a T (l2_saving_all_trace_ok_spec l Hok a T HaT)
             (small_le _ _ (proj2 HaT) Hsmall)).
  - split; [apply l2_saving_scale_nonneg; lia|exact (HSc a T HaT)].
Qed.

Lemma l2_saving_scale_absmax_ok (l : list float) (Bf : float) :
  l2_absmax_ok l Bf = true ->
  forall a T, (a < T <= length l)%nat ->
    l2_saving_scale (map FR l) a T <= (INR (length l) * FR Bf) ^ 2.
Proof.
  intros H a T HaT.
  pose proof (l2_saving_scale_le_absmax (map FR l) (FR Bf) (l2_absmax_ok_spec l Bf H) a T) as H'.
  rewrite map_length in H'. now apply H'.
Qed.


(** the true penalised savings are those of the real-number model of CAPA (Proofs/CapaReal.v) on
    the single column [xs] with betas [[0]] *)
Lemma l2_pc_is_PcR (xs : list R) (alpha : R) s e :
  PcR (l2Sc [xs]) alpha [0] s e = l2_saving_R (prefix xs) s e - alpha.
Proof.
  unfold PcR, penaliseR, all_tinyR, l2Sc. cbn [forallb map sumR].
  unfold Rleb. destruct (Rle_dec 0 0) as [_|H]; [cbn [andb]; ring|exfalso; lra].
Qed.

Lemma l2_pp_is_PpR (xs : list R) (alpha : R) t :
  PpR (l2Sp [xs]) alpha [0] t = l2_saving_R (prefix xs) t (S t) - alpha.
Proof.
  unfold PpR, penaliseR, all_tinyR, l2Sp. cbn [forallb map sumR].
  unfold Rleb. destruct (Rle_dec 0 0) as [_|H]; [cbn [andb]; ring|exfalso; lra].
Qed.

(** CORE, for any saving tables whose float penalised savings are  x + (- alpha)  with [x] within
    [dP] of a sub-additive true saving [sv], and whose prune constant has the real value of alpha:
    one column is [x] = the L2 saving, [dP] its error; several columns are [x] = the row sum
    (Proofs/CapaFloatL2Multi.v) *)
Section PenCore.
Variable Sc : nat -> nat -> list float.
Variable Sp : nat -> list float.
Variables acf apf Magf : float.
Variable z : list float.
Variables m M n : nat.
Variable xc : nat -> nat -> float.
Variable sv : nat -> nat -> R.
Variable dP : R.
Notation pc := (fun s e : nat => sv s e - FR acf).
Notation pp := (fun t : nat => sv t (S t) - FR apf).
Notation Mag := (FR Magf / (1 - u53)).

Hypothesis Hshc : forall a T, PcF F64_tiny Sc acf z a T = (xc a T + - acf)%float.
Hypothesis Hshp : forall t, PpF F64_tiny Sp apf z t = (xc t (S t) + - apf)%float.
Hypothesis HKf : finF (Kf acf z) = true -> FR (Kf acf z) = FR acf.
Hypothesis Hfin : capa_trace_finite F64_tiny Sc Sp acf apf z z m M (m - 1) n = true.
Hypothesis Hmag : capa_mag_ok F64_tiny Sc Sp acf apf z z m M (m - 1) n Magf = true.
Hypothesis HdP0 : 0 <= dP.
Hypothesis HdP : forall a T, (a < T <= n)%nat -> Rabs (FR (xc a T) - sv a T) <= dP.
Hypothesis Hsub : forall s k e, (s < k)%nat -> (k < e)%nat -> sv s e <= sv s k + sv k e.

(** the error of the float penalised savings: that of [x], then ONE rounding for "- alpha" *)
Lemma pen_PcF_error a T : (a < T <= n)%nat ->
  Rabs (FR (PcF F64_tiny Sc acf z a T) - pc a T) <= dP + u53 * Mag.
Proof.
  intros HaT.
  destruct (trace_finite_spec _ _ _ _ _ _ _ _ _ _ _ Hfin) as (_ & _ & Hf & _).
  destruct (capa_mag_ok_spec _ _ _ _ _ _ _ _ _ _ _ _ Hmag) as (HM & _ & Hc & _).
  destruct (Hf a T HaT) as (F1 & _). destruct (Hc a T HaT) as (C1 & _).
  rewrite Hshc in *. apply l2_pen_error; try assumption.
  - exact (proj1 (finF_add_inv _ _ F1)).
  - now apply HdP.
Qed.

Lemma pen_PpF_error t : (t < n)%nat ->
  Rabs (FR (PpF F64_tiny Sp apf z t) - pp t) <= dP + u53 * Mag.
Proof.
  intros Ht.
  destruct (trace_finite_spec _ _ _ _ _ _ _ _ _ _ _ Hfin) as (_ & _ & _ & Hf).
  destruct (capa_mag_ok_spec _ _ _ _ _ _ _ _ _ _ _ _ Hmag) as (HM & _ & _ & Hc).
  destruct (Hf t Ht) as (F1 & _). destruct (Hc t Ht) as (C1 & _).
  rewrite Hshp in *. apply l2_pen_error; try assumption.
  - exact (proj1 (finF_add_inv _ _ F1)).
  - apply HdP. lia.
Qed.

Lemma pen_Kf_error : Rabs (FR (Kf acf z) - FR acf) <= dP + u53 * Mag.
Proof.
  destruct (trace_finite_spec _ _ _ _ _ _ _ _ _ _ _ Hfin) as (_ & Hk & _).
  rewrite (HKf Hk), Rminus_diag_eq, Rabs_R0 by reflexivity.
  pose proof (capa_Mag_nonneg _ _ _ _ _ _ _ _ _ _ _ _ Hfin Hmag) as H0.
  pose proof u53_pos as Hu.
  assert (0 <= u53 * Mag) by (apply Rmult_le_pos; lra). lra.
Qed.

Lemma capa_F64_pen_core scoresF c p :
  (2 <= m)%nat -> (m <= M)%nat ->
  gcapa F64 F64_tiny Sc Sp acf z apf z m M (m - 1) n = (scoresF, c, p) ->
  forall l', Valid m M l' n ->
    totalR pc pp l'
    <= totalR pc pp (map to_anom (capa_predict false c p))
       + 3 * INR n * ((dP + u53 * Mag) + u53 * Mag).
Proof.
  intros Hm HmM HG. destruct (magc_bounds _ _ _ _ _ _ _ _ _ _ _ _ Hfin Hmag) as [Hc Hp].
  refine (capa_F64_near_optimal_bounds F64_tiny Sc Sp acf apf z z m M (m - 1) n
            pc pp (FR acf) (dP + u53 * Mag) Mag Hfin pen_PcF_error pen_PpF_error pen_Kf_error
            (fun a T H => proj1 (Hc a T H)) Hp (fun a T H => proj2 (Hc a T H))
            (capa_Mag_nonneg _ _ _ _ _ _ _ _ _ _ _ _ Hfin Hmag) scoresF c p Hm HmM _ _ HG).
  - lia.
  - intros s k e H1 H2 _. pose proof (Hsub s k e ltac:(lia) ltac:(lia)). lra.
Qed.

Lemma capa_F64_pen_core_final scoresF c p :
  (2 <= m)%nat -> (m <= M)%nat -> (1 <= n)%nat ->
  gcapa F64 F64_tiny Sc Sp acf z apf z m M (m - 1) n = (scoresF, c, p) ->
  Rabs (FR (nthV F64 scoresF (n - 1)) - totalR pc pp (map to_anom (capa_predict false c p)))
  <= INR n * ((dP + u53 * Mag) + u53 * Mag).
Proof.
  intros Hm HmM Hn HG. destruct (magc_bounds _ _ _ _ _ _ _ _ _ _ _ _ Hfin Hmag) as [Hc Hp].
  exact (capa_F64_final_close_bounds F64_tiny Sc Sp acf apf z z m M (m - 1) n
           pc pp (FR acf) (dP + u53 * Mag) Mag Hfin pen_PcF_error pen_PpF_error pen_Kf_error
           (fun a T H => proj1 (Hc a T H)) Hp
           (capa_Mag_nonneg _ _ _ _ _ _ _ _ _ _ _ _ Hfin Hmag) scoresF c p Hm HmM HG Hn).
Qed.
End PenCore.


(** The anomalies reported by the binary64 CAPA run on the binary64 L2 savings of the column [l]
    are a valid anomaly set, and their total TRUE penalised saving (on the real values [map FR l]
    of the data, penalties [FR acf] / [FR apf]) is within 3 n (delta + u53 Mag) of that of ANY
    valid anomaly set.  (No sign condition on the penalties is needed.) *)
Theorem capa_F64_l2_end_to_end (l : list float) (acf apf Magf : float) (m M : nat) (Sc : R)
    (scoresF : list float) (c p : list (nat * nat)) :
  let n := length l in
  (2 <= m)%nat -> (m <= M)%nat -> INR n * u53 <= 1 / 100 ->
  l2_saving_all_trace_ok l = true ->
  capa_trace_finite F64_tiny (l2ScF l) (l2SpF l) acf apf [0%float] [0%float] m M (m - 1) n = true ->
  capa_mag_ok F64_tiny (l2ScF l) (l2SpF l) acf apf [0%float] [0%float] m M (m - 1) n Magf = true ->
  (forall a T, (a < T <= n)%nat -> l2_saving_scale (map FR l) a T <= Sc) ->
  gcapa F64 F64_tiny (l2ScF l) (l2SpF l) acf [0%float] apf [0%float] m M (m - 1) n
    = (scoresF, c, p) ->
  let pc := fun s e : nat => l2_saving_R (prefix (map FR l)) s e - FR acf in
  let pp := fun t : nat => l2_saving_R (prefix (map FR l)) t (S t) - FR apf in
  let out := map to_anom (capa_predict false c p) in
  let Mag := FR Magf / (1 - u53) in
  let delta := (42 / 10 * INR n + 5) * u53 * Sc + u53 * Mag in
  Valid m M out n /\
  forall l', Valid m M l' n ->
    totalR pc pp l' <= totalR pc pp out + 3 * INR n * (delta + u53 * Mag).
Proof.
  intros n Hm HmM Hsmall Htr Hfin Hmag HSc HG pc pp out Mag delta.
  split.
  { exact (proj1 (F64_capa_output_valid _ _ _ _ _ _ m M (m - 1) n scoresF c p
                    (conj Hm HmM) HG)). }
  intros l' Hl'.
  pose proof (fun dS H0 Hd =>
    capa_F64_pen_core (l2ScF l) (l2SpF l) acf apf Magf [0%float] m M n (l2_saving_F l)
      (l2_saving_R (prefix (map FR l))) dS (PcF_l2_shape l acf) (PpF_l2_shape l apf)
      (Kf_l2_value acf) Hfin Hmag H0 Hd (l2_saving_subadditive _) scoresF c p Hm HmM HG l' Hl')
    as core.
  destruct (Nat.eq_dec n 0) as [Hn0|Hn0].
  - (* no data: the tolerance is 0 whatever delta is *)
    specialize (core 0 (Rle_refl 0) ltac:(intros a T HaT; exfalso; lia)).
    fold pc pp out Mag in core. rewrite Hn0 in core |- *. cbn [INR] in core |- *. lra.
  - pose proof u53_pos as Hu. pose proof (pos_INR n) as Hn.
    assert (HSc0 : 0 <= Sc).
    { eapply Rle_trans; [|apply (HSc 0%nat 1%nat); lia].
      apply l2_saving_scale_nonneg. lia. }
    apply (core _); [|exact (l2_saving_table_error l Sc Hsmall Htr HSc)].
    apply Rmult_le_pos; [apply Rmult_le_pos; lra|exact HSc0].
Qed.

(** COMPANION: the reported final score (the last entry of the score array, a float) is within
    n (delta + u53 Mag) of the total true penalised saving of the reported anomalies *)
Theorem capa_F64_l2_final_score (l : list float) (acf apf Magf : float) (m M : nat) (Sc : R)
    (scoresF : list float) (c p : list (nat * nat)) :
  let n := length l in
  (2 <= m)%nat -> (m <= M)%nat -> (1 <= n)%nat -> INR n * u53 <= 1 / 100 ->
  l2_saving_all_trace_ok l = true ->
  capa_trace_finite F64_tiny (l2ScF l) (l2SpF l) acf apf [0%float] [0%float] m M (m - 1) n = true ->
  capa_mag_ok F64_tiny (l2ScF l) (l2SpF l) acf apf [0%float] [0%float] m M (m - 1) n Magf = true ->
  (forall a T, (a < T <= n)%nat -> l2_saving_scale (map FR l) a T <= Sc) ->
  gcapa F64 F64_tiny (l2ScF l) (l2SpF l) acf [0%float] apf [0%float] m M (m - 1) n
    = (scoresF, c, p) ->
  let pc := fun s e : nat => l2_saving_R (prefix (map FR l)) s e - FR acf in
  let pp := fun t : nat => l2_saving_R (prefix (map FR l)) t (S t) - FR apf in
  let out := map to_anom (capa_predict false c p) in
  let Mag := FR Magf / (1 - u53) in
  let delta := (42 / 10 * INR n + 5) * u53 * Sc + u53 * Mag in
  Rabs (FR (nthV F64 scoresF (n - 1)) - totalR pc pp out) <= INR n * (delta + u53 * Mag).
Proof.
  intros n Hm HmM Hn1 Hsmall Htr Hfin Hmag HSc HG pc pp out Mag delta.
  pose proof u53_pos as Hu. pose proof (pos_INR n) as Hn.
  assert (HSc0 : 0 <= Sc).
  { eapply Rle_trans; [|apply (HSc 0%nat 1%nat); lia].
    apply l2_saving_scale_nonneg. lia. }
  assert (HdS0 : 0 <= (42 / 10 * INR n + 5) * u53 * Sc).
  { apply Rmult_le_pos; [apply Rmult_le_pos; lra|exact HSc0]. }
  exact (capa_F64_pen_core_final (l2ScF l) (l2SpF l) acf apf Magf [0%float] m M n (l2_saving_F l)
           (l2_saving_R (prefix (map FR l))) _ (PcF_l2_shape l acf) (PpF_l2_shape l apf)
           (Kf_l2_value acf) Hfin Hmag HdS0 (l2_saving_table_error l Sc Hsmall Htr HSc)
           scoresF c p Hm HmM Hn1 HG).
Qed.

(** MAIN THEOREM, every premise boolean (or a linear-arithmetic fact about n, m, M) *)
Theorem capa_F64_l2_end_to_end_absmax (l : list float) (acf apf Magf Bf : float) (m M : nat)
    (scoresF : list float) (c p : list (nat * nat)) :
  let n := length l in
  (2 <= m)%nat -> (m <= M)%nat -> INR n * u53 <= 1 / 100 ->
  l2_saving_all_trace_ok l = true ->
  capa_trace_finite F64_tiny (l2ScF l) (l2SpF l) acf apf [0%float] [0%float] m M (m - 1) n = true ->
  capa_mag_ok F64_tiny (l2ScF l) (l2SpF l) acf apf [0%float] [0%float] m M (m - 1) n Magf = true ->
  l2_absmax_ok l Bf = true ->
  gcapa F64 F64_tiny (l2ScF l) (l2SpF l) acf [0%float] apf [0%float] m M (m - 1) n
    = (scoresF, c, p) ->
  let pc := fun s e : nat => l2_saving_R (prefix (map FR l)) s e - FR acf in
  let pp := fun t : nat => l2_saving_R (prefix (map FR l)) t (S t) - FR apf in
  let out := map to_anom (capa_predict false c p) in
  let Mag := FR Magf / (1 - u53) in
  let Sc := (INR n * FR Bf) ^ 2 in
  let delta := (42 / 10 * INR n + 5) * u53 * Sc + u53 * Mag in
  Valid m M out n /\
  forall l', Valid m M l' n ->
    totalR pc pp l' <= totalR pc pp out + 3 * INR n * (delta + u53 * Mag).
Proof.
  intros n Hm HmM Hsmall Htr Hfin Hmag Habs HG pc pp out Mag Sc delta.
  apply (capa_F64_l2_end_to_end l acf apf Magf m M Sc scoresF c p); try assumption.
  exact (l2_saving_scale_absmax_ok l Bf Habs).
Qed.

Theorem capa_F64_l2_final_score_absmax (l : list float) (acf apf Magf Bf : float) (m M : nat)
    (scoresF : list float) (c p : list (nat * nat)) :
  let n := length l in
  (2 <= m)%nat -> (m <= M)%nat -> (1 <= n)%nat -> INR n * u53 <= 1 / 100 ->
  l2_saving_all_trace_ok l = true ->
  capa_trace_finite F64_tiny (l2ScF l) (l2SpF l) acf apf [0%float] [0%float] m M (m - 1) n = true ->
  capa_mag_ok F64_tiny (l2ScF l) (l2SpF l) acf apf [0%float] [0%float] m M (m - 1) n Magf = true ->
  l2_absmax_ok l Bf = true ->
  gcapa F64 F64_tiny (l2ScF l) (l2SpF l) acf [0%float] apf [0%float] m M (m - 1) n
    = (scoresF, c, p) ->
  let pc := fun s e : nat => l2_saving_R (prefix (map FR l)) s e - FR acf in
  let pp := fun t : nat => l2_saving_R (prefix (map FR l)) t (S t) - FR apf in
  let out := map to_anom (capa_predict false c p) in
  let Mag := FR Magf / (1 - u53) in
  let Sc := (INR n * FR Bf) ^ 2 in
  let delta := (42 / 10 * INR n + 5) * u53 * Sc + u53 * Mag in
  Rabs (FR (nthV F64 scoresF (n - 1)) - totalR pc pp out) <= INR n * (delta + u53 * Mag).
Proof.
  intros n Hm HmM Hn1 Hsmall Htr Hfin Hmag Habs HG pc pp out Mag Sc delta.
  apply (capa_F64_l2_final_score l acf apf Magf m M Sc scoresF c p); try assumption.
  exact (l2_saving_scale_absmax_ok l Bf Habs).
Qed.


(** eight observations around 0 with one spike (6, at index 1) and one collective anomaly
    (level 3 on [4,7)); alpha_collective = 8, alpha_point = 12, m = 2, M = 4, delay = m - 1 = 1 *)
Definition e3_xs : list float := [0.125; 6; 0.25; -0.125; 3; 3.25; 2.75; 0.125]%float.
Definition e3_ac : float := 8%float.
Definition e3_ap : float := 12%float.
Definition e3_Mag : float := 64%float.
Definition e3_B : float := 6%float.
Definition e3_scores : list float := [0; 24; 24; 24; 24; 35.53125; 43; 43]%float.

(** the output of the binary64 run, displayed: scores, collective anomalies, point anomalies *)
Eval vm_compute in
  (gcapa F64 F64_tiny (l2ScF e3_xs) (l2SpF e3_xs) e3_ac [0%float] e3_ap [0%float] 2 4 1 8).

Example e3_gcapa :
  gcapa F64 F64_tiny (l2ScF e3_xs) (l2SpF e3_xs) e3_ac [0%float] e3_ap [0%float] 2 4 1 8
  = (e3_scores, [(4, 7)]%nat, [(1, 2)]%nat).
Proof. vm_compute. reflexivity. Qed.
Example e3_anoms :
  map to_anom (capa_predict false [(4, 7)]%nat [(1, 2)]%nat) = [Pt 1; Coll 4 7].
Proof. vm_compute. reflexivity. Qed.

(** every premise is TRUE, by computation *)
Example e3_all_trace_ok : l2_saving_all_trace_ok e3_xs = true.
Proof. vm_compute. reflexivity. Qed.
Example e3_trace_finite :
  capa_trace_finite F64_tiny (l2ScF e3_xs) (l2SpF e3_xs) e3_ac e3_ap [0%float] [0%float] 2 4 1 8
  = true.
Proof.
  (* every [candF a T] would run the loop again: the table is read off [e3_gcapa] instead *)
  unfold capa_trace_finite, pruneF, candF, pointF. rewrite (optF_scores _ _ _ _ _ _ _ _ _ _ _ _ _ _ e3_gcapa).
  vm_compute. reflexivity.
Qed.
Example e3_mag_ok :
  capa_mag_ok F64_tiny (l2ScF e3_xs) (l2SpF e3_xs) e3_ac e3_ap [0%float] [0%float] 2 4 1 8 e3_Mag
  = true.
Proof.
  unfold capa_mag_ok, pruneF, candF, pointF. rewrite (optF_scores _ _ _ _ _ _ _ _ _ _ _ _ _ _ e3_gcapa).
  vm_compute. reflexivity.
Qed.
Example e3_absmax_ok : l2_absmax_ok e3_xs e3_B = true.
Proof. vm_compute. reflexivity. Qed.

(** the checkers are not trivially true: a magnitude bound that is too small, a bound on the data
    that is too small, data whose squares underflow, and an infinite penalty are rejected *)
Example e3_mag_rejected :
  capa_mag_ok F64_tiny (l2ScF e3_xs) (l2SpF e3_xs) e3_ac e3_ap [0%float] [0%float] 2 4 1 8 32%float
  = false.
Proof.
  unfold capa_mag_ok, pruneF, candF, pointF. rewrite (optF_scores _ _ _ _ _ _ _ _ _ _ _ _ _ _ e3_gcapa).
  vm_compute. reflexivity.
Qed.
Example e3_absmax_rejected : l2_absmax_ok e3_xs 5.5%float = false.
Proof. vm_compute. reflexivity. Qed.
Example e3_all_trace_rejected :
  l2_saving_all_trace_ok [0x1p-600; 6; 0.25; -0.125; 3; 3.25; 2.75; 0.125]%float = false.
Proof. vm_compute. reflexivity. Qed.
Example e3_trace_finite_rejected :
  capa_trace_finite F64_tiny (l2ScF e3_xs) (l2SpF e3_xs) infinity e3_ap [0%float] [0%float] 2 4 1 8
  = false.
Proof.
  (* the prune constant infinity + 0 is not finite *)
  destruct (capa_trace_finite _ _ _ _ _ _ _ _ _ _ _) eqn:E; [|reflexivity].
  apply trace_finite_spec in E as (_ & Hk & _). discriminate Hk.
Qed.

(** the main theorem on this instance, in terms of the float data *)
Example e3_end_to_end_F :
  let pc := fun s e : nat => l2_saving_R (prefix (map FR e3_xs)) s e - FR e3_ac in
  let pp := fun t : nat => l2_saving_R (prefix (map FR e3_xs)) t (S t) - FR e3_ap in
  let Mag := FR e3_Mag / (1 - u53) in
  let delta := (42 / 10 * INR 8 + 5) * u53 * (INR 8 * FR e3_B) ^ 2 + u53 * Mag in
  Valid 2 4 [Pt 1; Coll 4 7] 8 /\
  forall l', Valid 2 4 l' 8 ->
    totalR pc pp l' <= totalR pc pp [Pt 1; Coll 4 7] + 3 * INR 8 * (delta + u53 * Mag).
Proof.
  pose proof (capa_F64_l2_end_to_end_absmax e3_xs e3_ac e3_ap e3_Mag e3_B 2 4
                e3_scores [(4, 7)]%nat [(1, 2)]%nat) as H.
  cbv zeta in H. change (length e3_xs) with 8%nat in H. change (2 - 1)%nat with 1%nat in H.
  assert (Hsmall : INR 8 * u53 <= 1 / 100) by (rewrite u53_value; cbn [INR]; lra).
  specialize (H ltac:(lia) ltac:(lia) Hsmall e3_all_trace_ok e3_trace_finite e3_mag_ok
                e3_absmax_ok e3_gcapa).
  rewrite e3_anoms in H. exact H.
Qed.

(** real values of the concrete floats ([FR_value] of Proofs/FloatRun.v) *)
Lemma FR_e3_ac : FR e3_ac = 8.
Proof. FR_value. Qed.
Lemma FR_e3_ap : FR e3_ap = 12.
Proof. FR_value. Qed.
Lemma FR_e3_Mag : FR e3_Mag = 64.
Proof. FR_value. Qed.
Lemma FR_e3_B : FR e3_B = 6.
Proof. FR_value. Qed.

Definition e3_xsR : list R := [1/8; 6; 1/4; -1/8; 3; 13/4; 11/4; 1/8].

Lemma FR_e3_xs : map FR e3_xs = e3_xsR.
Proof.
  unfold e3_xs, e3_xsR. cbn [map].
  repeat (apply f_equal2; [FR_value|]). reflexivity.
Qed.

(** the instantiated main theorem with the concrete numbers: the binary64 run reports the point
    anomaly at 1 and the collective anomaly [4,7), and NO valid anomaly set has a total penalised
    L2 saving (of the real data, alpha = 8 / 12) exceeding theirs by more than
    3 * 8 * (delta + u53 Mag),  delta = (4.2 * 8 + 5) u53 (8 * 6)^2 + u53 Mag,  Mag = 64 / (1 - u53) *)
Example e3_end_to_end :
  let pc := fun s e : nat => l2_saving_R (prefix e3_xsR) s e - 8 in
  let pp := fun t : nat => l2_saving_R (prefix e3_xsR) t (S t) - 12 in
  Valid 2 4 [Pt 1; Coll 4 7] 8 /\
  forall l', Valid 2 4 l' 8 ->
    totalR pc pp l'
    <= totalR pc pp [Pt 1; Coll 4 7]
       + 3 * 8 * (((42 / 10 * 8 + 5) * u53 * (8 * 6) ^ 2 + u53 * (64 / (1 - u53)))
                  + u53 * (64 / (1 - u53))).
Proof.
  pose proof e3_end_to_end_F as H. cbv zeta in H |- *.
  rewrite FR_e3_xs, FR_e3_ac, FR_e3_ap, FR_e3_Mag, FR_e3_B in H.
  replace (INR 8) with 8 in H by (cbn [INR]; lra).
  exact H.
Qed.

(** the total true penalised saving of the reported anomalies is (36 - 12) + (81 / 3 - 8) = 43 *)
Example e3_total_reported :
  totalR (fun s e : nat => l2_saving_R (prefix e3_xsR) s e - 8)
         (fun t : nat => l2_saving_R (prefix e3_xsR) t (S t) - 12) [Pt 1; Coll 4 7] = 43.
Proof.
  unfold totalR, a_valR, l2_saving_R, prefix, e3_xsR. cbn [map sumR firstn Nat.sub INR]. field.
Qed.

(** ... so no valid anomaly set has a total penalised saving above 43 + 1e-9 *)
Example e3_end_to_end_1e9 :
  forall l', Valid 2 4 l' 8 ->
    totalR (fun s e : nat => l2_saving_R (prefix e3_xsR) s e - 8)
           (fun t : nat => l2_saving_R (prefix e3_xsR) t (S t) - 12) l'
    <= 43 + 1 / 1000000000.
Proof.
  intros l' Hl'. pose proof (proj2 e3_end_to_end l' Hl') as H. cbv zeta in H.
  rewrite e3_total_reported in H.
  eapply Rle_trans; [exact H|]. apply Rplus_le_compat_l.
  rewrite u53_value. lra.
Qed.

(** the reported final score 43 against the total penalised saving of the reported anomalies *)
Example e3_final_score_close :
  Rabs (FR 43%float
        - totalR (fun s e : nat => l2_saving_R (prefix e3_xsR) s e - 8)
                 (fun t : nat => l2_saving_R (prefix e3_xsR) t (S t) - 12) [Pt 1; Coll 4 7])
  <= 8 * (((42 / 10 * 8 + 5) * u53 * (8 * 6) ^ 2 + u53 * (64 / (1 - u53)))
          + u53 * (64 / (1 - u53))).
Proof.
  pose proof (capa_F64_l2_final_score_absmax e3_xs e3_ac e3_ap e3_Mag e3_B 2 4
                e3_scores [(4, 7)]%nat [(1, 2)]%nat) as H.
  cbv zeta in H. change (length e3_xs) with 8%nat in H. change (2 - 1)%nat with 1%nat in H.
  change (8 - 1)%nat with 7%nat in H.
  assert (Hsmall : INR 8 * u53 <= 1 / 100) by (rewrite u53_value; cbn [INR]; lra).
  specialize (H ltac:(lia) ltac:(lia) ltac:(lia) Hsmall e3_all_trace_ok e3_trace_finite e3_mag_ok
                e3_absmax_ok e3_gcapa).
  change (nthV F64 e3_scores 7) with 43%float in H.
  rewrite e3_anoms, FR_e3_xs, FR_e3_ac, FR_e3_ap, FR_e3_Mag, FR_e3_B in H.
  replace (INR 8) with 8 in H by (cbn [INR]; lra).
  exact H.
Qed.

(** a second instance with INEXACT arithmetic: the data are the binary64 numbers nearest to
    0.1 5.2 0.2 -0.3 2.9 3.1 3.3 0.1; the savings and the scores are rounded (the final score is
    not the real total), all premises hold, and the theorem applies *)
Definition e4_xs : list float :=
  [0x1.999999999999ap-4; 0x1.4cccccccccccdp+2; 0x1.999999999999ap-3; -0x1.3333333333333p-2;
   0x1.7333333333333p+1; 0x1.8cccccccccccdp+1; 0x1.a666666666666p+1; 0x1.999999999999ap-4]%float.

Eval vm_compute in
  (gcapa F64 F64_tiny (l2ScF e4_xs) (l2SpF e4_xs) e3_ac [0%float] e3_ap [0%float] 2 4 1 8).

Lemma e4_gcapa :
  gcapa F64 F64_tiny (l2ScF e4_xs) (l2SpF e4_xs) e3_ac [0%float] e3_ap [0%float] 2 4 1 8
  = ([0; 0x1.e147ae147ae16p+3; 0x1.e147ae147ae16p+3; 0x1.e147ae147ae16p+3; 0x1.e147ae147ae16p+3;
      0x1.90a3d70a3d70ap+4; 0x1.1ef5c28f5c290p+5; 0x1.1ef5c28f5c290p+5]%float,
     [(4, 7)]%nat, [(1, 2)]%nat).
Proof. vm_compute. reflexivity. Qed.

Example e4_premises :
  l2_saving_all_trace_ok e4_xs = true /\
  capa_trace_finite F64_tiny (l2ScF e4_xs) (l2SpF e4_xs) e3_ac e3_ap [0%float] [0%float] 2 4 1 8
    = true /\
  capa_mag_ok F64_tiny (l2ScF e4_xs) (l2SpF e4_xs) e3_ac e3_ap [0%float] [0%float] 2 4 1 8 e3_Mag
    = true /\
  l2_absmax_ok e4_xs e3_B = true /\
  snd (fst (gcapa F64 F64_tiny (l2ScF e4_xs) (l2SpF e4_xs) e3_ac [0%float] e3_ap [0%float] 2 4 1 8))
    = [(4, 7)]%nat /\
  snd (gcapa F64 F64_tiny (l2ScF e4_xs) (l2SpF e4_xs) e3_ac [0%float] e3_ap [0%float] 2 4 1 8)
    = [(1, 2)]%nat.
Proof.
  pose proof e4_gcapa as HG.
  split; [vm_compute; reflexivity|]. split; [|split; [|split; [vm_compute; reflexivity|]]].
  - unfold capa_trace_finite, pruneF, candF, pointF.
    rewrite (optF_scores _ _ _ _ _ _ _ _ _ _ _ _ _ _ HG). vm_compute. reflexivity.
  - unfold capa_mag_ok, pruneF, candF, pointF.
    rewrite (optF_scores _ _ _ _ _ _ _ _ _ _ _ _ _ _ HG). vm_compute. reflexivity.
  - rewrite HG. split; reflexivity.
Qed.

(** the main theorem on the inexact instance (in terms of the real values of the float data) *)
Example e4_end_to_end_F :
  let pc := fun s e : nat => l2_saving_R (prefix (map FR e4_xs)) s e - FR e3_ac in
  let pp := fun t : nat => l2_saving_R (prefix (map FR e4_xs)) t (S t) - FR e3_ap in
  let Mag := FR e3_Mag / (1 - u53) in
  let delta := (42 / 10 * INR 8 + 5) * u53 * (INR 8 * FR e3_B) ^ 2 + u53 * Mag in
  Valid 2 4 [Pt 1; Coll 4 7] 8 /\
  forall l', Valid 2 4 l' 8 ->
    totalR pc pp l' <= totalR pc pp [Pt 1; Coll 4 7] + 3 * INR 8 * (delta + u53 * Mag).
Proof.
  destruct e4_premises as (P1 & P2 & P3 & P4 & _).
  assert (Hsmall : INR 8 * u53 <= 1 / 100) by (rewrite u53_value; cbn [INR]; lra).
  pose proof (capa_F64_l2_end_to_end_absmax e4_xs e3_ac e3_ap e3_Mag e3_B 2 4 _ _ _
                ltac:(lia) ltac:(lia) Hsmall P1 P2 P3 P4 e4_gcapa) as H.
  cbv zeta in H. change (length e4_xs) with 8%nat in H.
  rewrite e3_anoms in H. exact H.
Qed.

Print Assumptions capa_F64_l2_end_to_end.
Print Assumptions capa_F64_l2_final_score.
Print Assumptions capa_F64_l2_end_to_end_absmax.
Print Assumptions e3_end_to_end.
