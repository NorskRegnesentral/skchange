(** Strict weak orders.

    The greedy detectors (Model/Generic.v: gmw, gsbs, gcbs) only COMPARE score values:

      - [swo N ok]      : [ltb N] is a strict weak order on the values satisfying [ok]
                          (irreflexive, transitive, incomparability transitive); what the proofs use
                          is its co-transitivity [swo_cotrans];
      - [embedding N ok phi] : [phi : T N -> Z] sends the zero of the instance to 0 and reflects and
                          preserves [ltb N] on the values satisfying [ok].

    Nothing here depends on the detectors. *)
From Coq Require Import ZArith List.
From SK Require Import Model.Generic.
Import ListNotations.

Section Swo.
Variable N : num.
Notation V := (T N).
Notation "x <! y" := (ltb N x y) (at level 70).

(** [ltb N] restricted to [ok] is a strict weak order *)
Record swo (ok : V -> Prop) : Prop := {
  swo_irrefl : forall x, ok x -> x <! x = false;
  swo_trans : forall x y z, ok x -> ok y -> ok z -> x <! y = true -> y <! z = true -> x <! z = true;
  swo_incomp : forall x y z, ok x -> ok y -> ok z ->
    x <! y = false -> y <! x = false -> y <! z = false -> z <! y = false -> x <! z = false
}.

(** an order embedding into Z that sends the zero of the instance to 0 *)
Definition embedding (ok : V -> Prop) (phi : V -> Z) : Prop :=
  phi (zero N) = 0%Z /\ forall x y, ok x -> ok y -> x <! y = (phi x <? phi y)%Z.

Lemma swo_weaken : forall (ok ok' : V -> Prop), (forall x, ok' x -> ok x) -> swo ok -> swo ok'.
Proof.
  intros ok ok' Hsub [H1 H2 H3]. constructor.
  - intros x Hx. apply H1; auto.
  - intros x y z Hx Hy Hz. apply H2; auto.
  - intros x y z Hx Hy Hz. apply H3; auto.
Qed.

Lemma embedding_weaken : forall (ok ok' : V -> Prop) phi, (forall x, ok' x -> ok x) ->
  embedding ok phi -> embedding ok' phi.
Proof. intros ok ok' phi Hsub [H0 H]. split; [exact H0|]. intros x y Hx Hy. apply H; auto. Qed.

Section Laws.
Variable ok : V -> Prop.
Hypothesis Hswo : swo ok.

(** negative transitivity (co-transitivity) *)
Lemma swo_cotrans : forall x y z, ok x -> ok y -> ok z ->
  x <! z = true -> x <! y = true \/ y <! z = true.
Proof.
  intros x y z Hx Hy Hz Hxz.
  destruct (x <! y) eqn:Exy; [left; reflexivity|].
  destruct (y <! z) eqn:Eyz; [right; reflexivity|]. exfalso.
  destruct (y <! x) eqn:Eyx.
  - rewrite (swo_trans ok Hswo y x z Hy Hx Hz Eyx Hxz) in Eyz. discriminate.
  - destruct (z <! y) eqn:Ezy.
    + rewrite (swo_trans ok Hswo x z y Hx Hz Hy Hxz Ezy) in Exy. discriminate.
    + rewrite (swo_incomp ok Hswo x y z Hx Hy Hz Exy Eyx Eyz Ezy) in Hxz. discriminate.
Qed.

Lemma swo_asym : forall x y, ok x -> ok y -> x <! y = true -> y <! x = false.
Proof.
  intros x y Hx Hy H. destruct (y <! x) eqn:E; [|reflexivity].
  rewrite <- (swo_irrefl ok Hswo x Hx). symmetry. exact (swo_trans ok Hswo x y x Hx Hy Hx H E).
Qed.

End Laws.

End Swo.

