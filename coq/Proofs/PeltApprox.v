(** ROBUSTNESS of PELT under inexact arithmetic.

    Model/PeltA.v is Model/PeltR.v with every rounded arithmetic step replaced by an
    arbitrary function ([V a T g] candidate value, [W T b] prune threshold of the iteration
    with end [T], [I0 e] initial block).  Here we assume that each of them is within [eps]
    of the exact expression for a TRUE aggregated cost [C] satisfying the split inequality,
    and prove

    - [peltA_adm]          : the reported changepoints are an admissible segmentation
                             (no hypothesis on [V], [W], [I0] at all);
    - [peltA_final_close]  : the reported final score is within [n * eps] of the TRUE
                             penalised cost of the reported segmentation;
    - [peltA_near_optimal] : the TRUE penalised cost of the reported segmentation exceeds
                             that of ANY admissible segmentation by at most [3 * n * eps];
    - [peltA_scores_close] : FR t - t eps <= score t <= FR t + 2 t eps for [m <= t <= n].

    The versions [peltA_final_close_run], [peltA_near_optimal_run], [peltA_scores_close_run]
    only assume the error bounds AT THE VALUES THE RUN ITSELF STORES ([storedA]), so that
    [V] and [W] may be tables of realised binary64 values ignoring their real argument;
    the "for all g" versions are corollaries.

    The error analysis itself is Proofs/PeltInexact.v (stated there for an abstract optimal
    value and cost functional); here it is instantiated with the recursion [FR] and the
    penalised cost [pencostR] of Proofs/PeltReal.v. *)
From Coq Require Import Reals Lra List Lia.
From SK Require Import Proofs.RealLib Model.PeltR Model.PeltA Proofs.PeltSpec Proofs.PeltLemmas
                       Proofs.PeltLoop Proofs.PeltInexact Proofs.PeltReal.
Import ListNotations.
Open Scope R_scope.

(** * Structure: valid for ARBITRARY [V], [W], [I0] *)

Theorem peltA_scores_length (V : nat -> nat -> R -> R) (W : nat -> R -> R) (I0 : nat -> R)
    (pen : R) (m delay n : nat) :
  (1 <= m)%nat -> (2 * m <= n)%nat -> length (fst (peltA V W I0 pen m delay n)) = n.
Proof. intros Hm Hn. rewrite <- kpelt_A. now apply (kpelt_scores_length Rn). Qed.

(** the reported changepoints form an admissible segmentation, WHATEVER the arithmetic *)
Theorem peltA_adm (V : nat -> nat -> R -> R) (W : nat -> R -> R) (I0 : nat -> R)
    (pen : R) (m delay n : nat) :
  (1 <= m)%nat -> (2 * m <= n)%nat -> Adm m (snd (peltA V W I0 pen m delay n)) n.
Proof. intros Hm Hn. rewrite <- kpelt_A. now apply (kpelt_adm Rn). Qed.

(** the explicit constant of the near-optimality theorem *)
Definition K_pelt : R := 3.

(** * Values.  Hypotheses restricted to the REALISED values.
    [storedA V W I0 pen m delay n a] is the run's own [opt_cost[a]] ([optR] of a shorter
    run is a prefix of that of a longer one: [krun_opt_prefix]).  [V a T] is constrained
    only at the stored value of [a], [W T] only at the stored value of [T]: they may be
    tables of realised binary64 values that ignore their real argument. *)
Definition storedA (V : nat -> nat -> R -> R) (W : nat -> R -> R) (I0 : nat -> R)
    (pen : R) (m delay n : nat) (a : nat) : R :=
  nthR (optR (runA V W I0 pen m delay n)) a.

(** the stored values are the reported scores (shifted by one) *)
Lemma storedA_scores V W I0 pen m delay n t : (1 <= t)%nat ->
  storedA V W I0 pen m delay n t = nth (t - 1) (fst (peltA V W I0 pen m delay n)) 0.
Proof. intros Ht. unfold storedA, peltA. cbn [fst]. rewrite nth_tl. unfold nthR. f_equal. lia. Qed.

Lemma stored_storedA V W I0 pen m delay n a :
  stored V W I0 pen m delay n a = storedA V W I0 pen m delay n a.
Proof.
  unfold stored, storedA. destruct (krun_A V W I0 pen m delay n) as (Ho & _). now rewrite Ho.
Qed.

(** the hypothesis on [V] in the form Proofs/PeltInexact.v asks for *)
Lemma storedA_V_ok V W I0 (C : nat -> nat -> R) pen eps m delay n : (1 <= m)%nat ->
  (forall a T, (a < T <= n)%nat ->
     Rabs (V a T (storedA V W I0 pen m delay n a)
           - (storedA V W I0 pen m delay n a + C a T + pen)) <= eps) ->
  forall a T, (2 * m <= T <= n)%nat -> last_start m T a ->
    Rabs (V a T (stored V W I0 pen m delay n a)
          - (stored V W I0 pen m delay n a + C a T + pen)) <= eps.
Proof.
  intros Hm HV a T HT Hf. rewrite stored_storedA. apply HV.
  pose proof (last_start_lt m T a Hm ltac:(lia) Hf). lia.
Qed.

Theorem peltA_final_close_run (V : nat -> nat -> R -> R) (W : nat -> R -> R) (I0 : nat -> R)
    (C : nat -> nat -> R) (pen eps : R) (m delay n : nat) :
  (1 <= m)%nat -> (2 * m <= n)%nat ->
  (forall a T, (a < T <= n)%nat ->
     Rabs (V a T (storedA V W I0 pen m delay n a)
           - (storedA V W I0 pen m delay n a + C a T + pen)) <= eps) ->
  (forall e, (m <= e < 2 * m)%nat -> Rabs (I0 e - C 0%nat e) <= eps) ->
  Rabs (nth (n - 1) (fst (peltA V W I0 pen m delay n)) 0
        - pencostR C pen (snd (peltA V W I0 pen m delay n)) n) <= INR n * eps.
Proof.
  intros Hm Hn HV HI. rewrite <- kpelt_A.
  exact (final_close V W I0 pen m delay n C eps _ Hm Hn (pencostR_nil C pen) (pencostR_snoc C pen)
           (storedA_V_ok V W I0 C pen eps m delay n Hm HV) HI).
Qed.

(** two-sided control of EVERY reported score by the exact optimal-partitioning value *)
Theorem peltA_scores_close_run (V : nat -> nat -> R -> R) (W : nat -> R -> R) (I0 : nat -> R)
    (C : nat -> nat -> R) (pen eps : R) (m delay n N : nat) :
  (1 <= m)%nat -> (m <= delay + 1)%nat -> (2 * m <= n)%nat -> (n <= N)%nat ->
  (forall s k e, (s + m <= k)%nat -> (k + m <= e)%nat -> (e <= N)%nat ->
                 C s k + C k e <= C s e) ->
  (forall a T, (a < T <= n)%nat ->
     Rabs (V a T (storedA V W I0 pen m delay n a)
           - (storedA V W I0 pen m delay n a + C a T + pen)) <= eps) ->
  (forall T, (T <= n)%nat ->
     Rabs (W T (storedA V W I0 pen m delay n T)
           - (storedA V W I0 pen m delay n T + pen)) <= eps) ->
  (forall e, (m <= e < 2 * m)%nat -> Rabs (I0 e - C 0%nat e) <= eps) ->
  forall t, (m <= t <= n)%nat ->
    FR C pen m t - INR t * eps <= nth (t - 1) (fst (peltA V W I0 pen m delay n)) 0
    /\ nth (t - 1) (fst (peltA V W I0 pen m delay n)) 0 <= FR C pen m t + 2 * INR t * eps.
Proof.
  intros Hm Hd Hn HnN Hs HV HW HI.
  assert (He : 0 <= eps).
  { pose proof (HV 0%nat 1%nat ltac:(lia)) as H. eapply Rle_trans; [apply Rabs_pos|exact H]. }
  rewrite <- kpelt_A.
  apply (scores_close V W I0 pen m delay n C eps _ Hm Hn (pencostR_nil C pen) (pencostR_snoc C pen)
           (storedA_V_ok V W I0 C pen eps m delay n Hm HV) HI _
           (FR_small C pen m Hm) (FR_mid C pen m Hm) (FR_attained_start C pen m Hm)
           (fun T cp => FR_lower C pen m T cp Hm) He Hd).
  - intros s k e H1 H2 H3. apply Hs; lia.
  - intros T HT. rewrite stored_storedA. apply HW. lia.
Qed.

(** the TRUE cost of the reported segmentation:
    pencost cpts n <= score n + n eps <= FR n + 3 n eps <= pencost c n + 3 n eps *)
Theorem peltA_near_optimal_run (V : nat -> nat -> R -> R) (W : nat -> R -> R) (I0 : nat -> R)
    (C : nat -> nat -> R) (pen eps : R) (m delay n N : nat) :
  (1 <= m)%nat -> (m <= delay + 1)%nat -> (2 * m <= n)%nat -> (n <= N)%nat ->
  (forall s k e, (s + m <= k)%nat -> (k + m <= e)%nat -> (e <= N)%nat ->
                 C s k + C k e <= C s e) ->
  (forall a T, (a < T <= n)%nat ->
     Rabs (V a T (storedA V W I0 pen m delay n a)
           - (storedA V W I0 pen m delay n a + C a T + pen)) <= eps) ->
  (forall T, (T <= n)%nat ->
     Rabs (W T (storedA V W I0 pen m delay n T)
           - (storedA V W I0 pen m delay n T + pen)) <= eps) ->
  (forall e, (m <= e < 2 * m)%nat -> Rabs (I0 e - C 0%nat e) <= eps) ->
  forall c, Adm m c n ->
    pencostR C pen (snd (peltA V W I0 pen m delay n)) n
    <= pencostR C pen c n + K_pelt * INR n * eps.
Proof.
  intros Hm Hd Hn HnN Hs HV HW HI c Hc. unfold K_pelt.
  pose proof (Rabs_le_both _ _ (peltA_final_close_run V W I0 C pen eps m delay n Hm Hn HV HI)).
  pose proof (proj2 (peltA_scores_close_run V W I0 C pen eps m delay n N Hm Hd Hn HnN Hs HV HW HI
                       n ltac:(lia))).
  pose proof (FR_lower C pen m n c Hm Hc). lra.
Qed.

(** ** The same with [V], [W], [I0] within [eps] of exact arithmetic EVERYWHERE *)

(** the reported final score is within [n * eps] of the TRUE penalised cost of the
    reported segmentation (no split inequality, no condition on [delay], nothing on [W]) *)
Theorem peltA_final_close (V : nat -> nat -> R -> R) (W : nat -> R -> R) (I0 : nat -> R)
    (C : nat -> nat -> R) (pen eps : R) (m delay n : nat) :
  (1 <= m)%nat -> (2 * m <= n)%nat ->
  (forall a T g, Rabs (V a T g - (g + C a T + pen)) <= eps) ->
  (forall e, Rabs (I0 e - C 0%nat e) <= eps) ->
  Rabs (nth (n - 1) (fst (peltA V W I0 pen m delay n)) 0
        - pencostR C pen (snd (peltA V W I0 pen m delay n)) n) <= INR n * eps.
Proof. intros Hm Hn HV HI. apply peltA_final_close_run; auto. Qed.

(** MAIN THEOREM: perturbing every arithmetic step by at most [eps] costs at most
    [3 * n * eps] in the TRUE objective *)
Theorem peltA_near_optimal (V : nat -> nat -> R -> R) (W : nat -> R -> R) (I0 : nat -> R)
    (C : nat -> nat -> R) (pen eps : R) (m delay n N : nat) :
  (1 <= m)%nat -> (m <= delay + 1)%nat -> (2 * m <= n)%nat -> (n <= N)%nat ->
  (forall s k e, (s + m <= k)%nat -> (k + m <= e)%nat -> (e <= N)%nat ->
                 C s k + C k e <= C s e) ->
  (forall a T g, Rabs (V a T g - (g + C a T + pen)) <= eps) ->
  (forall T b, Rabs (W T b - (b + pen)) <= eps) ->
  (forall e, Rabs (I0 e - C 0%nat e) <= eps) ->
  forall c, Adm m c n ->
    pencostR C pen (snd (peltA V W I0 pen m delay n)) n
    <= pencostR C pen c n + K_pelt * INR n * eps.
Proof.
  intros Hm Hd Hn HnN Hs HV HW HI c Hc.
  apply (peltA_near_optimal_run V W I0 C pen eps m delay n N); auto.
Qed.

Theorem peltA_scores_close (V : nat -> nat -> R -> R) (W : nat -> R -> R) (I0 : nat -> R)
    (C : nat -> nat -> R) (pen eps : R) (m delay n N : nat) :
  (1 <= m)%nat -> (m <= delay + 1)%nat -> (2 * m <= n)%nat -> (n <= N)%nat ->
  (forall s k e, (s + m <= k)%nat -> (k + m <= e)%nat -> (e <= N)%nat ->
                 C s k + C k e <= C s e) ->
  (forall a T g, Rabs (V a T g - (g + C a T + pen)) <= eps) ->
  (forall T b, Rabs (W T b - (b + pen)) <= eps) ->
  (forall e, Rabs (I0 e - C 0%nat e) <= eps) ->
  forall t, (m <= t <= n)%nat ->
    FR C pen m t - INR t * eps <= nth (t - 1) (fst (peltA V W I0 pen m delay n)) 0
    /\ nth (t - 1) (fst (peltA V W I0 pen m delay n)) 0 <= FR C pen m t + 2 * INR t * eps.
Proof.
  intros Hm Hd Hn HnN Hs HV HW HI t Ht.
  apply (peltA_scores_close_run V W I0 C pen eps m delay n N); auto.
Qed.

(** * Corollary: eps = 0 gives back the exact optimality theorem [peltR_optimal] *)

Corollary peltR_optimal_from_approx (C : nat -> nat -> R) (pen : R) (m delay n : nat) :
  (1 <= m)%nat -> (2 * m <= n)%nat -> (m <= delay + 1)%nat ->
  (forall s k e, (s + m <= k)%nat -> (k + m <= e)%nat -> C s k + C k e <= C s e) ->
  forall c, Adm m c n ->
    pencostR C pen (snd (peltR C pen m delay n)) n <= pencostR C pen c n.
Proof.
  intros Hm Hn Hd Hs c Hc. rewrite <- peltA_exact.
  pose proof (peltA_near_optimal (fun a T g => g + C a T + pen) (fun _ b => b + pen) (C 0%nat)
                C pen 0 m delay n n Hm Hd Hn (le_n n)
                (fun s k e H1 H2 _ => Hs s k e H1 H2)
                (fun a T g => Rabs_diag_0 _) (fun _ b => Rabs_diag_0 _) (fun e => Rabs_diag_0 _)
                c Hc) as H.
  unfold K_pelt in H. lra.
Qed.

(** * Non-vacuity: the hypotheses are satisfiable with eps > 0 by functions that really
      differ from exact arithmetic (candidates always rounded UP by eps, prune thresholds
      always rounded DOWN by eps -- the worst case for pruning) *)

Section NonVacuous.
Variable C : nat -> nat -> R.
Variable pen eps : R.
Hypothesis eps_pos : 0 < eps.

Definition Vbad (a T : nat) (g : R) : R := g + C a T + pen + eps.
Definition Wbad (T : nat) (b : R) : R := b + pen - eps.
Definition Ibad (e : nat) : R := C 0%nat e - eps.

Lemma Vbad_ok : forall a T g, Rabs (Vbad a T g - (g + C a T + pen)) <= eps.
Proof. intros. unfold Vbad. apply Rabs_le_of. lra. Qed.
Lemma Wbad_ok : forall T b, Rabs (Wbad T b - (b + pen)) <= eps.
Proof. intros. unfold Wbad. apply Rabs_le_of. lra. Qed.
Lemma Ibad_ok : forall e, Rabs (Ibad e - C 0%nat e) <= eps.
Proof. intros. unfold Ibad. apply Rabs_le_of. lra. Qed.
Lemma Vbad_differs : forall a T g, Vbad a T g <> g + C a T + pen.
Proof. intros. unfold Vbad. lra. Qed.
Lemma Wbad_differs : forall T b, Wbad T b <> b + pen.
Proof. intros. unfold Wbad. lra. Qed.
End NonVacuous.

(** a fully concrete instance: zero cost, penalty 1, min segment length 1, delay 0,
    eps = 1/8, on 10 observations: all hypotheses of [peltA_near_optimal] hold *)
Example peltA_near_optimal_instance :
  forall c, Adm 1 c 10 ->
    pencostR (fun _ _ => 0) 1
      (snd (peltA (Vbad (fun _ _ => 0) 1 (1/8)) (Wbad 1 (1/8)) (Ibad (fun _ _ => 0) (1/8))
                  1 1 0 10)) 10
    <= pencostR (fun _ _ => 0) 1 c 10 + 3 * INR 10 * (1/8).
Proof.
  intros c Hc.
  apply (peltA_near_optimal _ _ _ (fun _ _ => 0) 1 (1/8) 1 0 10 10); try lia; try exact Hc.
  - intros. lra.
  - apply Vbad_ok. lra.
  - apply Wbad_ok. lra.
  - apply Ibad_ok. lra.
Qed.

Print Assumptions peltA_adm.
Print Assumptions peltA_final_close.
Print Assumptions peltA_final_close_run.
Print Assumptions peltA_near_optimal.
Print Assumptions peltA_near_optimal_run.
