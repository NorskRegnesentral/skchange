(** The generic PELT loop (Model/Generic.v) reads its cost only at the intervals [s, e)
    with s + m <= e <= n, whatever the number type: no law of the operations is used, only
    the shape of the step.  The instances (reals, integers, binary64) inherit it through
    [gpelt_R], [gpelt_Z] and the like. *)
From Coq Require Import List Lia Arith.
From SK Require Import Lib.Base Model.Generic.
Import ListNotations.

Lemma fold_left_seq_rel2 {St} (P : nat -> St -> St -> Prop) (f g : St -> nat -> St) :
  forall k a,
  (forall T s1 s2, (a <= T)%nat -> (T < a + k)%nat -> P T s1 s2 -> P (S T) (f s1 T) (g s2 T)) ->
  forall s1 s2, P a s1 s2 ->
  P (a + k)%nat (fold_left f (seq a k) s1) (fold_left g (seq a k) s2).
Proof.
  induction k as [|k IH]; intros a Hstep s1 s2 H0.
  - cbn [seq fold_left]. now rewrite Nat.add_0_r.
  - cbn [seq fold_left]. replace (a + S k)%nat with (S a + k)%nat by lia.
    apply IH.
    + intros T t1 t2 H1 H2 HP. apply Hstep; [lia|lia|exact HP].
    + apply Hstep; [lia|lia|exact H0].
Qed.

Section GPeltValid.
Variable N : num.
Variables (C1 C2 : nat -> nat -> T N) (pen : T N) (m delay n : nat).
Hypothesis m_pos : (1 <= m)%nat.
Hypothesis HC : forall s e, (s + m <= e)%nat -> (e <= n)%nat -> C1 s e = C2 s e.

(** before the iteration for observation index [T] both runs are in the same state, and
    every retained start leaves room for a segment of length >= m ending at [T + 1] *)
Definition GInv (T : nat) (s1 s2 : gst N) : Prop :=
  s1 = s2 /\ forall a, In a (gstarts N s1) -> (a + m <= S T)%nat.

Lemma gstep_starts_incl : forall C s t a,
  In a (gstarts N (gstep N C pen m delay s t)) ->
  In a (gstarts N s ++ [t - (m - 1)]%nat).
Proof.
  intros C s t a. unfold gstep. cbv zeta.
  destruct (gargmin _ _) as [[i b]|].
  - destruct (delay <? _)%nat; cbn [gstarts]; unfold removeall; intros H;
      apply filter_In in H; apply H.
  - intros H. apply in_or_app. left. exact H.
Qed.

Lemma gstep_ext_valid : forall T s1 s2,
  (m - 1 <= T)%nat -> (T < n)%nat -> GInv T s1 s2 ->
  GInv (S T) (gstep N C1 pen m delay s1 T) (gstep N C2 pen m delay s2 T).
Proof.
  intros T s ? HT HTn [<- HP].
  assert (H1 : forall a, In a (gstarts N s ++ [T - (m - 1)]%nat) -> (a + m <= S T)%nat).
  { intros a Ha. apply in_app_or in Ha as [Ha|[<-|[]]]; [now apply HP|lia]. }
  split.
  - unfold gstep. cbv zeta.
    rewrite (map_ext_in _ (fun a => add N (add N (nthV N (gopt N s) a) (C2 a (S T))) pen)
               (gstarts N s ++ [(T - (m - 1))%nat])); [reflexivity|].
    intros a Ha. rewrite HC; [reflexivity|now apply H1|lia].
  - intros a Ha. apply gstep_starts_incl in Ha. apply H1 in Ha. lia.
Qed.

Lemma grun_ext_valid : (2 * m - 1 <= n)%nat ->
  grun N C1 pen m delay n = grun N C2 pen m delay n.
Proof.
  intros Hn. unfold grun.
  (* [GInv] of the final states is a conjunction; the goal is its first component, which
     [apply] projects *)
  apply (fold_left_seq_rel2 GInv (gstep N C1 pen m delay) (gstep N C2 pen m delay)).
  - intros T s1 s2 H1 H2 HP. apply gstep_ext_valid; [lia|lia|exact HP].
  - split.
    + unfold ginit. f_equal. f_equal. apply map_ext_in. intros e He.
      apply in_seq in He. apply HC; lia.
    + intros a [<-|[]]. lia.
Qed.
End GPeltValid.

(** any pruning delay; [2m - 1 <= n] is needed: the initial block reads [C 0 e] for
    m <= e <= 2m - 1 *)
Theorem gpelt_ext_valid : forall (N : num) (C1 C2 : nat -> nat -> T N) pen m delay n,
  (1 <= m)%nat -> (2 * m - 1 <= n)%nat ->
  (forall s e, (s + m <= e)%nat -> (e <= n)%nat -> C1 s e = C2 s e) ->
  gpelt N C1 pen m delay n = gpelt N C2 pen m delay n.
Proof.
  intros N C1 C2 pen m delay n Hm Hn H. unfold gpelt.
  rewrite (grun_ext_valid N C1 C2 pen m delay n Hm H Hn). reflexivity.
Qed.
