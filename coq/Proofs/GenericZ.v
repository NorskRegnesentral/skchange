(** The generic search loops (Model/Generic.v) at the Z instance ARE the Z models: every theorem about
    Model/Pelt.v, Mw.v, Sbs.v, Cbs.v is a theorem about the generic definitions -- the same definitions
    the harness runs on binary64 score tables (Model/GenericF.v). *)
From Coq Require Import ZArith List.
From SK Require Import Lib.Base Model.Mw Model.Sbs Model.Cbs Model.Generic.
Import ListNotations.
Open Scope Z_scope.

Lemma gargmin_from_Z l : forall bi b i, gargmin_from Zn bi b i l = argmin_from bi b i l.
Proof.
  induction l as [|x t IH]; intros bi b i; cbn [gargmin_from argmin_from]; [reflexivity|].
  change (ltb Zn x b) with (x <? b). destruct (x <? b); apply IH.
Qed.

Lemma gargmin_Z l : gargmin Zn l = argmin l.
Proof. destruct l as [|x t]; cbn [gargmin argmin]; [reflexivity|]. rewrite gargmin_from_Z. reflexivity. Qed.

Lemma gargmax_from_Z l : forall bi b i, gargmax_from Zn bi b i l = argmax_from bi b i l.
Proof.
  induction l as [|x t IH]; intros bi b i; cbn [gargmax_from argmax_from]; [reflexivity|].
  change (ltb Zn b x) with (b <? x). destruct (b <? x); apply IH.
Qed.

Lemma gargmax_Z l : gargmax Zn l = argmax l.
Proof. destruct l as [|x t]; cbn [gargmax argmax]; [reflexivity|]. rewrite gargmax_from_Z. reflexivity. Qed.

Lemma nthV_Z l i : nthV Zn l i = nthZ l i.
Proof. reflexivity. Qed.

Theorem gmw_Z CS b n thr mdi : gmw Zn CS b n thr mdi = mw CS b n thr mdi.
Proof.
  unfold gmw, mw. cbv zeta.
  change (gmw_scores Zn CS b n) with (mw_scores CS b n).
  apply f_equal. unfold gmw_cpts, mw_cpts.
  apply flat_map_ext. intros [s e]. rewrite gargmax_Z. reflexivity.
Qed.

Lemma gamoc_Z CS m se : gamoc Zn CS m se = amoc CS m se.
Proof. destruct se as [s e]. unfold gamoc, amoc. rewrite gargmax_Z. reflexivity. Qed.

Lemma gamocs_Z CS m ivs : gamocs Zn CS m ivs = amocs CS m ivs.
Proof.
  induction ivs as [|se t IH]; cbn [gamocs amocs]; [reflexivity|].
  rewrite gamoc_Z, IH. reflexivity.
Qed.

Lemma ggreedy_cpts_Z fuel : forall thr ivs maxs scores,
  ggreedy_cpts Zn fuel thr ivs maxs scores = greedy_cpts fuel thr ivs maxs scores.
Proof.
  induction fuel as [|f IH]; intros thr ivs maxs scores; cbn [ggreedy_cpts greedy_cpts].
  - reflexivity.
  - cbn [T ltb zero Zn] in *.
    destruct (negb (existsb (fun v : Z => thr <? v) scores)); [reflexivity|].
    rewrite gargmax_Z. destruct (argmax scores) as [[i v]|]; [|reflexivity].
    rewrite IH. reflexivity.
Qed.

Theorem gsbs_Z CS m thr ivs : gsbs Zn CS m thr ivs = sbs CS m thr ivs.
Proof.
  unfold gsbs, sbs. rewrite gamocs_Z. destruct (amocs CS m ivs) as [am|]; [|reflexivity].
  rewrite ggreedy_cpts_Z. reflexivity.
Qed.

Lemma ginner_or_zero_Z LS m se : ginner_or_zero Zn LS m se = inner_or_zero LS m se.
Proof.
  unfold ginner_or_zero, inner_or_zero, gbest_inner, best_inner. destruct se as [s e].
  rewrite gargmax_Z. reflexivity.
Qed.

Lemma ggreedy_anoms_Z fuel : forall thr ivs inner scores,
  ggreedy_anoms Zn fuel thr ivs inner scores = greedy_anoms fuel thr ivs inner scores.
Proof.
  induction fuel as [|f IH]; intros thr ivs inner scores; cbn [ggreedy_anoms greedy_anoms].
  - reflexivity.
  - cbn [T ltb zero Zn] in *.
    destruct (negb (existsb (fun v : Z => thr <? v) scores)); [reflexivity|].
    rewrite gargmax_Z. destruct (argmax scores) as [[i v]|]; [|reflexivity].
    rewrite IH. reflexivity.
Qed.

Theorem gcbs_Z LS m thr ivs : gcbs Zn LS m thr ivs = cbs LS m thr ivs.
Proof.
  unfold gcbs, cbs.
  rewrite (map_ext _ _ (ginner_or_zero_Z LS m)).
  rewrite ggreedy_anoms_Z. reflexivity.
Qed.

Definition st_rel (g : gst Zn) (s : Pelt.st) : Prop :=
  gopt Zn g = Pelt.opt s /\ gprev Zn g = Pelt.prev s /\ gstarts Zn g = Pelt.starts s /\ gpending Zn g = Pelt.pending s.

Lemma ginit_Z C pen m : st_rel (ginit Zn C pen m) (Pelt.init C pen m).
Proof. repeat split. Qed.

Lemma gstep_Z C pen m d g s t : st_rel g s -> st_rel (gstep Zn C pen m d g t) (Pelt.step C pen m d s t).
Proof.
  intros (Ho & Hp & Hs & Hq). unfold gstep, Pelt.step. rewrite Ho, Hp, Hs, Hq.
  unfold nthV. cbn [T ltb leb add neg zero Zn].
  rewrite gargmin_Z. unfold nthZ.
  destruct (argmin _) as [[i b]|].
  - destruct (Nat.ltb d _); unfold st_rel; cbn; repeat split; reflexivity.
  - repeat split; assumption.
Qed.

Lemma grun_Z C pen m d n : st_rel (grun Zn C pen m d n) (Pelt.run C pen m d n).
Proof.
  unfold grun, Pelt.run.
  generalize (seq (2 * m - 1) (n - (2 * m - 1))) as ts.
  generalize (ginit_Z C pen m). generalize (ginit Zn C pen m) as g, (Pelt.init C pen m) as s.
  intros g s Hrel ts. revert g s Hrel.
  induction ts as [|t ts IH]; intros g s Hrel; cbn [fold_left]; [exact Hrel|].
  apply IH. apply gstep_Z. exact Hrel.
Qed.

Theorem gpelt_Z C pen m d n : gpelt Zn C pen m d n = Pelt.pelt C pen m d n.
Proof.
  unfold gpelt, Pelt.pelt. destruct (grun_Z C pen m d n) as (Ho & Hp & _ & _).
  rewrite Ho, Hp. reflexivity.
Qed.

Print Assumptions gmw_Z.
Print Assumptions gsbs_Z.
Print Assumptions gcbs_Z.
Print Assumptions gpelt_Z.
