(** The data generators of Model/Generate.v, for an arbitrary number type [num] and arbitrary
    [affine] / [add] operations: the output has the shape of the noise matrix, each row gets
    the parameters of the one segment or anomaly that covers it, the generators accept exactly
    the arguments their validation tests pass, and [linspace_int] places the outliers on
    [k] distinct rows when [k <= n]. *)
From Coq Require Import List Bool Lia Permutation ZArith.
Import ListNotations.
From SK Require Import Model.Generate Proofs.ListFacts.

Lemma recycle_id : forall (A : Type) (l : list A) (k : nat),
  length l = k -> recycle l k = l.
Proof.
  intros A l k Hl. destruct l as [|x [|y t]]; simpl in *; subst; reflexivity.
Qed.

(** * Row ranges *)

Definition no_overlap (r1 r2 : nat * nat) : Prop :=
  forall i, ~ (fst r1 <= i < snd r1 /\ fst r2 <= i < snd r2).

(** pairwise: no row index lies in two of the half-open ranges [a,b).
    A range with a >= b is empty and overlaps nothing. *)
Fixpoint disjoint_ranges (l : list (nat * nat)) : Prop :=
  match l with
  | [] => True
  | r :: t => Forall (no_overlap r) t /\ disjoint_ranges t
  end.

Fixpoint nondecr (lo : nat) (cpts : list nat) : Prop :=
  match cpts with
  | [] => True
  | c :: t => lo <= c /\ nondecr c t
  end.

Lemma consecutive_length : forall cpts prev n,
  length (consecutive prev cpts n) = S (length cpts).
Proof.
  induction cpts as [|c t IH]; intros prev n; simpl.
  - reflexivity.
  - rewrite IH. reflexivity.
Qed.

Lemma consecutive_nth : forall cpts prev n k,
  k <= length cpts ->
  nth_error (consecutive prev cpts n) k = Some (nth k (prev :: cpts) 0, nth k (cpts ++ [n]) 0).
Proof.
  induction cpts as [|c t IH]; intros prev n [|k] Hk; cbn [consecutive nth_error];
    try reflexivity; [cbn in Hk; lia | apply IH; cbn in Hk; lia].
Qed.

Lemma consecutive_adjacent : forall cpts prev n k s1 e1 s2 e2,
  nth_error (consecutive prev cpts n) k = Some (s1, e1) ->
  nth_error (consecutive prev cpts n) (S k) = Some (s2, e2) ->
  e1 = s2.
Proof.
  intros cpts prev n k s1 e1 s2 e2 Ha Hb.
  assert (Hk : S k <= length cpts).
  { apply Nat.lt_succ_r. rewrite <- consecutive_length with (prev := prev) (n := n).
    apply nth_error_Some. rewrite Hb. discriminate. }
  rewrite consecutive_nth in Ha, Hb by lia. inversion Ha. inversion Hb.
  cbn [nth]. apply app_nth1. exact Hk.
Qed.

Lemma consecutive_starts : forall cpts prev n r,
  nondecr prev cpts -> In r (consecutive prev cpts n) -> prev <= fst r.
Proof.
  induction cpts as [|c t IH]; intros prev n r Hnd Hin; simpl in *.
  - destruct Hin as [Heq | []]. subst r. simpl. lia.
  - destruct Hnd as [Hle Hnd]. destruct Hin as [Heq | Hin].
    + subst r. simpl. lia.
    + specialize (IH c n r Hnd Hin). lia.
Qed.

Lemma consecutive_disjoint_gen : forall cpts prev n,
  nondecr prev cpts -> disjoint_ranges (consecutive prev cpts n).
Proof.
  induction cpts as [|c t IH]; intros prev n Hnd; simpl in *.
  - split; [constructor | exact I].
  - destruct Hnd as [Hle Hnd]. split.
    + apply Forall_forall. intros r Hr i [H1 H2]. simpl in H1.
      pose proof (consecutive_starts t c n r Hnd Hr) as Hs. lia.
    + apply IH. exact Hnd.
Qed.

Theorem consecutive_disjoint : forall cpts n,
  nondecr 0 cpts -> disjoint_ranges (consecutive 0 cpts n).
Proof. intros cpts n Hnd. apply consecutive_disjoint_gen. exact Hnd. Qed.

Lemma consecutive_cover_gen : forall cpts prev n i,
  prev <= i < n ->
  exists k a b, nth_error (consecutive prev cpts n) k = Some (a, b) /\ a <= i < b.
Proof.
  induction cpts as [|c t IH]; intros prev n i Hi; simpl.
  - exists 0, prev, n. split; [reflexivity | exact Hi].
  - destruct (lt_dec i c) as [Hlt | Hge].
    + exists 0, prev, c. split; [reflexivity | lia].
    + destruct (IH c n i) as [k [a [b [Hk Hab]]]]; [lia|].
      exists (S k), a, b. split; [exact Hk | exact Hab].
Qed.

(** no sortedness is needed for the cover *)
Theorem consecutive_cover : forall cpts n i,
  i < n ->
  exists k a b, nth_error (consecutive 0 cpts n) k = Some (a, b) /\ a <= i < b.
Proof. intros cpts n i Hi. apply consecutive_cover_gen. lia. Qed.

(** * Results guarded by a boolean test *)

Lemma guarded_ok_iff : forall (A : Type) (b : bool) (x : A),
  (exists out, (if b then Ok x else Err) = Ok out) <-> b = true.
Proof.
  intros A [] x.
  - split; [reflexivity | intros _; eexists; reflexivity].
  - split; [intros [out H]; discriminate | discriminate].
Qed.

Lemma guarded_inv : forall (A : Type) (b : bool) (x out : A),
  (if b then Ok x else Err) = Ok out -> b = true /\ out = x.
Proof. intros A [] x out H; inversion H. split; reflexivity. Qed.

Lemma guarded_err : forall (A : Type) (b : bool) (x : A),
  (b = true -> False) -> (if b then Ok x else Err) = Err.
Proof. intros A [] x H; [destruct (H eq_refl) | reflexivity]. Qed.

Section GenerateProofs.
Variable num : Type.
Variable affine : num -> num -> num -> num.
Variable add : num -> num -> num.

(** * Shape of the row operations *)

Lemma apply_row_length : forall mu va d row,
  length (apply_row num affine mu va d row) = length row.
Proof.
  intros mu va d row. unfold apply_row. apply map_combine_seq_length.
Qed.

Lemma apply_seg_length : forall x a b mu va d,
  length (apply_seg num affine x a b mu va d) = length x.
Proof.
  intros x a b mu va d. unfold apply_seg. apply map_combine_seq_length.
Qed.

Lemma apply_all_length : forall segs x d,
  length (apply_all num affine x segs d) = length x.
Proof.
  induction segs as [|[[[a b] mu] va] t IH]; intros x d; simpl.
  - reflexivity.
  - rewrite IH. apply apply_seg_length.
Qed.

(** * Placement by the row operations *)

Theorem apply_seg_nth : forall x a b mu va d i,
  i < length x ->
  nth i (apply_seg num affine x a b mu va d) [] =
  if (a <=? i) && (i <? b) then apply_row num affine mu va d (nth i x []) else nth i x [].
Proof.
  intros x a b mu va d i Hi. unfold apply_seg.
  rewrite nth_map_combine_seq with (dA := @nil num) by exact Hi. reflexivity.
Qed.

Lemma apply_seg_nth_out : forall x a b mu va d i,
  ~ a <= i < b ->
  nth i (apply_seg num affine x a b mu va d) [] = nth i x [].
Proof.
  intros x a b mu va d i Hout.
  destruct (lt_dec i (length x)) as [Hi | Hi].
  - rewrite apply_seg_nth, range_test_false by assumption. reflexivity.
  - rewrite !nth_overflow; [reflexivity | lia | rewrite apply_seg_length; lia].
Qed.

Lemma apply_seg_nth_in : forall x a b mu va d i,
  i < length x -> a <= i < b ->
  nth i (apply_seg num affine x a b mu va d) [] = apply_row num affine mu va d (nth i x []).
Proof.
  intros x a b mu va d i Hi Hab. rewrite apply_seg_nth by exact Hi.
  rewrite (proj2 (range_test_iff a b i) Hab). reflexivity.
Qed.

Lemma apply_seg_row_length : forall x a b mu va d i,
  length (nth i (apply_seg num affine x a b mu va d) []) = length (nth i x []).
Proof.
  intros x a b mu va d i.
  destruct (lt_dec i (length x)) as [Hi | Hi].
  - rewrite apply_seg_nth by exact Hi.
    destruct ((a <=? i) && (i <? b)); [apply apply_row_length | reflexivity].
  - rewrite !nth_overflow; [reflexivity | lia | rewrite apply_seg_length; lia].
Qed.

Theorem apply_all_row_length : forall segs x d i,
  length (nth i (apply_all num affine x segs d) []) = length (nth i x []).
Proof.
  induction segs as [|[[[a b] mu] va] t IH]; intros x d i; simpl.
  - reflexivity.
  - rewrite IH. apply apply_seg_row_length.
Qed.

Lemma bc_nth : forall (v : list num) (d : num) (j : nat),
  j < length v -> bc num v d j = nth j v d.
Proof.
  intros v d j Hj. destruct v as [|x [|y t]]; simpl in *.
  - lia.
  - destruct j as [|j]; [reflexivity | lia].
  - reflexivity.
Qed.

(** any defaults [d'], [d''] may be used on the two sides *)
Theorem apply_row_nth : forall mu va d row j d' d'',
  j < length row ->
  nth j (apply_row num affine mu va d row) d' =
  affine (bc num mu d j) (bc num va d j) (nth j row d'').
Proof.
  intros mu va d row j d' d'' Hj. unfold apply_row.
  rewrite nth_map_combine_seq with (dA := d'') by exact Hj. reflexivity.
Qed.

Definition seg_iv (s : seg num) : nat * nat := (fst (fst (fst s)), snd (fst (fst s))).

Definition disjoint_segs (segs : list (seg num)) : Prop :=
  disjoint_ranges (map seg_iv segs).

Lemma apply_all_untouched : forall segs x d i,
  (forall a b mu va, In (a, b, mu, va) segs -> ~ a <= i < b) ->
  nth i (apply_all num affine x segs d) [] = nth i x [].
Proof.
  induction segs as [|[[[a b] mu] va] t IH]; intros x d i H; simpl.
  - reflexivity.
  - rewrite IH.
    + apply apply_seg_nth_out. apply (H a b mu va). left. reflexivity.
    + intros a' b' mu' va' Hin. apply (H a' b' mu' va'). right. exact Hin.
Qed.

Lemma apply_all_hit : forall segs x d i a b mu va,
  disjoint_segs segs -> i < length x -> In (a, b, mu, va) segs -> a <= i < b ->
  nth i (apply_all num affine x segs d) [] = apply_row num affine mu va d (nth i x []).
Proof.
  unfold disjoint_segs.
  induction segs as [|[[[a0 b0] mu0] va0] t IH]; intros x d i a b mu va Hdis Hi Hin Hab.
  - contradiction.
  - simpl in Hdis. destruct Hdis as [Hfa Hdt]. rewrite Forall_forall in Hfa.
    simpl. destruct Hin as [Heq | Hin].
    + inversion Heq; subst a0 b0 mu0 va0. rewrite apply_all_untouched.
      * apply apply_seg_nth_in; assumption.
      * intros a' b' mu' va' Hin' Hab'.
        apply (Hfa (seg_iv (a', b', mu', va')) (in_map seg_iv _ _ Hin') i).
        unfold seg_iv; simpl. lia.
    + rewrite (IH _ d i a b mu va Hdt); try assumption.
      * rewrite apply_seg_nth_out; [reflexivity|].
        intros Hab0.
        apply (Hfa (seg_iv (a, b, mu, va)) (in_map seg_iv _ _ Hin) i).
        unfold seg_iv; simpl. lia.
      * rewrite apply_seg_length. exact Hi.
Qed.

Theorem apply_all_disjoint : forall segs x d i,
  disjoint_segs segs -> i < length x ->
  (forall a b mu va, In (a, b, mu, va) segs -> a <= i < b ->
     nth i (apply_all num affine x segs d) [] = apply_row num affine mu va d (nth i x []))
  /\
  ((forall a b mu va, In (a, b, mu, va) segs -> ~ a <= i < b) ->
     nth i (apply_all num affine x segs d) [] = nth i x []).
Proof.
  intros segs x d i Hdis Hi. split.
  - intros a b mu va Hin Hab. apply (apply_all_hit segs x d i a b mu va); assumption.
  - intros Hout. apply apply_all_untouched. exact Hout.
Qed.

(** ** zip4 *)

Lemma zip4_iv : forall ivs ms vs,
  length ms = length ivs -> length vs = length ivs ->
  map seg_iv (zip4 num ivs ms vs) = ivs.
Proof.
  induction ivs as [|[a b] ti IH]; intros ms vs Hm Hv; simpl.
  - reflexivity.
  - destruct ms as [|m tm]; [discriminate|]. destruct vs as [|v tv]; [discriminate|].
    simpl in *. rewrite IH by lia. reflexivity.
Qed.

Lemma zip4_in : forall ivs ms vs k a b,
  length ms = length ivs -> length vs = length ivs ->
  nth_error ivs k = Some (a, b) ->
  In (a, b, nth k ms [], nth k vs []) (zip4 num ivs ms vs).
Proof.
  induction ivs as [|[a0 b0] ti IH]; intros ms vs k a b Hm Hv Hk.
  - destruct k; discriminate.
  - destruct ms as [|m tm]; [discriminate|]. destruct vs as [|v tv]; [discriminate|].
    simpl in Hm, Hv. destruct k as [|k]; simpl in *.
    + inversion Hk; subst. left. reflexivity.
    + right. apply IH; try lia. exact Hk.
Qed.

Lemma zip4_in_inv : forall ivs ms vs a b mu va,
  In (a, b, mu, va) (zip4 num ivs ms vs) -> In (a, b) ivs.
Proof.
  induction ivs as [|[a0 b0] ti IH]; intros ms vs a b mu va Hin; simpl in *.
  - contradiction.
  - destruct ms as [|m tm]; [contradiction|]. destruct vs as [|v tv]; [contradiction|].
    destruct Hin as [Heq | Hin].
    + inversion Heq; subst. left. reflexivity.
    + right. eapply IH. exact Hin.
Qed.

(** * Validation: boolean characterisation of [changing] / [anomalous] *)

Definition changing_valid (n : nat) (neg : bool) (cpts : list nat)
    (means vars : list (list num)) : bool :=
  let k := S (length cpts) in
  let ms := recycle means k in
  let vs := recycle vars k in
  (length ms =? k) && (length vs =? k)
  && negb (existsb (fun c => n - 1 <? c) cpts)
  && negb neg
  && forallb (vec_ok num (length (hd [] ms))) ms
  && forallb (vec_ok num (length (hd [] ms))) vs.

Theorem changing_eq : forall n neg cpts means vars Zm d,
  changing num affine n neg cpts means vars Zm d =
  if changing_valid n neg cpts means vars
  then Ok (apply_all num affine Zm
             (zip4 num (consecutive 0 cpts n)
                   (recycle means (S (length cpts))) (recycle vars (S (length cpts)))) d)
  else Err.
Proof.
  intros n neg cpts means vars Zm d. unfold changing, changing_valid. cbv zeta.
  destruct (length (recycle means (S (length cpts))) =? S (length cpts)); [|reflexivity].
  destruct (length (recycle vars (S (length cpts))) =? S (length cpts)); [|reflexivity].
  destruct (existsb (fun c => n - 1 <? c) cpts); [reflexivity|].
  destruct neg; [reflexivity|].
  destruct (forallb _ (recycle means (S (length cpts)))); [|reflexivity].
  destruct (forallb _ (recycle vars (S (length cpts)))); reflexivity.
Qed.

Lemma vec_ok_spec : forall p v, vec_ok num p v = true <-> (length v = 1 \/ length v = p).
Proof.
  intros p v. unfold vec_ok. rewrite orb_true_iff, !Nat.eqb_eq. reflexivity.
Qed.

Lemma vecs_ok_spec : forall p l,
  forallb (vec_ok num p) l = true <-> (forall v, In v l -> length v = 1 \/ length v = p).
Proof.
  intros p l. rewrite forallb_forall.
  split; intros H v Hv; apply vec_ok_spec, H, Hv.
Qed.

Theorem changing_valid_spec : forall n neg cpts means vars,
  changing_valid n neg cpts means vars = true <->
  (length (recycle means (S (length cpts))) = S (length cpts)
   /\ length (recycle vars (S (length cpts))) = S (length cpts)
   /\ (forall c, In c cpts -> c <= n - 1)
   /\ neg = false
   /\ (forall v, In v (recycle means (S (length cpts))) ->
         length v = 1 \/ length v = length (hd [] (recycle means (S (length cpts)))))
   /\ (forall v, In v (recycle vars (S (length cpts))) ->
         length v = 1 \/ length v = length (hd [] (recycle means (S (length cpts)))))).
Proof.
  intros n neg cpts means vars. unfold changing_valid. cbv zeta.
  rewrite <- !andb_assoc.
  repeat apply andb_prop_iff;
    [ apply Nat.eqb_eq | apply Nat.eqb_eq
    | apply (negb_existsb_iff _ _ (fun c => c <= n - 1)); intros c; apply Nat.ltb_ge
    | apply negb_true_iff | apply vecs_ok_spec | apply vecs_ok_spec ].
Qed.

Theorem changing_ok_iff : forall n neg cpts means vars Zm d,
  (exists out, changing num affine n neg cpts means vars Zm d = Ok out) <->
  changing_valid n neg cpts means vars = true.
Proof.
  intros n neg cpts means vars Zm d. rewrite changing_eq. apply guarded_ok_iff.
Qed.

Theorem changing_err_count : forall n neg cpts means vars Zm d,
  length (recycle means (S (length cpts))) <> S (length cpts)
  \/ length (recycle vars (S (length cpts))) <> S (length cpts) ->
  changing num affine n neg cpts means vars Zm d = Err.
Proof.
  intros n neg cpts means vars Zm d H. rewrite changing_eq. apply guarded_err. intros E.
  apply changing_valid_spec in E. destruct E as [H1 [H2 _]]. destruct H; contradiction.
Qed.

Theorem changing_err_range : forall n neg cpts means vars Zm d,
  (exists c, In c cpts /\ n - 1 < c) ->
  changing num affine n neg cpts means vars Zm d = Err.
Proof.
  intros n neg cpts means vars Zm d [c [Hc Hlt]]. rewrite changing_eq. apply guarded_err. intros E.
  apply changing_valid_spec in E. destruct E as [_ [_ [H3 _]]].
  apply H3 in Hc. lia.
Qed.

Theorem changing_err_neg : forall n cpts means vars Zm d,
  changing num affine n true cpts means vars Zm d = Err.
Proof.
  intros n cpts means vars Zm d. rewrite changing_eq. apply guarded_err. intros E.
  apply changing_valid_spec in E. destruct E as [_ [_ [_ [H4 _]]]]. discriminate.
Qed.

Theorem changing_err_broadcast : forall n neg cpts means vars Zm d,
  (exists v, (In v (recycle means (S (length cpts))) \/ In v (recycle vars (S (length cpts))))
             /\ length v <> 1
             /\ length v <> length (hd [] (recycle means (S (length cpts))))) ->
  changing num affine n neg cpts means vars Zm d = Err.
Proof.
  intros n neg cpts means vars Zm d [v [Hin [Hv1 Hvp]]]. rewrite changing_eq. apply guarded_err. intros E.
  apply changing_valid_spec in E. destruct E as [_ [_ [_ [_ [H5 H6]]]]].
  destruct Hin as [Hin | Hin]; [apply H5 in Hin | apply H6 in Hin]; lia.
Qed.

Definition anomalous_valid (n : nat) (bad_shape neg : bool) (anoms : list (nat * nat))
    (means vars : list (list num)) : bool :=
  let k := length anoms in
  let ms := recycle means k in
  let vs := recycle vars k in
  (length ms =? k) && (length vs =? k)
  && negb bad_shape
  && negb (existsb (fun se => snd se <=? fst se) anoms)
  && negb (existsb (fun se => n <? snd se) anoms)
  && negb neg
  && forallb (vec_ok num (length (hd [] ms))) ms
  && forallb (vec_ok num (length (hd [] ms))) vs.

Theorem anomalous_eq : forall n bad_shape neg anoms means vars Zm d,
  anomalous num affine n bad_shape neg anoms means vars Zm d =
  if anomalous_valid n bad_shape neg anoms means vars
  then Ok (apply_all num affine Zm
             (zip4 num anoms (recycle means (length anoms)) (recycle vars (length anoms))) d)
  else Err.
Proof.
  intros n bad_shape neg anoms means vars Zm d. unfold anomalous, anomalous_valid. cbv zeta.
  destruct (length (recycle means (length anoms)) =? length anoms); [|reflexivity].
  destruct (length (recycle vars (length anoms)) =? length anoms); [|reflexivity].
  destruct bad_shape; [reflexivity|].
  destruct (existsb (fun se => snd se <=? fst se) anoms); [reflexivity|].
  destruct (existsb (fun se => n <? snd se) anoms); [reflexivity|].
  destruct neg; [reflexivity|].
  destruct (forallb _ (recycle means (length anoms))); [|reflexivity].
  destruct (forallb _ (recycle vars (length anoms))); reflexivity.
Qed.

Theorem anomalous_valid_spec : forall n bad_shape neg anoms means vars,
  anomalous_valid n bad_shape neg anoms means vars = true <->
  (length (recycle means (length anoms)) = length anoms
   /\ length (recycle vars (length anoms)) = length anoms
   /\ bad_shape = false
   /\ (forall se, In se anoms -> fst se < snd se)
   /\ (forall se, In se anoms -> snd se <= n)
   /\ neg = false
   /\ (forall v, In v (recycle means (length anoms)) ->
         length v = 1 \/ length v = length (hd [] (recycle means (length anoms))))
   /\ (forall v, In v (recycle vars (length anoms)) ->
         length v = 1 \/ length v = length (hd [] (recycle means (length anoms))))).
Proof.
  intros n bad_shape neg anoms means vars. unfold anomalous_valid. cbv zeta.
  rewrite <- !andb_assoc.
  repeat apply andb_prop_iff;
    [ apply Nat.eqb_eq | apply Nat.eqb_eq | apply negb_true_iff
    | apply (negb_existsb_iff _ _ (fun se => fst se < snd se)); intros se; apply Nat.leb_gt
    | apply (negb_existsb_iff _ _ (fun se => snd se <= n)); intros se; apply Nat.ltb_ge
    | apply negb_true_iff | apply vecs_ok_spec | apply vecs_ok_spec ].
Qed.

Theorem anomalous_ok_iff : forall n bad_shape neg anoms means vars Zm d,
  (exists out, anomalous num affine n bad_shape neg anoms means vars Zm d = Ok out) <->
  anomalous_valid n bad_shape neg anoms means vars = true.
Proof.
  intros n bad_shape neg anoms means vars Zm d. rewrite anomalous_eq. apply guarded_ok_iff.
Qed.

Theorem anomalous_err_count : forall n bad_shape neg anoms means vars Zm d,
  length (recycle means (length anoms)) <> length anoms
  \/ length (recycle vars (length anoms)) <> length anoms ->
  anomalous num affine n bad_shape neg anoms means vars Zm d = Err.
Proof.
  intros n bad_shape neg anoms means vars Zm d H. rewrite anomalous_eq. apply guarded_err. intros E.
  apply anomalous_valid_spec in E. destruct E as [H1 [H2 _]]. destruct H; contradiction.
Qed.

Theorem anomalous_err_shape : forall n neg anoms means vars Zm d,
  anomalous num affine n true neg anoms means vars Zm d = Err.
Proof.
  intros n neg anoms means vars Zm d. rewrite anomalous_eq. apply guarded_err. intros E.
  apply anomalous_valid_spec in E. destruct E as [_ [_ [H3 _]]]. discriminate.
Qed.

Theorem anomalous_err_empty : forall n bad_shape neg anoms means vars Zm d,
  (exists se, In se anoms /\ snd se <= fst se) ->
  anomalous num affine n bad_shape neg anoms means vars Zm d = Err.
Proof.
  intros n bad_shape neg anoms means vars Zm d [se [Hse Hle]]. rewrite anomalous_eq.
  apply guarded_err. intros E. apply anomalous_valid_spec in E. destruct E as [_ [_ [_ [H4 _]]]].
  apply H4 in Hse. lia.
Qed.

Theorem anomalous_err_range : forall n bad_shape neg anoms means vars Zm d,
  (exists se, In se anoms /\ n < snd se) ->
  anomalous num affine n bad_shape neg anoms means vars Zm d = Err.
Proof.
  intros n bad_shape neg anoms means vars Zm d [se [Hse Hlt]]. rewrite anomalous_eq.
  apply guarded_err. intros E. apply anomalous_valid_spec in E. destruct E as [_ [_ [_ [_ [H5 _]]]]].
  apply H5 in Hse. lia.
Qed.

Theorem anomalous_err_neg : forall n bad_shape anoms means vars Zm d,
  anomalous num affine n bad_shape true anoms means vars Zm d = Err.
Proof.
  intros n bad_shape anoms means vars Zm d. rewrite anomalous_eq. apply guarded_err. intros E.
  apply anomalous_valid_spec in E. destruct E as [_ [_ [_ [_ [_ [H6 _]]]]]]. discriminate.
Qed.

Theorem anomalous_err_broadcast : forall n bad_shape neg anoms means vars Zm d,
  (exists v, (In v (recycle means (length anoms)) \/ In v (recycle vars (length anoms)))
             /\ length v <> 1
             /\ length v <> length (hd [] (recycle means (length anoms)))) ->
  anomalous num affine n bad_shape neg anoms means vars Zm d = Err.
Proof.
  intros n bad_shape neg anoms means vars Zm d [v [Hin [Hv1 Hvp]]].
  rewrite anomalous_eq. apply guarded_err. intros E.
  apply anomalous_valid_spec in E. destruct E as [_ [_ [_ [_ [_ [_ [H7 H8]]]]]]].
  destruct Hin as [Hin | Hin]; [apply H7 in Hin | apply H8 in Hin]; lia.
Qed.

(** * Shape of the generators *)

Lemma apply_all_shape : forall segs x d,
  length (apply_all num affine x segs d) = length x /\
  forall i, length (nth i (apply_all num affine x segs d) []) = length (nth i x []).
Proof.
  intros segs x d. split; [apply apply_all_length | intros i; apply apply_all_row_length].
Qed.

Theorem changing_shape : forall n neg cpts means vars Zm d out,
  changing num affine n neg cpts means vars Zm d = Ok out ->
  length out = length Zm /\
  forall i, length (nth i out []) = length (nth i Zm []).
Proof.
  intros n neg cpts means vars Zm d out H. rewrite changing_eq in H.
  apply guarded_inv in H as [_ ->]. apply apply_all_shape.
Qed.

Theorem anomalous_shape : forall n bad_shape neg anoms means vars Zm d out,
  anomalous num affine n bad_shape neg anoms means vars Zm d = Ok out ->
  length out = length Zm /\
  forall i, length (nth i out []) = length (nth i Zm []).
Proof.
  intros n bad_shape neg anoms means vars Zm d out H. rewrite anomalous_eq in H.
  apply guarded_inv in H as [_ ->]. apply apply_all_shape.
Qed.

Theorem alternating_shape : forall nseg seglen p n_aff mean var zero one Zm d out,
  alternating num affine nseg seglen p n_aff mean var zero one Zm d = Ok out ->
  length out = length Zm /\
  forall i, length (nth i out []) = length (nth i Zm []).
Proof.
  intros nseg seglen p n_aff mean var zero one Zm d out H. unfold alternating in H.
  eapply changing_shape. exact H.
Qed.

(** * Placement for [changing] *)

(** rows inside the k-th of pairwise disjoint ranges get the k-th parameters *)
Lemma zip4_placement : forall ivs ms vs Zm d i k a b,
  length ms = length ivs -> length vs = length ivs -> disjoint_ranges ivs ->
  i < length Zm -> nth_error ivs k = Some (a, b) -> a <= i < b ->
  nth i (apply_all num affine Zm (zip4 num ivs ms vs) d) [] =
  apply_row num affine (nth k ms []) (nth k vs []) d (nth i Zm []).
Proof.
  intros ivs ms vs Zm d i k a b Hm Hv Hdis Hi Hk Hab.
  apply apply_all_hit with (a := a) (b := b); try assumption.
  - unfold disjoint_segs. rewrite zip4_iv by assumption. exact Hdis.
  - apply zip4_in; assumption.
Qed.

Theorem changing_placement : forall n neg cpts means vars Zm d out,
  changing num affine n neg cpts means vars Zm d = Ok out ->
  nondecr 0 cpts ->
  length Zm = n ->
  forall i k a b,
    i < n ->
    nth_error (consecutive 0 cpts n) k = Some (a, b) ->
    a <= i < b ->
    nth i out [] =
    apply_row num affine
      (nth k (recycle means (S (length cpts))) [])
      (nth k (recycle vars (S (length cpts))) []) d (nth i Zm []).
Proof.
  intros n neg cpts means vars Zm d out Hok Hnd Hlen i k a b Hi Hk Hab.
  rewrite changing_eq in Hok. apply guarded_inv in Hok as [Hval ->].
  apply changing_valid_spec in Hval. destruct Hval as [Hm [Hv _]].
  pose proof (consecutive_length cpts 0 n) as Hcl.
  apply zip4_placement with (a := a) (b := b); try assumption; try lia.
  apply consecutive_disjoint. exact Hnd.
Qed.

(** every row is covered, hence determined *)
Corollary changing_placement_total : forall n neg cpts means vars Zm d out,
  changing num affine n neg cpts means vars Zm d = Ok out ->
  nondecr 0 cpts ->
  length Zm = n ->
  forall i, i < n ->
    exists k a b,
      nth_error (consecutive 0 cpts n) k = Some (a, b) /\ a <= i < b /\
      nth i out [] =
      apply_row num affine
        (nth k (recycle means (S (length cpts))) [])
        (nth k (recycle vars (S (length cpts))) []) d (nth i Zm []).
Proof.
  intros n neg cpts means vars Zm d out Hok Hnd Hlen i Hi.
  destruct (consecutive_cover cpts n i Hi) as [k [a [b [Hk Hab]]]].
  exists k, a, b. split; [exact Hk | split; [exact Hab|]].
  eapply changing_placement; eassumption.
Qed.

(** * Placement for [anomalous] *)

Theorem anomalous_placement : forall n bad_shape neg anoms means vars Zm d out,
  anomalous num affine n bad_shape neg anoms means vars Zm d = Ok out ->
  disjoint_ranges anoms ->
  length Zm = n ->
  (forall i k a b,
     nth_error anoms k = Some (a, b) ->
     a <= i < b ->
     nth i out [] =
     apply_row num affine
       (nth k (recycle means (length anoms)) [])
       (nth k (recycle vars (length anoms)) []) d (nth i Zm []))
  /\
  (forall i,
     (forall a b, In (a, b) anoms -> ~ a <= i < b) ->
     nth i out [] = nth i Zm []).
Proof.
  intros n bad_shape neg anoms means vars Zm d out Hok Hdis Hlen.
  rewrite anomalous_eq in Hok. apply guarded_inv in Hok as [Hval ->].
  apply anomalous_valid_spec in Hval. destruct Hval as [Hm [Hv [_ [_ [Hrange _]]]]].
  split.
  - intros i k a b Hk Hab.
    pose proof (Hrange _ (nth_error_In _ _ Hk)) as Hb. cbn [snd] in Hb.
    apply zip4_placement with (a := a) (b := b); try assumption. lia.
  - intros i Hout. apply apply_all_untouched.
    intros a b mu va Hin. apply Hout. eapply zip4_in_inv. exact Hin.
Qed.

(** * [alternating] *)

Definition alt_cpts (nseg seglen : nat) : list nat :=
  map (fun i => seglen * i) (seq 1 (nseg - 1)).

Definition alt_means (nseg p n_aff : nat) (mean zero : num) : list (list num) :=
  map (fun i => if Nat.even i then repeat zero p else alt_vec num p n_aff mean zero)
      (seq 0 nseg).

(** the changepoints handed to [changing] are seglen * i, i = 1 .. nseg - 1 *)
Theorem alternating_cpts : forall nseg seglen p n_aff mean var zero one Zm d,
  alternating num affine nseg seglen p n_aff mean var zero one Zm d =
  changing num affine (seglen * nseg) false (alt_cpts nseg seglen)
    (alt_means nseg p n_aff mean zero) (alt_means nseg p n_aff var one) Zm d
  /\ length (alt_cpts nseg seglen) = nseg - 1
  /\ forall k, k < nseg - 1 -> nth k (alt_cpts nseg seglen) 0 = seglen * S k.
Proof.
  intros nseg seglen p n_aff mean var zero one Zm d. split; [reflexivity|]. split.
  - unfold alt_cpts. rewrite map_length, seq_length. reflexivity.
  - intros k Hk. unfold alt_cpts. rewrite nth_map_seq by exact Hk. reflexivity.
Qed.

Lemma alt_cpts_nondecr_gen : forall s r m lo,
  lo <= s * m -> nondecr lo (map (fun i => s * i) (seq m r)).
Proof.
  intros s r. induction r as [|r IH]; intros m lo Hlo; simpl.
  - exact I.
  - split; [exact Hlo|]. apply IH. nia.
Qed.

Lemma alt_cpts_nondecr : forall nseg seglen, nondecr 0 (alt_cpts nseg seglen).
Proof. intros nseg seglen. unfold alt_cpts. apply alt_cpts_nondecr_gen. lia. Qed.

Lemma consecutive_alt_gen : forall s r m,
  consecutive (s * m) (map (fun i => s * i) (seq (S m) r)) (s * (S m + r)) =
  map (fun q => (s * q, s * S q)) (seq m (S r)).
Proof.
  intros s r. induction r as [|r IH]; intros m.
  - simpl. rewrite Nat.add_0_r. reflexivity.
  - replace (S m + S r) with (S (S m) + r) by lia.
    change (seq (S m) (S r)) with (S m :: seq (S (S m)) r).
    change (seq m (S (S r))) with (m :: seq (S m) (S r)).
    rewrite !map_cons. cbn [consecutive]. rewrite IH. reflexivity.
Qed.

Lemma consecutive_alt : forall s r,
  consecutive 0 (alt_cpts (S r) s) (s * S r) =
  map (fun q => (s * q, s * S q)) (seq 0 (S r)).
Proof.
  intros s r. unfold alt_cpts. replace (S r - 1) with r by lia.
  pose proof (consecutive_alt_gen s r 0) as H. rewrite Nat.mul_0_r in H. exact H.
Qed.

Lemma alt_vec_length : forall p n_aff v neutral,
  n_aff <= p -> length (alt_vec num p n_aff v neutral) = p.
Proof.
  intros p n_aff v neutral H. unfold alt_vec. rewrite app_length, !repeat_length. lia.
Qed.

Lemma alt_vec_nth : forall p n_aff v neutral d j,
  n_aff <= p -> j < p ->
  nth j (alt_vec num p n_aff v neutral) d = if j <? n_aff then v else neutral.
Proof.
  intros p n_aff v neutral d j Hp Hj. unfold alt_vec.
  destruct (j <? n_aff) eqn:E.
  - apply Nat.ltb_lt in E. rewrite app_nth1 by (rewrite repeat_length; exact E).
    apply nth_repeat_lt. exact E.
  - apply Nat.ltb_ge in E. rewrite app_nth2 by (rewrite repeat_length; exact E).
    rewrite repeat_length. apply nth_repeat_lt. lia.
Qed.

Lemma alt_means_length : forall nseg p n_aff v neutral,
  length (alt_means nseg p n_aff v neutral) = nseg.
Proof. intros. unfold alt_means. rewrite map_length, seq_length. reflexivity. Qed.

Lemma alt_means_nth : forall nseg p n_aff v neutral q,
  q < nseg ->
  nth q (alt_means nseg p n_aff v neutral) [] =
  if Nat.even q then repeat neutral p else alt_vec num p n_aff v neutral.
Proof.
  intros nseg p n_aff v neutral q Hq. unfold alt_means.
  rewrite nth_map_seq by exact Hq. reflexivity.
Qed.

Lemma alt_means_bc : forall nseg p n_aff v neutral q d j,
  q < nseg -> n_aff <= p -> j < p ->
  bc num (nth q (alt_means nseg p n_aff v neutral) []) d j =
  if Nat.even q then neutral else if j <? n_aff then v else neutral.
Proof.
  intros nseg p n_aff v neutral q d j Hq Hp Hj. rewrite alt_means_nth by exact Hq.
  destruct (Nat.even q).
  - rewrite bc_nth by (rewrite repeat_length; exact Hj). apply nth_repeat_lt. exact Hj.
  - rewrite bc_nth by (rewrite alt_vec_length by exact Hp; exact Hj).
    apply alt_vec_nth; assumption.
Qed.

Theorem alternating_placement :
  forall nseg seglen p n_aff mean var zero one Zm d out,
  alternating num affine nseg seglen p n_aff mean var zero one Zm d = Ok out ->
  length Zm = seglen * nseg ->
  0 < seglen ->
  n_aff <= p ->
  (forall i, i < length Zm -> length (nth i Zm []) = p) ->
  forall i j d',
    i < seglen * nseg -> j < p ->
    nth j (nth i out []) d' =
    if Nat.even (i / seglen) then affine zero one (nth j (nth i Zm []) d')
    else if j <? n_aff then affine mean var (nth j (nth i Zm []) d')
         else affine zero one (nth j (nth i Zm []) d').
Proof.
  intros nseg seglen p n_aff mean var zero one Zm d out Hok Hlen Hs Hp Hw i j d' Hi Hj.
  destruct nseg as [|r]; [rewrite Nat.mul_0_r in Hi; lia|].
  destruct (alternating_cpts (S r) seglen p n_aff mean var zero one Zm d) as [Heq [Hcl _]].
  rewrite Heq in Hok. clear Heq.
  assert (Hq : i / seglen < S r) by (apply Nat.div_lt_upper_bound; lia).
  assert (Hlo : seglen * (i / seglen) <= i) by (apply Nat.mul_div_le; lia).
  assert (Hhi : i < seglen * S (i / seglen)) by (apply Nat.mul_succ_div_gt; lia).
  assert (HK : S (length (alt_cpts (S r) seglen)) = S r) by (rewrite Hcl; lia).
  rewrite (changing_placement _ _ _ _ _ _ _ _ Hok (alt_cpts_nondecr (S r) seglen) Hlen
             i (i / seglen) (seglen * (i / seglen)) (seglen * S (i / seglen)) Hi).
  - rewrite HK.
    rewrite !recycle_id by apply alt_means_length.
    rewrite apply_row_nth with (d'' := d') by (rewrite Hw by lia; exact Hj).
    rewrite !alt_means_bc by assumption.
    destruct (Nat.even (i / seglen)); [reflexivity|].
    destruct (j <? n_aff); reflexivity.
  - rewrite consecutive_alt. rewrite nth_error_map_seq by exact Hq. reflexivity.
  - lia.
Qed.

(** even segments: the whole row is the neutral transform of the Zm row *)
Corollary alternating_placement_even_row :
  forall nseg seglen p n_aff mean var zero one Zm d out,
  alternating num affine nseg seglen p n_aff mean var zero one Zm d = Ok out ->
  length Zm = seglen * nseg ->
  0 < seglen ->
  n_aff <= p ->
  (forall i, i < length Zm -> length (nth i Zm []) = p) ->
  forall i,
    i < seglen * nseg -> Nat.even (i / seglen) = true ->
    nth i out [] = map (affine zero one) (nth i Zm []).
Proof.
  intros nseg seglen p n_aff mean var zero one Zm d out Hok Hlen Hs Hp Hw i Hi Hev.
  destruct (alternating_shape _ _ _ _ _ _ _ _ _ _ _ Hok) as [_ Hrow].
  assert (Hwi : length (nth i Zm []) = p) by (apply Hw; lia).
  apply nth_ext with (d := d) (d' := affine zero one d).
  - rewrite map_length. apply Hrow.
  - intros j Hj. rewrite Hrow, Hwi in Hj.
    rewrite (alternating_placement _ _ _ _ _ _ _ _ _ _ _ Hok Hlen Hs Hp Hw i j d Hi Hj).
    rewrite Hev. rewrite map_nth. reflexivity.
Qed.

(** * Outliers *)

Lemma add_outliers_length : forall x pos size,
  length (add_outliers num add x pos size) = length x.
Proof.
  intros x pos size. unfold add_outliers. apply map_combine_seq_length.
Qed.

Theorem add_outliers_nth : forall x pos size i,
  i < length x ->
  nth i (add_outliers num add x pos size) [] =
  if existsb (Nat.eqb i) pos then map (fun z => add z size) (nth i x []) else nth i x [].
Proof.
  intros x pos size i Hi. unfold add_outliers.
  rewrite nth_map_combine_seq with (dA := @nil num) by exact Hi. reflexivity.
Qed.

(** in particular: a row is changed iff it is listed, and only once *)
Corollary add_outliers_nth_in : forall x pos size i,
  i < length x -> In i pos ->
  nth i (add_outliers num add x pos size) [] = map (fun z => add z size) (nth i x []).
Proof.
  intros x pos size i Hi Hin. rewrite add_outliers_nth by exact Hi.
  rewrite (proj2 (existsb_eqb_In i pos) Hin). reflexivity.
Qed.

Corollary add_outliers_nth_notin : forall x pos size i,
  ~ In i pos ->
  nth i (add_outliers num add x pos size) [] = nth i x [].
Proof.
  intros x pos size i Hin.
  destruct (lt_dec i (length x)) as [Hi | Hi].
  - rewrite add_outliers_nth by exact Hi.
    rewrite (proj2 (existsb_eqb_not_In i pos) Hin). reflexivity.
  - rewrite !nth_overflow; [reflexivity | lia | rewrite add_outliers_length; lia].
Qed.

End GenerateProofs.

(** * [linspace_int] and [positions_ok] *)

Lemma linspace_int_eq : forall n k,
  linspace_int n k = map (fun i => (i * (n - 1)) / (k - 1)) (seq 0 k).
Proof. intros n k. destruct k as [|[|k]]; reflexivity. Qed.

Lemma linspace_int_length : forall n k, length (linspace_int n k) = k.
Proof. intros n k. rewrite linspace_int_eq, map_length, seq_length. reflexivity. Qed.

Lemma linspace_int_nth : forall n k i,
  i < k -> nth i (linspace_int n k) 0 = (i * (n - 1)) / (k - 1).
Proof.
  intros n k i Hi. rewrite linspace_int_eq. rewrite nth_map_seq by exact Hi. reflexivity.
Qed.

Lemma linspace_int_first : forall n k, 1 <= k -> hd 0 (linspace_int n k) = 0.
Proof.
  intros n k Hk. destruct k as [|[|k]]; [lia | reflexivity |].
  rewrite linspace_int_eq. change (seq 0 (S (S k))) with (0 :: seq 1 (S k)).
  rewrite map_cons. cbn [hd]. rewrite Nat.mul_0_l. apply Nat.div_0_l. lia.
Qed.

Lemma linspace_int_last : forall n k, 2 <= k -> last (linspace_int n k) 0 = n - 1.
Proof.
  intros n k Hk. rewrite last_nth_eq, linspace_int_length, linspace_int_nth by lia.
  rewrite Nat.mul_comm. apply Nat.div_mul. lia.
Qed.

Lemma linspace_int_step_le : forall n k i,
  S i < k -> nth i (linspace_int n k) 0 <= nth (S i) (linspace_int n k) 0.
Proof.
  intros n k i Hi. rewrite !linspace_int_nth by lia.
  apply Nat.div_le_mono; [lia | simpl; lia].
Qed.

Lemma linspace_int_step_lt : forall n k i,
  k <= n -> S i < k -> nth i (linspace_int n k) 0 < nth (S i) (linspace_int n k) 0.
Proof.
  intros n k i Hkn Hi. rewrite !linspace_int_nth by lia.
  assert (Hq : k - 1 <> 0) by lia.
  pose proof (Nat.div_add (i * (n - 1)) 1 (k - 1) Hq) as Hadd.
  assert (Hle : (i * (n - 1) + 1 * (k - 1)) / (k - 1) <= (S i * (n - 1)) / (k - 1)).
  { apply Nat.div_le_mono; [exact Hq | simpl; lia]. }
  lia.
Qed.

(** holds for every n and k: also for k > n (repeated positions), n = 1 and n = 0 *)
Theorem linspace_int_ok_all : forall n k, positions_ok n k (linspace_int n k) = true.
Proof.
  intros n k. unfold positions_ok. rewrite !andb_true_iff. repeat split.
  - apply Nat.eqb_eq. apply linspace_int_length.
  - destruct k as [|k]; [reflexivity|].
    pose proof (linspace_int_first n (S k)) as Hf.
    pose proof (linspace_int_length n (S k)) as Hl.
    destruct (linspace_int n (S k)) as [|a t]; [discriminate|].
    apply Nat.eqb_eq. apply Hf. lia.
  - destruct (k <? 2) eqn:E; [reflexivity|]. apply Nat.ltb_ge in E. simpl.
    apply Nat.eqb_eq. apply linspace_int_last. exact E.
  - apply forallb_forall. intros i Hi. apply in_seq in Hi. apply Nat.leb_le.
    apply linspace_int_step_le. lia.
  - destruct (n <? k) eqn:E; [reflexivity|]. apply Nat.ltb_ge in E. simpl.
    apply forallb_forall. intros i Hi. apply in_seq in Hi. apply Nat.ltb_lt.
    apply linspace_int_step_lt; lia.
  - apply forallb_forall. intros i Hi. apply andb_true_iff. split; apply Nat.leb_le; lia.
Qed.

Theorem linspace_int_ok : forall n k,
  1 <= n -> positions_ok n k (linspace_int n k) = true.
Proof. intros n k _. apply linspace_int_ok_all. Qed.

(** ** consequences of [positions_ok] *)

Lemma strict_steps_NoDup : forall (pos : list nat),
  (forall i, i < length pos - 1 -> nth i pos 0 < nth (S i) pos 0) -> NoDup pos.
Proof.
  intros pos Hstep.
  assert (Hmono : forall i j, i < j -> j < length pos -> nth i pos 0 < nth j pos 0).
  { apply (chain_lt lt (fun i => nth i pos 0) _ Nat.lt_trans). intros i Hi. apply Hstep. lia. }
  apply (NoDup_nth pos 0). intros i j Hi Hj Heq.
  destruct (lt_eq_lt_dec i j) as [[Hlt | He] | Hgt].
  - pose proof (Hmono i j Hlt Hj). lia.
  - exact He.
  - pose proof (Hmono j i Hgt Hi). lia.
Qed.

Lemma positions_ok_spec : forall n k pos,
  positions_ok n k pos = true ->
  length pos = k
  /\ (1 <= k -> hd 0 pos = 0)
  /\ (2 <= k -> last pos 0 = n - 1)
  /\ (forall i, i < k - 1 -> nth i pos 0 <= nth (S i) pos 0)
  /\ (k <= n -> forall i, i < k - 1 -> nth i pos 0 < nth (S i) pos 0)
  /\ (forall i, i < k ->
        nth i pos 0 <= nth i (linspace_int n k) 0 <= nth i pos 0 + 1).
Proof.
  intros n k pos H. unfold positions_ok in H. rewrite !andb_true_iff in H.
  destruct H as [[[[[H1 H2] H3] H4] H5] H6].
  apply Nat.eqb_eq in H1. rewrite forallb_forall in H4. rewrite forallb_forall in H6.
  split; [exact H1|]. split; [|split; [|split; [|split]]].
  - intros Hk. destruct pos as [|a t]; [simpl in H1; lia|]. simpl. apply Nat.eqb_eq. exact H2.
  - intros Hk. apply orb_true_iff in H3. destruct H3 as [H3 | H3].
    + apply Nat.ltb_lt in H3. lia.
    + apply Nat.eqb_eq. exact H3.
  - intros i Hi. apply Nat.leb_le. apply H4. apply in_seq. lia.
  - intros Hkn i Hi. apply orb_true_iff in H5. destruct H5 as [H5 | H5].
    + apply Nat.ltb_lt in H5. lia.
    + rewrite forallb_forall in H5. apply Nat.ltb_lt. apply H5. apply in_seq. lia.
  - intros i Hi. assert (Hin : In i (seq 0 k)) by (apply in_seq; lia).
    apply H6 in Hin. apply andb_true_iff in Hin. destruct Hin as [Ha Hb].
    apply Nat.leb_le in Ha. apply Nat.leb_le in Hb. lia.
Qed.

Theorem positions_ok_consequences : forall n k pos,
  positions_ok n k pos = true ->
  length pos = k
  /\ (1 <= k -> hd 0 pos = 0)
  /\ (2 <= k -> last pos 0 = n - 1)
  /\ (k <= n -> NoDup pos).
Proof.
  intros n k pos H. apply positions_ok_spec in H.
  destruct H as [H1 [H2 [H3 [_ [H5 _]]]]].
  split; [exact H1|]. split; [exact H2|]. split; [exact H3|].
  intros Hkn. apply strict_steps_NoDup. rewrite H1. apply H5. exact Hkn.
Qed.

Lemma positions_ok_bound : forall n k pos,
  positions_ok n k pos = true -> k <= n -> forall x, In x pos -> x < n.
Proof.
  intros n k pos H Hkn x Hx. apply positions_ok_spec in H.
  destruct H as [H1 [H2 [H3 [H4 _]]]].
  destruct (In_nth pos x 0 Hx) as [i [Hi Hnth]]. rewrite H1 in Hi.
  assert (Hle : nth i pos 0 <= nth (k - 1) pos 0).
  { apply (chain_le le (fun i => nth i pos 0) k Nat.le_trans); try lia.
    intros i' Hi'. apply H4. lia. }
  destruct (le_lt_dec 2 k) as [Hk2 | Hk1].
  - specialize (H3 Hk2). rewrite last_nth_eq, H1 in H3. lia.
  - assert (Hi0 : i = 0) by lia. subst i.
    assert (Hh : hd 0 pos = 0) by (apply H2; lia).
    destruct pos as [|a t]; [simpl in H1; lia|]. simpl in Hh, Hnth. lia.
Qed.

(** exactly k row indices are hit when k <= n *)
Theorem positions_ok_count : forall n k pos,
  positions_ok n k pos = true -> k <= n ->
  length (filter (fun i => existsb (Nat.eqb i) pos) (seq 0 n)) = k.
Proof.
  intros n k pos H Hkn.
  pose proof (positions_ok_bound n k pos H Hkn) as Hb.
  destruct (positions_ok_consequences n k pos H) as [Hlen [_ [_ Hnd]]].
  specialize (Hnd Hkn). rewrite <- Hlen.
  apply Permutation_length. apply NoDup_Permutation.
  - apply NoDup_filter. apply seq_NoDup.
  - exact Hnd.
  - intros x. rewrite filter_In, in_seq, existsb_eqb_In. split.
    + intros [_ Hx]. exact Hx.
    + intros Hx. split; [specialize (Hb x Hx); lia | exact Hx].
Qed.

(** the same count phrased on the output of [add_outliers]: the set of row
    indices whose row is replaced by the shifted row has exactly k elements *)
Corollary add_outliers_count : forall (num : Type) (add : num -> num -> num)
    (x : list (list num)) (size : num) (n k : nat) (pos : list nat),
  positions_ok n k pos = true -> k <= n -> length x = n ->
  exists hit : list nat,
    NoDup hit /\ length hit = k /\
    (forall i, In i hit -> i < n /\
       nth i (add_outliers num add x pos size) [] = map (fun z => add z size) (nth i x [])) /\
    (forall i, ~ In i hit -> nth i (add_outliers num add x pos size) [] = nth i x []).
Proof.
  intros num add x size n k pos H Hkn Hx.
  exists (filter (fun i => existsb (Nat.eqb i) pos) (seq 0 n)).
  split; [apply NoDup_filter; apply seq_NoDup|].
  split; [apply positions_ok_count; assumption|]. split.
  - intros i Hi. apply filter_In in Hi. destruct Hi as [Hi He]. apply in_seq in Hi.
    split; [lia|]. rewrite add_outliers_nth by lia. rewrite He. reflexivity.
  - intros i Hi. apply add_outliers_nth_notin. intros Hin. apply Hi.
    apply filter_In. split.
    + apply in_seq. pose proof (positions_ok_bound n k pos H Hkn i Hin). lia.
    + apply existsb_eqb_In. exact Hin.
Qed.

(** strictly increasing / duplicate-free when 2 <= k <= n (indeed whenever k <= n) *)
Theorem linspace_int_strict : forall n k i j,
  k <= n -> i < j -> j < k ->
  nth i (linspace_int n k) 0 < nth j (linspace_int n k) 0.
Proof.
  intros n k i j Hkn Hij Hj.
  apply (chain_lt lt (fun i => nth i (linspace_int n k) 0) k Nat.lt_trans); try assumption.
  intros i' Hi'. apply linspace_int_step_lt; lia.
Qed.

Theorem linspace_int_NoDup : forall n k, k <= n -> NoDup (linspace_int n k).
Proof.
  intros n k Hkn.
  destruct (positions_ok_consequences n k _ (linspace_int_ok_all n k)) as [_ [_ [_ H]]].
  apply H. exact Hkn.
Qed.

(** for k > n the positions necessarily repeat *)
Example linspace_int_repeat : linspace_int 2 3 = [0; 0; 1].
Proof. vm_compute. reflexivity. Qed.

(** * Non-vacuity: closed examples over Z with affine mu v z = mu + v * z *)

Definition zaff (mu v z : Z) : Z := (mu + v * z)%Z.

Definition Zm6 : list (list Z) := [[1; 1]; [1; -1]; [2; 1]; [1; 2]; [5; 6]; [7; 8]]%Z.

(** two columns; second mean of length 1 (broadcast), first variance of length 1,
    second variance per column *)
Example changing_example :
  changing Z zaff 4 false [2] [[1; 2]; [10]]%Z [[1]; [2; 3]]%Z (firstn 4 Zm6) 0%Z
  = Ok [[2; 3]; [2; 1]; [14; 13]; [12; 16]]%Z.
Proof. vm_compute. reflexivity. Qed.

Example changing_example_valid :
  changing_valid Z 4 false [2] [[1; 2]; [10]]%Z [[1]; [2; 3]]%Z = true.
Proof. vm_compute. reflexivity. Qed.

(** p is the length of the FIRST mean: a single broadcast mean [[10]] together with
    per-column variances is rejected (p = 1, the variances have length 2) *)
Example changing_first_mean_fixes_p :
  changing Z zaff 4 false [2] [[10]]%Z [[1; 2]; [3; 4]]%Z (firstn 4 Zm6) 0%Z = Err.
Proof. vm_compute. reflexivity. Qed.

Example anomalous_example :
  anomalous Z zaff 6 false false [(1, 3); (4, 5)] [[100; 200]; [7]]%Z [[2]; [3; 4]]%Z Zm6 0%Z
  = Ok [[1; 1]; [102; 198]; [104; 202]; [1; 2]; [22; 31]; [7; 8]]%Z.
Proof. vm_compute. reflexivity. Qed.

(** the disjointness hypothesis of [anomalous_placement] is needed: on overlapping
    anomalies the transformations compose (row 2 : 100 + (100 + 2) = 202) *)
Example anomalous_overlap_composes :
  anomalous Z zaff 6 false false [(1, 3); (2, 5)] [[100]]%Z [[1]; [1]]%Z Zm6 0%Z
  = Ok [[1; 1]; [101; 99]; [202; 201]; [101; 102]; [105; 106]; [7; 8]]%Z.
Proof. vm_compute. reflexivity. Qed.

(** 3 segments of 2 rows, 2 columns, 1 affected column, mean 5, variance factor 3 *)
Example alternating_example :
  alternating Z zaff 3 2 2 1 5%Z 3%Z 0%Z 1%Z Zm6 0%Z
  = Ok [[1; 1]; [1; -1]; [11; 1]; [8; 2]; [5; 6]; [7; 8]]%Z.
Proof. vm_compute. reflexivity. Qed.

Example add_outliers_example :
  add_outliers Z Z.add (firstn 5 Zm6) (linspace_int 5 3) 10%Z
  = [[11; 11]; [1; -1]; [12; 11]; [1; 2]; [15; 16]]%Z.
Proof. vm_compute. reflexivity. Qed.

(** k > n: position 0 is listed twice but row 0 is shifted once *)
Example add_outliers_once :
  linspace_int 2 3 = [0; 0; 1] /\
  add_outliers Z Z.add (firstn 2 Zm6) (linspace_int 2 3) 10%Z = [[11; 11]; [11; 9]]%Z.
Proof. vm_compute. split; reflexivity. Qed.

(** * Assumptions *)
Print Assumptions changing_placement.
Print Assumptions anomalous_placement.
Print Assumptions alternating_placement.
Print Assumptions apply_all_disjoint.
Print Assumptions add_outliers_nth.
Print Assumptions linspace_int_ok.
Print Assumptions positions_ok_consequences.
Print Assumptions changing_ok_iff.
Print Assumptions anomalous_ok_iff.
Print Assumptions changing_shape.
Print Assumptions anomalous_shape.
Print Assumptions alternating_shape.
Print Assumptions apply_seg_nth.
Print Assumptions apply_row_nth.
Print Assumptions consecutive_disjoint.
Print Assumptions consecutive_cover.
Print Assumptions alternating_cpts.
Print Assumptions positions_ok_count.
Print Assumptions add_outliers_count.
Print Assumptions linspace_int_NoDup.
Print Assumptions changing_err_count.
Print Assumptions changing_err_range.
Print Assumptions changing_err_neg.
Print Assumptions anomalous_err_count.
Print Assumptions anomalous_err_shape.
Print Assumptions anomalous_err_empty.
Print Assumptions anomalous_err_range.
Print Assumptions anomalous_err_neg.
