(** What the two object-state models (Model/Objects.v, Model/Adapters.v) have in common:
    heaps are lists of cells rewritten in place by index, and histories are replayed by
    folding a step function. *)
From Coq Require Import List Arith.
From SK Require Import Proofs.ListFacts.
Import ListNotations.

(** * Lists rewritten cell by cell *)

Section Cells.
  Variables (A : Type) (ok : nat -> A -> A -> Prop) (fresh : A -> Prop).

  (** [l'] is [l] with every cell kept or rewritten within [ok], followed by new cells
      satisfying [fresh]: nothing is removed, nothing changes its index *)
  Definition cells (l l' : list A) : Prop :=
    exists f e,
      l' = imap f l ++ e /\
      (forall i x, nth_error l i = Some x -> f i x = x \/ ok i x (f i x)) /\
      Forall fresh e.

  Lemma cells_imap :
    forall f l,
      (forall i x, nth_error l i = Some x -> f i x = x \/ ok i x (f i x)) -> cells l (imap f l).
  Proof.
    intros f l H. exists f, []. split; [symmetry; apply app_nil_r|]. split; [exact H | constructor].
  Qed.

  Lemma cells_app : forall l e, Forall fresh e -> cells l (l ++ e).
  Proof.
    intros l e He. exists (fun _ x => x), e. split; [rewrite imap_id; reflexivity|].
    split; [intros i x _; left; reflexivity | exact He].
  Qed.

  Lemma cells_same : forall l, cells l l.
  Proof. intros l. pattern l at 2. rewrite <- app_nil_r. apply cells_app. constructor. Qed.

  Lemma cells_set_cell :
    forall l j v, (forall x, nth_error l j = Some x -> ok j x v) -> cells l (set_cell l j v).
  Proof.
    intros l j v Hv. apply cells_imap. intros i x Hn.
    destruct (Nat.eqb_spec i j) as [->|_]; [right; exact (Hv x Hn) | left; reflexivity].
  Qed.

  Lemma cells_length : forall l l', cells l l' -> length l <= length l'.
  Proof.
    intros l l' (f & e & -> & _). rewrite app_length, length_imap. apply Nat.le_add_r.
  Qed.

  Lemma cells_old :
    forall l l' i x,
      cells l l' -> nth_error l i = Some x ->
      exists x', nth_error l' i = Some x' /\ (x' = x \/ ok i x x').
  Proof.
    intros l l' i x (f & e & -> & Hf & _) Hn. exists (f i x). split; [|exact (Hf i x Hn)].
    rewrite nth_error_app1 by (rewrite length_imap; exact (nth_error_some_lt _ _ _ _ Hn)).
    rewrite nth_error_imap, Hn. reflexivity.
  Qed.

  Lemma cells_inv :
    forall l l' i x',
      cells l l' -> nth_error l' i = Some x' ->
      (exists x, nth_error l i = Some x /\ (x' = x \/ ok i x x')) \/
      (nth_error l i = None /\ fresh x').
  Proof.
    intros l l' i x' Hc Hn'. destruct (nth_error l i) as [x|] eqn:Hn.
    - left. exists x. destruct (cells_old l l' i x Hc Hn) as (x2 & Hn2 & H2).
      rewrite Hn' in Hn2. injection Hn2 as <-. split; [reflexivity | exact H2].
    - right. split; [reflexivity|]. destruct Hc as (f & e & -> & _ & He).
      apply nth_error_None in Hn.
      rewrite nth_error_app2 in Hn' by (rewrite length_imap; exact Hn).
      rewrite Forall_forall in He. exact (He x' (nth_error_In _ _ Hn')).
  Qed.
End Cells.

(** * Replaying a history *)

Section Run.
  Variables (St Op Out : Type) (step : St -> Op -> St * Out).

  (** [Objects.run] is [replay Objects.step], [Adapters.arun] is [replay Adapters.astep] *)
  Fixpoint replay (h : St) (ops : list Op) : St * list Out :=
    match ops with
    | [] => (h, [])
    | o :: t => let '(h1, r) := step h o in let '(h2, rs) := replay h1 t in (h2, r :: rs)
    end.

  Lemma replay_cons_fst :
    forall h o t, fst (replay h (o :: t)) = fst (replay (fst (step h o)) t).
  Proof.
    intros h o t. cbn [replay]. destruct (step h o) as [h1 r]. cbn [fst].
    destruct (replay h1 t) as [h2 rs]. reflexivity.
  Qed.

  Lemma replay_cons_snd :
    forall h o t, snd (replay h (o :: t)) = snd (step h o) :: snd (replay (fst (step h o)) t).
  Proof.
    intros h o t. cbn [replay]. destruct (step h o) as [h1 r]. cbn [fst snd].
    destruct (replay h1 t) as [h2 rs]. reflexivity.
  Qed.

  Lemma replay_app_fst :
    forall a b h, fst (replay h (a ++ b)) = fst (replay (fst (replay h a)) b).
  Proof.
    induction a as [|o a IH]; intros b h.
    - reflexivity.
    - rewrite <- app_comm_cons. rewrite !replay_cons_fst. apply IH.
  Qed.

  Lemma replay_snoc_fst :
    forall ops o h, fst (replay h (ops ++ [o])) = fst (step (fst (replay h ops)) o).
  Proof. intros ops o h. rewrite replay_app_fst. rewrite replay_cons_fst. reflexivity. Qed.

  Lemma replay_invariant :
    forall P : St -> Prop,
      (forall h o, P h -> P (fst (step h o))) ->
      forall ops h, P h -> P (fst (replay h ops)).
  Proof.
    intros P Hstep. induction ops as [|o ops IH]; intros h HP.
    - exact HP.
    - rewrite replay_cons_fst. apply IH. apply Hstep. exact HP.
  Qed.

  Variable init : St.

  Definition reachable_from (h : St) : Prop := exists ops, fst (replay init ops) = h.

  Lemma reachable_from_init : reachable_from init.
  Proof. exists []. reflexivity. Qed.

  Lemma reachable_from_step : forall h o, reachable_from h -> reachable_from (fst (step h o)).
  Proof.
    intros h o [ops Hops]. exists (ops ++ [o]). rewrite replay_snoc_fst, Hops. reflexivity.
  Qed.

  Lemma reachable_from_run : forall ops h, reachable_from h -> reachable_from (fst (replay h ops)).
  Proof. exact (replay_invariant reachable_from reachable_from_step). Qed.

  Lemma reachable_from_ind :
    forall P : St -> Prop,
      P init ->
      (forall h o, reachable_from h -> P h -> P (fst (step h o))) ->
      forall h, reachable_from h -> P h.
  Proof.
    intros P Hinit Hstep h [ops Hops]. subst h.
    refine (proj2 (replay_invariant (fun h => reachable_from h /\ P h) _ ops init
                     (conj reachable_from_init Hinit))).
    intros h o [Hr HP]. split; [apply reachable_from_step; exact Hr | apply Hstep; assumption].
  Qed.
End Run.
