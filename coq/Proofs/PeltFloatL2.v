(** END TO END in binary64: PELT with the squared-error cost on one column.

    Data [l : list float], penalty [penf : float], minimum segment length [m] (the code runs
    the pruning with delay = m - 1), n = length l, cost table  Cf a T = l2_cost_F l a T  (the
    operation order of skchange's L2Cost kernel on primitive floats, Check/FloatKernelCheck.v).

    Boolean, [vm_compute]-able premises:
      - [l2_all_trace_ok l]            every cost [l2_cost_F l a T], a < T <= n, passes the
                                       trace checker [l2_trace_ok] of Proofs/FloatRefine.v;
      - [pelt_trace_finite Cf penf m (m-1) n]   every float the PELT run reads is finite;
      - [pelt_mag_ok Cf penf m (m-1) n Magf]    every ROUNDED sum the run forms
                                       (opt[a] + Cf a T, (opt[a] + Cf a T) + penf, opt[T] + penf)
                                       is at most [Magf] in magnitude;
      - the error scale: either a real hypothesis  l2_scale (map FR l) a T <= Sc, or the
        boolean [l2_absmax_ok l Bf] (|x_i| <= Bf) which gives Sc = n (n+1) (FR Bf)^2.

    Conclusions ([pelt_F64_l2_end_to_end], [pelt_F64_l2_final_score], and the [_absmax]
    versions): the changepoints reported by the binary64 run are an admissible segmentation
    whose penalised RESIDUAL SUM OF SQUARES (of the real values of the data) is within
        3 n (delta + 2 u53 Mag),   delta = (4.2 n + 6) u53 Sc,   Mag = FR Magf / (1 - u53)
    of that of ANY admissible segmentation, and the reported final score is within
    n (delta + 2 u53 Mag) of the penalised RSS of the reported changepoints. *)
From Coq Require Import Reals Lra Lia List Bool Floats.
From Flocq Require Import Core BinarySingleNaN.
From SK Require Import Model.Generic Model.GenericF Gen.KernelsR Proofs.RealLib Proofs.PeltSpec
                       Proofs.PeltReal Proofs.GenericPeltWf Proofs.FloatError Proofs.FloatRefine
                       Proofs.FloatRun Proofs.PeltFloat Check.FloatKernelCheck Proofs.FloatSaving.
Import ListNotations.
Local Open Scope R_scope.

Notation FR := FloatRefine.FR.
Notation float := PrimFloat.float (only parsing).

(** * Magnitude of a real sum from the magnitude of the rounded sum *)

(** [abs r <= M] on finite floats is [|FR r| <= FR M] *)
Definition absleF (r M : float) : bool := PrimFloat.leb (abs r) M.

Lemma absleF_FR r M : finF r = true -> finF M = true -> absleF r M = true ->
  Rabs (FR r) <= FR M.
Proof.
  intros Hr HM H. rewrite <- FR_abs. apply F_leb_le; [rewrite finF_abs| |]; assumption.
Qed.

(** the exact sum is at most the rounded sum / (1 - u53) in magnitude *)
Lemma sum_mag_from_rounded (x y M : float) :
  finF x = true -> finF y = true -> finF (x + y)%float = true -> finF M = true ->
  absleF (x + y)%float M = true ->
  Rabs (FR x + FR y) <= FR M / (1 - u53).
Proof.
  intros Hx Hy Hs HM Hle.
  exact (sum_mag_from_rounded_R x y _ Hx Hy Hs (absleF_FR _ _ Hs HM Hle)).
Qed.

(** * The magnitude test on the floats of the run (any cost table) *)

(** every ROUNDED sum the run forms is at most [Magf] in magnitude *)
Definition pelt_mag_ok (Cf : nat -> nat -> float) (penf : float) (m delay n : nat)
    (Magf : float) : bool :=
  let o := optF64 Cf penf m delay n in
  finF Magf &&
  forallb (fun t =>
      absleF (nthV F64 o t + penf)%float Magf &&
      forallb (fun a =>
          absleF (nthV F64 o a + Cf a t)%float Magf &&
          absleF ((nthV F64 o a + Cf a t) + penf)%float Magf) (seq 0 t))
    (seq 0 (S n)).

Record mag_spec (Cf : nat -> nat -> float) (penf : float) (m delay n : nat) (Magf : float)
  : Prop := {
  ms_fin : finF Magf = true;
  ms_thr : forall t, (t <= n)%nat ->
      absleF (nthV F64 (optF64 Cf penf m delay n) t + penf)%float Magf = true;
  ms_sum : forall a t, (a < t <= n)%nat ->
      absleF (nthV F64 (optF64 Cf penf m delay n) a + Cf a t)%float Magf = true;
  ms_cand : forall a t, (a < t <= n)%nat ->
      absleF ((nthV F64 (optF64 Cf penf m delay n) a + Cf a t) + penf)%float Magf = true }.

Lemma pelt_mag_ok_spec Cf penf m delay n Magf :
  pelt_mag_ok Cf penf m delay n Magf = true -> mag_spec Cf penf m delay n Magf.
Proof.
  unfold pelt_mag_ok. cbv zeta. intros H. apply andb_prop in H as [H1 H2].
  pose proof (fun t Ht => andb_prop _ _ (forallb_seq _ 0 (S n) H2 t Ht)) as Hin.
  assert (Hcut : forall a t, (a < t <= n)%nat ->
     absleF (nthV F64 (optF64 Cf penf m delay n) a + Cf a t)%float Magf = true /\
     absleF ((nthV F64 (optF64 Cf penf m delay n) a + Cf a t) + penf)%float Magf = true).
  { intros a t Hat. destruct (Hin t ltac:(lia)) as [_ Hb].
    exact (andb_prop _ _ (forallb_seq _ _ _ Hb a ltac:(lia))). }
  constructor.
  - exact H1.
  - intros t Ht. apply (Hin t). lia.
  - intros a t Hat. apply (Hcut a t Hat).
  - intros a t Hat. apply (Hcut a t Hat).
Qed.

(** the three magnitude hypotheses of [pelt_F64_near_optimal_bounds], from the test *)
Lemma magf_bounds (Cf : nat -> nat -> float) (penf Magf : float) (m delay n : nat) :
  pelt_trace_finite Cf penf m delay n = true -> pelt_mag_ok Cf penf m delay n Magf = true ->
  (forall a T, (a < T <= n)%nat ->
     Rabs (FR (nthV F64 (optF64 Cf penf m delay n) a) + FR (Cf a T)) <= FR Magf / (1 - u53)) /\
  (forall a T, (a < T <= n)%nat ->
     Rabs (FR (nthV F64 (optF64 Cf penf m delay n) a + Cf a T)%float + FR penf)
     <= FR Magf / (1 - u53)) /\
  (forall T, (T <= n)%nat ->
     Rabs (FR (nthV F64 (optF64 Cf penf m delay n) T) + FR penf) <= FR Magf / (1 - u53)).
Proof.
  intros fin mag.
  destruct (pelt_trace_finite_spec _ _ _ _ _ fin) as [F1 F2 F3 F4 F5 F6 F7].
  destruct (pelt_mag_ok_spec _ _ _ _ _ _ mag) as [M1 M2 M3 M4].
  repeat split; intros; apply sum_mag_from_rounded; auto.
Qed.

(** [pelt_F64_near_optimal_bounds] / [pelt_F64_final_close_bounds] with the magnitude
    hypotheses replaced by the boolean test.  [Cf] is any cost table within [delta] of a cost
    [C] with the split inequality; the conclusions are read on a cost [Ctrue] that agrees with
    [C] on the intervals a segmentation can contain (the kernel against the residual sum of
    squares) *)
Theorem pelt_F64_end_to_end_magf (Cf : nat -> nat -> float) (penf Magf : float)
    (C Ctrue : nat -> nat -> R) (delta : R) (m n : nat) :
  (1 <= m)%nat -> (2 * m <= n)%nat ->
  pelt_trace_finite Cf penf m (m - 1) n = true ->
  pelt_mag_ok Cf penf m (m - 1) n Magf = true ->
  (forall s k e, (s + m <= k)%nat -> (k + m <= e)%nat -> C s k + C k e <= C s e) ->
  (forall a T, (a < T <= n)%nat -> Rabs (FR (Cf a T) - C a T) <= delta) ->
  (forall s e, (s + m <= e)%nat -> (e <= n)%nat -> C s e = Ctrue s e) ->
  let out := gpelt F64 Cf penf m (m - 1) n in
  let eps := delta + 2 * u53 * (FR Magf / (1 - u53)) in
  Adm m (snd out) n /\
  (forall c, Adm m c n ->
     pencostR Ctrue (FR penf) (snd out) n <= pencostR Ctrue (FR penf) c n + 3 * INR n * eps) /\
  Rabs (FR (nthV F64 (fst out) (n - 1)) - pencostR Ctrue (FR penf) (snd out) n) <= INR n * eps.
Proof.
  intros Hm Hn Hfin Hmag Hs Ht Hext. cbv zeta.
  destruct (magf_bounds Cf penf Magf m (m - 1) n Hfin Hmag) as (B1 & B2 & B3).
  assert (Ha : Adm m (snd (gpelt F64 Cf penf m (m - 1) n)) n) by (apply F64_pelt_adm; assumption).
  split; [exact Ha|]. rewrite <- (pencostR_ext _ _ (FR penf) m n Hm Hext _ Ha). split.
  - intros c Hc. rewrite <- (pencostR_ext _ _ (FR penf) m n Hm Hext c Hc).
    apply (pelt_F64_near_optimal_bounds Cf penf C delta (FR Magf / (1 - u53)) m (m - 1) n);
      auto; lia.
  - rewrite <- pelt_F64_final_score.
    apply (pelt_F64_final_close_bounds Cf penf C delta (FR Magf / (1 - u53)) m (m - 1) n); auto.
Qed.

(** * The squared-error cost table: every cut passes the trace checker *)

(** [l2_trace_ok l a T] for every a < T <= length l *)
Definition l2_all_trace_ok (l : list float) : bool :=
  forallb (fun T => forallb (fun a => l2_trace_ok l a T) (seq 0 T)) (seq 0 (S (length l))).

Lemma l2_all_trace_ok_spec l :
  l2_all_trace_ok l = true ->
  forall a T, (a < T <= length l)%nat -> l2_trace_ok l a T = true.
Proof.
  unfold l2_all_trace_ok. intros H a T HaT. apply (forallb_triangle _ _ _ H); lia.
Qed.

(** the error of the whole table from a bound [Sc] on the error scale *)
Lemma l2_table_error (l : list float) (Sc : R) :
  INR (length l) * u53 <= 1 / 100 ->
  l2_all_trace_ok l = true ->
  (forall a T, (a < T <= length l)%nat -> l2_scale (map FR l) a T <= Sc) ->
  forall a T, (a < T <= length l)%nat ->
    Rabs (FR (l2_cost_F l a T)
          - l2_cost_optim_R (prefix (map FR l)) (prefix (sq (map FR l))) a T)
    <= (42 / 10 * INR (length l) + 6) * u53 * Sc.
Proof.
  intros Hsmall Hok HSc a T HaT.
  apply (kernel_bound_le 6 _ (l2_scale (map FR l) a T) Sc T); [lra|lia| |].
  - exact (l2_cost_F_vs_optim_R l a T (l2_all_trace_ok_spec l Hok a T HaT)
             (small_le _ _ (proj2 HaT) Hsmall)).
  - split; [apply l2_scale_nonneg; lia|exact (HSc a T HaT)].
Qed.

(** * MAIN THEOREM *)

(** the hypotheses of [pelt_F64_end_to_end_magf] on the squared-error kernel of [map FR l]:
    split inequality, table error, and kernel = residual sum of squares *)
Lemma l2_end_to_end_premises (l : list float) (m : nat) (Sc : R) :
  (1 <= m)%nat -> INR (length l) * u53 <= 1 / 100 -> l2_all_trace_ok l = true ->
  (forall a T, (a < T <= length l)%nat -> l2_scale (map FR l) a T <= Sc) ->
  let C := l2_cost_optim_R (prefix (map FR l)) (prefix (sq (map FR l))) in
  (forall s k e, (s + m <= k)%nat -> (k + m <= e)%nat -> C s k + C k e <= C s e) /\
  (forall a T, (a < T <= length l)%nat ->
     Rabs (FR (l2_cost_F l a T) - C a T) <= (42 / 10 * INR (length l) + 6) * u53 * Sc) /\
  (forall s e, (s + m <= e)%nat -> (e <= length l)%nat -> C s e = rss (slice s e (map FR l))).
Proof.
  intros Hm Hsmall Htr HSc C. split; [|split].
  - exact (l2_kernel_split (map FR l) m Hm).
  - exact (l2_table_error l Sc Hsmall Htr HSc).
  - intros s e H1 H2. apply (l2_kernel_is_rss (map FR l) m Hm s e H1). now rewrite map_length.
Qed.

(** The changepoints of the binary64 PELT run on the binary64 squared-error cost table of
    the data [l] are an admissible segmentation, and their penalised residual sum of squares
    (on the real values [map FR l] of the data, penalty [FR penf]) is within
    3 n (delta + 2 u53 Mag) of that of ANY admissible segmentation.
    (No sign condition on the penalty is needed.) *)
Theorem pelt_F64_l2_end_to_end (l : list float) (penf Magf : float) (m : nat) (Sc : R) :
  let n := length l in
  let Cf := l2_cost_F l in
  (1 <= m)%nat -> (2 * m <= n)%nat -> INR n * u53 <= 1 / 100 ->
  l2_all_trace_ok l = true ->
  pelt_trace_finite Cf penf m (m - 1) n = true ->
  pelt_mag_ok Cf penf m (m - 1) n Magf = true ->
  (forall a T, (a < T <= n)%nat -> l2_scale (map FR l) a T <= Sc) ->
  let cpts := snd (gpelt F64 Cf penf m (m - 1) n) in
  let delta := (42 / 10 * INR n + 6) * u53 * Sc in
  let Mag := FR Magf / (1 - u53) in
  Adm m cpts n /\
  forall c, Adm m c n ->
    pencostR (fun s e => rss (slice s e (map FR l))) (FR penf) cpts n
    <= pencostR (fun s e => rss (slice s e (map FR l))) (FR penf) c n
       + 3 * INR n * (delta + 2 * u53 * Mag).
Proof.
  intros n Cf Hm Hn Hsmall Htr Hfin Hmag HSc cpts delta Mag.
  destruct (l2_end_to_end_premises l m Sc Hm Hsmall Htr HSc) as (Hs & Ht & Hext).
  destruct (pelt_F64_end_to_end_magf Cf penf Magf _ _ delta m n Hm Hn Hfin Hmag Hs Ht Hext)
    as (Ha & Ho & _).
  exact (conj Ha Ho).
Qed.

(** COMPANION: the reported final score (the last entry of the score array, a float) is
    within n (delta + 2 u53 Mag) of the penalised RSS of the reported changepoints *)
Theorem pelt_F64_l2_final_score (l : list float) (penf Magf : float) (m : nat) (Sc : R) :
  let n := length l in
  let Cf := l2_cost_F l in
  (1 <= m)%nat -> (2 * m <= n)%nat -> INR n * u53 <= 1 / 100 ->
  l2_all_trace_ok l = true ->
  pelt_trace_finite Cf penf m (m - 1) n = true ->
  pelt_mag_ok Cf penf m (m - 1) n Magf = true ->
  (forall a T, (a < T <= n)%nat -> l2_scale (map FR l) a T <= Sc) ->
  let out := gpelt F64 Cf penf m (m - 1) n in
  let delta := (42 / 10 * INR n + 6) * u53 * Sc in
  let Mag := FR Magf / (1 - u53) in
  Rabs (FR (nthV F64 (fst out) (n - 1))
        - pencostR (fun s e => rss (slice s e (map FR l))) (FR penf) (snd out) n)
  <= INR n * (delta + 2 * u53 * Mag).
Proof.
  intros n Cf Hm Hn Hsmall Htr Hfin Hmag HSc out delta Mag.
  destruct (l2_end_to_end_premises l m Sc Hm Hsmall Htr HSc) as (Hs & Ht & Hext).
  exact (proj2 (proj2 (pelt_F64_end_to_end_magf Cf penf Magf _ _ delta m n Hm Hn Hfin Hmag
                         Hs Ht Hext))).
Qed.

(** * A boolean bound on the error scale: |x_i| <= Bf *)

(** every observation is finite and at most [Bf] in magnitude (exact float comparisons) *)
Definition l2_absmax_ok (l : list float) (Bf : float) : bool :=
  finF Bf && forallb (fun x => finF x && absleF x Bf) l.

Lemma l2_absmax_ok_spec l Bf :
  l2_absmax_ok l Bf = true -> forall x, In x (map FR l) -> Rabs x <= FR Bf.
Proof.
  unfold l2_absmax_ok. intros H x Hx. apply andb_prop in H as [HB H].
  rewrite forallb_forall in H. apply in_map_iff in Hx as (y & <- & Hy).
  specialize (H y Hy). apply andb_prop in H as [H1 H2]. now apply absleF_FR.
Qed.

Lemma sumR_map_le_const (f : R -> R) (b : R) (k : list R) :
  (forall x, In x k -> f x <= b) -> sumR (map f k) <= INR (length k) * b.
Proof.
  induction k as [|x k IH]; intros H.
  - cbn [map sumR length INR]. lra.
  - change (length (x :: k)) with (S (length k)). rewrite S_INR. cbn [map sumR].
    pose proof (H x (or_introl eq_refl)) as Hx.
    assert (IH' : sumR (map f k) <= INR (length k) * b) by (apply IH; intros y Hy; apply H; now right).
    lra.
Qed.

Lemma firstn_abs_le (xs : list R) (B : R) (T : nat) :
  (forall x, In x xs -> Rabs x <= B) -> forall x, In x (firstn T xs) -> Rabs x <= B.
Proof.
  intros HB x Hx. apply HB. rewrite <- (firstn_skipn T xs). apply in_or_app. now left.
Qed.

(** the error scale of every saving is at most (n B)^2 when |x_i| <= B *)
Lemma l2_saving_scale_le_absmax (xs : list R) (B : R) :
  (forall x, In x xs -> Rabs x <= B) ->
  forall a T, (a < T <= length xs)%nat ->
    l2_saving_scale xs a T <= (INR (length xs) * B) ^ 2.
Proof.
  intros HB a T HaT. unfold l2_saving_scale.
  pose proof (sumR_map_le_const Rabs B _ (firstn_abs_le xs B T HB)) as H1.
  rewrite firstn_length_le in H1 by lia.
  pose proof (sumR_abs_nonneg (firstn T xs)) as H0.
  assert (HB0 : 0 <= B).
  { destruct xs as [|x xs']; [cbn [length] in HaT; lia|].
    eapply Rle_trans; [apply Rabs_pos|apply (HB x); now left]. }
  assert (HTn : INR T <= INR (length xs)) by (apply le_INR; lia).
  assert (Hd : 1 <= INR (T - a)) by (change 1 with (INR 1); apply le_INR; lia).
  pose proof (pos_INR T) as HT0.
  assert (H2 : INR T * B <= INR (length xs) * B) by (apply Rmult_le_compat_r; assumption).
  set (S := sumR (map Rabs (firstn T xs))) in *.
  apply Rle_trans with (S ^ 2).
  - apply Rmult_le_reg_r with (INR (T - a)); [lra|].
    unfold Rdiv. rewrite Rmult_assoc, Rinv_l by lra.
    pose proof (pow2_ge_0 S) as Hp. nra.
  - apply pow_incr. lra.
Qed.

(** the error scale of every cut is at most n (n + 1) B^2 when |x_i| <= B: the sum of squares is
    at most n B^2, the rest is the scale of the saving *)
Lemma l2_scale_le_absmax (xs : list R) (B : R) :
  (forall x, In x xs -> Rabs x <= B) ->
  forall a T, (a < T <= length xs)%nat ->
    l2_scale xs a T <= INR (length xs) * (INR (length xs) + 1) * B ^ 2.
Proof.
  intros HB a T HaT. pose proof (l2_saving_scale_le_absmax xs B HB a T HaT) as H3.
  unfold l2_saving_scale in H3. unfold l2_scale.
  assert (H2 : sumR (map (fun x => x * x) (firstn T xs)) <= INR (length xs) * B ^ 2).
  { eapply Rle_trans.
    - apply (sumR_map_le_const (fun x => x * x) (B ^ 2)). intros x Hx.
      pose proof (firstn_abs_le xs B T HB x Hx) as H. pose proof (Rabs_pos x) as H0.
      replace (x * x) with (Rabs x * Rabs x)
        by (rewrite <- Rabs_mult; apply Rabs_pos_eq; apply sqr_nonneg).
      replace (B ^ 2) with (B * B) by ring. apply Rmult_le_compat; assumption.
    - rewrite firstn_length_le by lia.
      apply Rmult_le_compat_r; [apply pow2_ge_0|apply le_INR; lia]. }
  replace (INR (length xs) * (INR (length xs) + 1) * B ^ 2)
    with (INR (length xs) * B ^ 2 + (INR (length xs) * B) ^ 2) by ring.
  lra.
Qed.

Lemma l2_scale_absmax_ok (l : list float) (Bf : float) :
  l2_absmax_ok l Bf = true ->
  forall a T, (a < T <= length l)%nat ->
    l2_scale (map FR l) a T <= INR (length l) * (INR (length l) + 1) * FR Bf ^ 2.
Proof.
  intros H a T HaT.
  pose proof (l2_scale_le_absmax (map FR l) (FR Bf) (l2_absmax_ok_spec l Bf H) a T) as H'.
  rewrite map_length in H'. now apply H'.
Qed.

(** MAIN THEOREM, every premise boolean *)
Theorem pelt_F64_l2_end_to_end_absmax (l : list float) (penf Magf Bf : float) (m : nat) :
  let n := length l in
  let Cf := l2_cost_F l in
  (1 <= m)%nat -> (2 * m <= n)%nat -> INR n * u53 <= 1 / 100 ->
  l2_all_trace_ok l = true ->
  pelt_trace_finite Cf penf m (m - 1) n = true ->
  pelt_mag_ok Cf penf m (m - 1) n Magf = true ->
  l2_absmax_ok l Bf = true ->
  let cpts := snd (gpelt F64 Cf penf m (m - 1) n) in
  let Sc := INR n * (INR n + 1) * FR Bf ^ 2 in
  let delta := (42 / 10 * INR n + 6) * u53 * Sc in
  let Mag := FR Magf / (1 - u53) in
  Adm m cpts n /\
  forall c, Adm m c n ->
    pencostR (fun s e => rss (slice s e (map FR l))) (FR penf) cpts n
    <= pencostR (fun s e => rss (slice s e (map FR l))) (FR penf) c n
       + 3 * INR n * (delta + 2 * u53 * Mag).
Proof.
  intros n Cf Hm Hn Hsmall Htr Hfin Hmag Habs cpts Sc delta Mag.
  apply (pelt_F64_l2_end_to_end l penf Magf m Sc); try assumption.
  exact (l2_scale_absmax_ok l Bf Habs).
Qed.

Theorem pelt_F64_l2_final_score_absmax (l : list float) (penf Magf Bf : float) (m : nat) :
  let n := length l in
  let Cf := l2_cost_F l in
  (1 <= m)%nat -> (2 * m <= n)%nat -> INR n * u53 <= 1 / 100 ->
  l2_all_trace_ok l = true ->
  pelt_trace_finite Cf penf m (m - 1) n = true ->
  pelt_mag_ok Cf penf m (m - 1) n Magf = true ->
  l2_absmax_ok l Bf = true ->
  let out := gpelt F64 Cf penf m (m - 1) n in
  let Sc := INR n * (INR n + 1) * FR Bf ^ 2 in
  let delta := (42 / 10 * INR n + 6) * u53 * Sc in
  let Mag := FR Magf / (1 - u53) in
  Rabs (FR (nthV F64 (fst out) (n - 1))
        - pencostR (fun s e => rss (slice s e (map FR l))) (FR penf) (snd out) n)
  <= INR n * (delta + 2 * u53 * Mag).
Proof.
  intros n Cf Hm Hn Hsmall Htr Hfin Hmag Habs out Sc delta Mag.
  apply (pelt_F64_l2_final_score l penf Magf m Sc); try assumption.
  exact (l2_scale_absmax_ok l Bf Habs).
Qed.

(** * Non-vacuity: a concrete run *)

(** eight observations with a level shift after the fourth one *)
Definition e2_xs : list float := [0.125; 0.375; 0.25; 0.5; 5.125; 5.375; 5.25; 5.5]%float.
Definition e2_pen : float := 1.5%float.
Definition e2_Mag : float := 64%float.
Definition e2_B : float := 5.5%float.

Example e2_all_trace_ok : l2_all_trace_ok e2_xs = true.
Proof. vm_compute. reflexivity. Qed.
Example e2_trace_finite : pelt_trace_finite (l2_cost_F e2_xs) e2_pen 2 1 8 = true.
Proof. vm_compute. reflexivity. Qed.
Example e2_mag_ok : pelt_mag_ok (l2_cost_F e2_xs) e2_pen 2 1 8 e2_Mag = true.
Proof. vm_compute. reflexivity. Qed.
Example e2_absmax_ok : l2_absmax_ok e2_xs e2_B = true.
Proof. vm_compute. reflexivity. Qed.
Example e2_changepoints : snd (gpelt F64 (l2_cost_F e2_xs) e2_pen 2 1 8) = [4%nat].
Proof. vm_compute. reflexivity. Qed.
Example e2_final_score :
  nthV F64 (fst (gpelt F64 (l2_cost_F e2_xs) e2_pen 2 1 8)) 7 = 1.65625%float.
Proof. vm_compute. reflexivity. Qed.

(** the checkers are not trivially true: a magnitude bound that is too small, a bound on the
    data that is too small, and data whose squares underflow are rejected *)
Example e2_mag_rejected : pelt_mag_ok (l2_cost_F e2_xs) e2_pen 2 1 8 32%float = false.
Proof. vm_compute. reflexivity. Qed.
Example e2_absmax_rejected : l2_absmax_ok e2_xs 5.25%float = false.
Proof. vm_compute. reflexivity. Qed.
Example e2_all_trace_rejected :
  l2_all_trace_ok [0x1p-600; 0.375; 0.25; 0.5; 5.125; 5.375; 5.25; 5.5]%float = false.
Proof. vm_compute. reflexivity. Qed.

Lemma FR_e2_pen : FR e2_pen = 3 / 2.
Proof. FR_value. Qed.
Lemma FR_e2_Mag : FR e2_Mag = 64.
Proof. FR_value. Qed.
Lemma FR_e2_B : FR e2_B = 11 / 2.
Proof. FR_value. Qed.

Definition e2_xsR : list R := [1/8; 3/8; 1/4; 1/2; 41/8; 43/8; 21/4; 11/2].

Lemma FR_e2_xs : map FR e2_xs = e2_xsR.
Proof.
  unfold e2_xs, e2_xsR. cbn [map].
  repeat (apply f_equal2; [FR_value|]). reflexivity.
Qed.

Lemma e2_small : INR 8 * u53 <= 1 / 100.
Proof. rewrite u53_value. cbn [INR]. lra. Qed.

(** the instantiated main theorem, with the concrete numbers: the binary64 run reports the
    single changepoint 4, and the penalised residual sum of squares of [4] is within
    3 * 8 * (delta + 2 u53 Mag) of that of ANY admissible segmentation, where
    delta = (4.2 * 8 + 6) u53 * (8 * 9 * 5.5^2), Mag = 64 / (1 - u53) *)
Example e2_end_to_end :
  Adm 2 [4%nat] 8 /\
  forall c, Adm 2 c 8 ->
    pencostR (fun s e => rss (slice s e e2_xsR)) (3 / 2) [4%nat] 8
    <= pencostR (fun s e => rss (slice s e e2_xsR)) (3 / 2) c 8
       + 3 * 8 * ((42 / 10 * 8 + 6) * u53 * (8 * (8 + 1) * (11 / 2) ^ 2)
                  + 2 * u53 * (64 / (1 - u53))).
Proof.
  pose proof (pelt_F64_l2_end_to_end_absmax e2_xs e2_pen e2_Mag e2_B 2) as H.
  cbv zeta in H. change (length e2_xs) with 8%nat in H. change (2 - 1)%nat with 1%nat in H.
  specialize (H ltac:(lia) ltac:(lia) e2_small e2_all_trace_ok e2_trace_finite e2_mag_ok
                e2_absmax_ok).
  rewrite e2_changepoints, FR_e2_xs, FR_e2_pen, FR_e2_Mag, FR_e2_B in H.
  replace (INR 8) with 8 in H by (cbn [INR]; lra).
  exact H.
Qed.

(** ... which is less than 1e-9 *)
Example e2_end_to_end_1e9 :
  forall c, Adm 2 c 8 ->
    pencostR (fun s e => rss (slice s e e2_xsR)) (3 / 2) [4%nat] 8
    <= pencostR (fun s e => rss (slice s e e2_xsR)) (3 / 2) c 8 + 1 / 1000000000.
Proof.
  intros c Hc. pose proof (proj2 e2_end_to_end c Hc) as H.
  eapply Rle_trans; [exact H|]. apply Rplus_le_compat_l.
  rewrite u53_value. lra.
Qed.

(** the reported final score 1.65625 against the penalised RSS of the reported changepoint *)
Example e2_final_score_close :
  Rabs (FR 1.65625%float - pencostR (fun s e => rss (slice s e e2_xsR)) (3 / 2) [4%nat] 8)
  <= 8 * ((42 / 10 * 8 + 6) * u53 * (8 * (8 + 1) * (11 / 2) ^ 2) + 2 * u53 * (64 / (1 - u53))).
Proof.
  pose proof (pelt_F64_l2_final_score_absmax e2_xs e2_pen e2_Mag e2_B 2) as H.
  cbv zeta in H. change (length e2_xs) with 8%nat in H. change (2 - 1)%nat with 1%nat in H.
  change (8 - 1)%nat with 7%nat in H.
  specialize (H ltac:(lia) ltac:(lia) e2_small e2_all_trace_ok e2_trace_finite e2_mag_ok
                e2_absmax_ok).
  rewrite e2_changepoints, e2_final_score, FR_e2_xs, FR_e2_pen, FR_e2_Mag, FR_e2_B in H.
  replace (INR 8) with 8 in H by (cbn [INR]; lra).
  exact H.
Qed.

Print Assumptions pelt_F64_l2_end_to_end.
Print Assumptions pelt_F64_l2_final_score.
Print Assumptions pelt_F64_l2_end_to_end_absmax.
Print Assumptions e2_end_to_end.
