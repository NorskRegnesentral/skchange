(** Well-formedness of PELT's output for EVERY number type.

    [gpelt N C pen m delay n] (Model/Generic.v) runs over a record [N : num] of operations
    (zero, addition, negation, the two comparisons) with NO laws, and the STRUCTURE of its
    output does not depend on the score values at all: by the analysis of Proofs/PeltLoop.v,
    of which [gstep] is an instance, the changepoints are an admissible segmentation ([Adm] of
    Proofs/PeltSpec.v) and there is one score per sample, whatever the comparisons answer.
    At binary64 (Coq's primitive floats) this needs no hypothesis on the cost table: NaN,
    infinities and non-associative addition included. *)
From Coq Require Import List Lia Sorted.
From SK Require Import Lib.Base Proofs.PeltSpec Proofs.PeltLoop.
From SK Require Import Model.Generic Model.GenericF Proofs.WellFormed.
Import ListNotations.
Open Scope nat_scope.

Lemma gargmin_none (N : num) (l : list (T N)) : gargmin N l = None -> l = [].
Proof. destruct l; [reflexivity|discriminate]. Qed.

Lemma in_hd_in {A} (L : list (list A)) (D : list A) (a : A) :
  In a (hd [] L) -> exists D0, In D0 L /\ In a D0.
Proof. destruct L as [|D0 L']; cbn [hd]; [intros []|]. intros H. exists D0. split; [now left|exact H]. Qed.

Section GWf.
Variable N : num.
Variable C : nat -> nat -> T N.
Variable pen : T N.
Variable m delay : nat.
Hypothesis m_pos : 1 <= m.

Notation grunM := (grun N C pen m delay).

(** the back-pointers recorded by the run, spelled out: every recorded end points to 0 or to a
    position leaving [m] samples on both sides *)
Lemma gpelt_backpointers n e : 2 * m <= n -> m <= e <= n ->
  nthN (gprev N (grunM n)) (e - 1) = 0 \/
  (m <= nthN (gprev N (grunM n)) (e - 1) /\ nthN (gprev N (grunM n)) (e - 1) + m <= e).
Proof.
  intros Hn He. rewrite grun_krun.
  exact (ki_bp (krun_KInv _ _ _ _ _ _ _ m_pos n ltac:(lia)) e He).
Qed.
End GWf.

Theorem gpelt_adm : forall (N : num) (C : nat -> nat -> T N) (pen : T N) (m delay n : nat),
  1 <= m -> 2 * m <= n -> Adm m (snd (gpelt N C pen m delay n)) n.
Proof. intros N C pen m delay n Hm Hn. rewrite gpelt_kpelt. now apply kpelt_adm. Qed.

Theorem gpelt_scores_length : forall (N : num) (C : nat -> nat -> T N) (pen : T N) (m delay n : nat),
  1 <= m -> 2 * m <= n -> length (fst (gpelt N C pen m delay n)) = n.
Proof. intros N C pen m delay n Hm Hn. rewrite gpelt_kpelt. now apply kpelt_scores_length. Qed.

(** * The clauses of Properties/C04.v for the generic model *)

(** strictly increasing; every changepoint in [1, n-1] and in [m, n-m]; consecutive
    changepoints at least [m] apart *)
Theorem gpelt_wellformed : forall (N : num) (C : nat -> nat -> T N) (pen : T N) (m delay n : nat),
  1 <= m -> 2 * m <= n ->
  let cpts := snd (gpelt N C pen m delay n) in
  StronglySorted lt cpts /\
  (forall c, In c cpts -> 1 <= c <= n - 1 /\ m <= c /\ c + m <= n) /\
  (forall i, S i < length cpts -> nthN cpts i + m <= nthN cpts (S i)).
Proof.
  intros N C pen m delay n Hm Hn cpts. apply adm_concrete; [exact Hm|].
  exact (gpelt_adm N C pen m delay n Hm Hn).
Qed.

Theorem gpelt_count : forall (N : num) (C : nat -> nat -> T N) (pen : T N) (m delay n : nat),
  1 <= m -> 2 * m <= n -> (length (snd (gpelt N C pen m delay n)) + 1) * m <= n.
Proof.
  intros N C pen m delay n Hm Hn.
  exact (proj2 (adm_length m _ n Hm (gpelt_adm N C pen m delay n Hm Hn))).
Qed.

Theorem gpelt_nodup : forall (N : num) (C : nat -> nat -> T N) (pen : T N) (m delay n : nat),
  1 <= m -> 2 * m <= n -> NoDup (snd (gpelt N C pen m delay n)).
Proof.
  intros N C pen m delay n Hm Hn.
  destruct (gpelt_wellformed N C pen m delay n Hm Hn) as [Hs _].
  induction Hs as [|a l Hs IH Hall]; constructor; [|exact IH].
  intros Hin. rewrite Forall_forall in Hall. specialize (Hall a Hin). lia.
Qed.

(** * The binary64 instance: no hypothesis on the scores (NaN / infinities included) *)

Theorem F64_pelt_adm : forall (C : nat -> nat -> T F64) (pen : T F64) (m delay n : nat),
  1 <= m -> 2 * m <= n -> Adm m (snd (gpelt F64 C pen m delay n)) n.
Proof. exact (gpelt_adm F64). Qed.

Theorem F64_pelt_scores_length : forall (C : nat -> nat -> T F64) (pen : T F64) (m delay n : nat),
  1 <= m -> 2 * m <= n -> length (fst (gpelt F64 C pen m delay n)) = n.
Proof. exact (gpelt_scores_length F64). Qed.

Theorem F64_pelt_wellformed : forall (C : nat -> nat -> T F64) (pen : T F64) (m delay n : nat),
  1 <= m -> 2 * m <= n ->
  let cpts := snd (gpelt F64 C pen m delay n) in
  StronglySorted lt cpts /\
  (forall c, In c cpts -> 1 <= c <= n - 1 /\ m <= c /\ c + m <= n) /\
  (forall i, S i < length cpts -> nthN cpts i + m <= nthN cpts (S i)).
Proof. exact (gpelt_wellformed F64). Qed.

(** the same at a cost table that is NaN everywhere, as a sanity instance of "any score values" *)
Example F64_pelt_adm_all_nan : forall (m delay n : nat), 1 <= m -> 2 * m <= n ->
  Adm m (snd (gpelt F64 (fun _ _ => PrimFloat.nan) PrimFloat.nan m delay n)) n.
Proof. intros m delay n. exact (F64_pelt_adm (fun _ _ => PrimFloat.nan) PrimFloat.nan m delay n). Qed.

Print Assumptions gargmin_index_in_range.
Print Assumptions gpelt_adm.
Print Assumptions gpelt_scores_length.
Print Assumptions F64_pelt_adm.
Print Assumptions F64_pelt_scores_length.
Print Assumptions F64_pelt_wellformed.
Print Assumptions gpelt_wellformed.
Print Assumptions gpelt_count.
Print Assumptions gpelt_nodup.
