(** PELT over REAL-valued costs.

    Model/PeltR.v is the twin of the executable model Model/Pelt.v with a cost
    [C : nat -> nat -> R].  This file holds the counterpart of Proofs/PeltSpec.v for it (the
    recursion [FR], the penalised cost [pencostR], [FR_lower], [FR_upper]); the theorems
    about the run are the error analysis of Proofs/PeltInexact.v with exact arithmetic
    (eps = 0), the loop being that of Proofs/PeltLoop.v through Proofs/GenericR.v.  Then it

    - ties the real model to the executable one: running the real model on the
      injection [IZR] of an integer cost is the image of the integer run ([peltR_of_Z]);
    - instantiates the optimality theorem with the built-in squared-error cost
      [l2_cost_optim_R] (one column and several columns) and with the Gaussian
      mean-and-variance cost, using the split inequalities [l2_split] / [gvar_split]
      of Proofs/ScoreKernels.v, so that NO hypothesis on the cost is left.

    The optimality proof only ever uses the split inequality for intervals inside
    [0, n]; it is carried out under that weaker hypothesis ([peltR_optimal_bounded]),
    which is what the Gaussian cost needs (its variance floor is a condition on the
    data, hence only meaningful inside the data). *)
From Coq Require Import Reals Lra List Lia.
From SK Require Import Lib.Base Model.Pelt Model.PeltR Model.Generic Proofs.PeltSpec
                       Proofs.PeltLoop Proofs.PeltRefine Proofs.GenericZ Proofs.PeltInexact.
From SK Require Export Proofs.GenericR.
From SK Require Import Gen.KernelsR Proofs.RealLib Proofs.CostKernels Proofs.ScoreKernels.
Import ListNotations.
Open Scope R_scope.

(** * List minimum (twin of [min1]) *)

Definition min1R (x : R) (l : list R) : R := fold_left Rmin l x.

Lemma min1R_le_head x l : min1R x l <= x.
Proof.
  unfold min1R. revert x; induction l as [|a l IH]; intros x; cbn [fold_left]; [lra|].
  specialize (IH (Rmin x a)). pose proof (Rmin_l x a) as Hl. lra.
Qed.
Lemma min1R_le_in x l y : In y l -> min1R x l <= y.
Proof.
  revert x; induction l as [|a l IH]; intros x Hin; [destruct Hin|].
  destruct Hin as [E|Hin].
  - subst a. pose proof (min1R_le_head (Rmin x y) l) as Hh. pose proof (Rmin_r x y) as Hr.
    unfold min1R in *. cbn [fold_left]. lra.
  - unfold min1R. cbn [fold_left]. now apply IH.
Qed.
Lemma min1R_in x l : min1R x l = x \/ In (min1R x l) l.
Proof.
  unfold min1R. revert x; induction l as [|a l IH]; intros x; cbn [fold_left]; [now left|].
  destruct (IH (Rmin x a)) as [H|H]; [|now right; right].
  rewrite H. unfold Rmin. destruct (Rle_dec x a) as [Hle|Hgt]; [now left|now right; left].
Qed.

(** * The optimal-partitioning recursion over R (twin of Proofs/PeltSpec.v) *)

Lemma in_admN m T s : In s (adm m T) <-> (m <= s /\ s + m <= T)%nat.
Proof. exact (in_adm m T s). Qed.

Section SpecR.
Variable C : nat -> nat -> R.
Variable pen : R.
Variable m : nat.

Definition candR (tab : list R) (T s : nat) : R := nth s tab 0 + C s T + pen.
Definition nextR (tab : list R) (T : nat) : R :=
  if (T <? m)%nat then - pen else min1R (candR tab T 0) (map (candR tab T) (adm m T)).
Fixpoint FRtab (t : nat) : list R :=
  match t with O => [- pen] | S t' => FRtab t' ++ [nextR (FRtab t') (S t')] end.
Definition FR (t : nat) : R := nth t (FRtab t) 0.

Lemma FRtab_length t : length (FRtab t) = S t.
Proof. induction t as [|t IHt]; cbn [FRtab]; [easy|]. rewrite app_length, IHt. cbn. lia. Qed.
Lemma FRtab_nth s t : (s <= t)%nat -> nth s (FRtab t) 0 = FR s.
Proof.
  induction t as [|t IH]; intros H.
  - now replace s with 0%nat by lia.
  - destruct (Nat.eq_dec s (S t)) as [->|Hn]; [reflexivity|].
    cbn [FRtab]. rewrite app_nth1 by (rewrite FRtab_length; lia). apply IH. lia.
Qed.

Definition candFR (T s : nat) : R := FR s + C s T + pen.
Lemma FR0 : FR 0 = - pen. Proof. reflexivity. Qed.
Lemma FR_unfold T : (1 <= m)%nat -> (m <= T)%nat ->
  FR T = min1R (candFR T 0) (map (candFR T) (adm m T)).
Proof.
  intros m_pos HT. destruct T as [|T]; [lia|]. unfold FR at 1. cbn [FRtab].
  rewrite app_nth2 by (rewrite FRtab_length; lia). rewrite FRtab_length, Nat.sub_diag. cbn [nth].
  unfold nextR. replace (S T <? m)%nat with false by (symmetry; apply Nat.ltb_ge; lia).
  unfold candR, candFR. rewrite (FRtab_nth 0) by lia.
  f_equal. apply map_ext_in. intros s Hs. apply in_adm in Hs. rewrite FRtab_nth by lia. reflexivity.
Qed.

Lemma FR_le_cand0 T : (1 <= m)%nat -> (m <= T)%nat -> FR T <= candFR T 0.
Proof. intros m_pos HT. rewrite FR_unfold by auto. apply min1R_le_head. Qed.
Lemma FR_le_cand T s : (1 <= m)%nat -> (m <= s)%nat -> (s + m <= T)%nat -> FR T <= candFR T s.
Proof.
  intros m_pos H1 H2. rewrite FR_unfold by lia. apply min1R_le_in. apply in_map. apply in_adm. lia.
Qed.
Lemma FR_attained T : (1 <= m)%nat -> (m <= T)%nat ->
  FR T = candFR T 0 \/ exists s, (m <= s /\ s + m <= T)%nat /\ FR T = candFR T s.
Proof.
  intros m_pos HT. rewrite FR_unfold by auto.
  destruct (min1R_in (candFR T 0) (map (candFR T) (adm m T))) as [H1|H1]; [now left|right].
  apply in_map_iff in H1 as (s & E & Hs). apply in_adm in Hs. exists s. split; [lia|]. now rewrite <- E.
Qed.

(** segmentations: [Adm] / [admseg] of Proofs/PeltSpec.v only talk about nat lists and are
    reused; the cost of a segmentation becomes real *)
Fixpoint segcostR (prev : nat) (cpts : list nat) (T : nat) : R :=
  match cpts with [] => C prev T | c :: tl => C prev c + segcostR c tl T end.
Definition pencostR (cpts : list nat) (T : nat) : R :=
  segcostR 0 cpts T + pen * INR (length cpts).

Lemma segcostR_snoc p cpts c T : segcostR p (cpts ++ [c]) T = segcostR p cpts c + C c T.
Proof. revert p; induction cpts as [|a l IH]; intros p; cbn [app segcostR]; [lra|]. rewrite IH. lra. Qed.

Lemma pencostR_nil T : pencostR [] T = C 0 T.
Proof. unfold pencostR. cbn [segcostR length INR]. lra. Qed.
Lemma pencostR_snoc cpts c T : pencostR (cpts ++ [c]) T = pencostR cpts c + C c T + pen.
Proof.
  unfold pencostR. rewrite segcostR_snoc, app_length, plus_INR. cbn [length INR]. lra.
Qed.

Theorem FR_lower T cpts : (1 <= m)%nat -> Adm m cpts T -> FR T <= pencostR cpts T.
Proof.
  intros m_pos. revert cpts. induction T as [T IH] using lt_wf_ind. intros cpts H.
  assert (HT : (m <= T)%nat) by (apply (admseg_ge m m_pos) in H; lia).
  destruct cpts as [|c0 l0 IHl0] using rev_ind.
  - eapply Rle_trans; [apply FR_le_cand0; auto|]. unfold candFR. rewrite FR0, pencostR_nil. lra.
  - clear IHl0. unfold Adm in H. apply admseg_snoc in H as [H1 H2].
    assert (Hc : (m <= c0)%nat) by (apply (admseg_ge m m_pos) in H1; lia).
    eapply Rle_trans; [apply (FR_le_cand T c0); lia|]. unfold candFR.
    specialize (IH c0 ltac:(lia) l0 H1). rewrite pencostR_snoc. lra.
Qed.

Theorem FR_upper T : (1 <= m)%nat -> (m <= T)%nat ->
  exists cpts, Adm m cpts T /\ pencostR cpts T = FR T.
Proof.
  intros m_pos. induction T as [T IH] using lt_wf_ind. intros HT.
  destruct (FR_attained T m_pos HT) as [E|(s & Hs & E)].
  - exists []. split; [cbn; lia|]. rewrite E. unfold candFR. rewrite FR0, pencostR_nil. lra.
  - destruct (IH s ltac:(lia) ltac:(lia)) as (l & A & P). exists (l ++ [s]). split.
    + apply admseg_snoc. split; [exact A|lia].
    + rewrite pencostR_snoc, E, P. unfold candFR. lra.
Qed.
End SpecR.

(** * The run: Proofs/PeltInexact.v with exact arithmetic *)

Lemma backtrackR_eq : backtrackR = backtrack.
Proof. reflexivity. Qed.
Lemma changepointsR_eq : changepointsR = changepoints.
Proof. reflexivity. Qed.

Section InitR.
Variable C : nat -> nat -> R.
Variable pen : R.
Variable m : nat.
Hypothesis m_pos : (1 <= m)%nat.

Notation initM := (initR C pen m).
Notation Fn := (FR C pen m).

Lemma initR_opt_small e : (e < m)%nat -> nthR (optR initM) e = - pen.
Proof using m_pos. exact (kinit_opt_small Rn m (- pen) (C 0%nat) e). Qed.

Lemma initR_opt_mid e : (m <= e < 2 * m)%nat -> nthR (optR initM) e = C 0 e.
Proof using m_pos. exact (kinit_opt_mid Rn m (- pen) (C 0%nat) e). Qed.

Lemma initR_len_opt : length (optR initM) = S (2 * m - 1).
Proof. exact (kinit_len_opt Rn m (- pen) (C 0%nat) m_pos). Qed.

End InitR.

Section RecursionR.
Variable C : nat -> nat -> R.
Variable pen : R.
Variable m : nat.
Hypothesis m_pos : (1 <= m)%nat.

Notation Fn := (FR C pen m).

Lemma FR_small e : (e < m)%nat -> Fn e = - pen.
Proof.
  intros He. destruct e as [|e]; [reflexivity|].
  unfold FR. cbn [FRtab]. rewrite app_nth2 by (rewrite (FRtab_length C pen m); lia).
  rewrite (FRtab_length C pen m), Nat.sub_diag. cbn [nth]. unfold nextR.
  replace (S e <? m)%nat with true by (symmetry; apply Nat.ltb_lt; lia). reflexivity.
Qed.

Lemma FR_mid e : (m <= e < 2 * m)%nat -> Fn e = C 0 e.
Proof.
  intros He. rewrite (FR_unfold C pen m e m_pos) by lia. unfold adm.
  replace (e + 1 - 2 * m)%nat with 0%nat by lia. cbn [seq map]. unfold min1R. cbn [fold_left].
  unfold candFR. rewrite (FR0 C pen m). lra.
Qed.

Lemma FR_attained_start T : (m <= T)%nat ->
  exists a, last_start m T a /\ Fn T = Fn a + C a T + pen.
Proof.
  intros HT. destruct (FR_attained C pen m T m_pos HT) as [E|(a & Ha & E)].
  - exists 0%nat. split; [now left|exact E].
  - exists a. split; [now right|exact E].
Qed.
End RecursionR.

(** the real model is the loop of Proofs/PeltLoop.v with exact sums *)
Lemma peltR_kpelt (C : nat -> nat -> R) (pen : R) (m delay n : nat) :
  peltR C pen m delay n
  = kpelt Rn (fun a T g => g + C a T + pen) (fun _ b => b + pen) m delay (- pen) (C 0%nat) n.
Proof. symmetry. exact (kpelt_A _ _ (C 0%nat) pen m delay n). Qed.

(** * The main theorems in closed form *)

Theorem peltR_scores_length (C : nat -> nat -> R) (pen : R) (m delay n : nat) :
  (1 <= m)%nat -> (2 * m <= n)%nat -> length (fst (peltR C pen m delay n)) = n.
Proof. intros Hm Hn. rewrite peltR_kpelt. now apply (kpelt_scores_length Rn). Qed.

(** the returned changepoints form an admissible segmentation (any cost, any delay) *)
Theorem peltR_adm (C : nat -> nat -> R) (pen : R) (m delay n : nat) :
  (1 <= m)%nat -> (2 * m <= n)%nat -> Adm m (snd (peltR C pen m delay n)) n.
Proof. intros Hm Hn. rewrite peltR_kpelt. now apply (kpelt_adm Rn). Qed.

(** the final score is the penalised cost of exactly the returned segmentation *)
Theorem peltR_final_is_pencost (C : nat -> nat -> R) (pen : R) (m delay n : nat) :
  (1 <= m)%nat -> (2 * m <= n)%nat ->
  nth (n - 1) (fst (peltR C pen m delay n)) 0
  = pencostR C pen (snd (peltR C pen m delay n)) n.
Proof.
  intros Hm Hn. rewrite peltR_kpelt.
  exact (exact_final C pen m delay n _ Hm Hn (pencostR_nil C pen) (pencostR_snoc C pen)).
Qed.

Theorem peltR_scores_dummy (C : nat -> nat -> R) (pen : R) (m delay n : nat) :
  (1 <= m)%nat -> (2 * m <= n)%nat ->
  forall t, (1 <= t < m)%nat -> nth (t - 1) (fst (peltR C pen m delay n)) 0 = - pen.
Proof.
  intros Hm Hn t Ht. rewrite peltR_kpelt, scores_stored by lia. apply stored_small; lia.
Qed.

(** optimality under the split inequality for the intervals inside [0, n] only *)
Theorem peltR_scores_optimal_bounded (C : nat -> nat -> R) (pen : R) (m delay n : nat) :
  (1 <= m)%nat -> (2 * m <= n)%nat -> 0 <= pen -> (m <= delay + 1)%nat ->
  (forall s k e, (s + m <= k)%nat -> (k + m <= e)%nat -> (e <= n)%nat ->
                 C s k + C k e <= C s e) ->
  forall t, (m <= t <= n)%nat -> nth (t - 1) (fst (peltR C pen m delay n)) 0 = FR C pen m t.
Proof.
  intros Hm Hn _ Hd Hs. rewrite peltR_kpelt.
  exact (exact_scores C pen m delay n _ Hm Hn (pencostR_nil C pen) (pencostR_snoc C pen) _
           (FR_small C pen m Hm) (FR_mid C pen m Hm) (FR_attained_start C pen m Hm)
           (fun T cp => FR_lower C pen m T cp Hm) Hd Hs).
Qed.

Theorem peltR_optimal_bounded (C : nat -> nat -> R) (pen : R) (m delay n : nat) :
  (1 <= m)%nat -> (2 * m <= n)%nat -> 0 <= pen -> (m <= delay + 1)%nat ->
  (forall s k e, (s + m <= k)%nat -> (k + m <= e)%nat -> (e <= n)%nat ->
                 C s k + C k e <= C s e) ->
  forall c, Adm m c n ->
    pencostR C pen (snd (peltR C pen m delay n)) n <= pencostR C pen c n.
Proof.
  intros Hm Hn _ Hd Hs. rewrite peltR_kpelt.
  exact (exact_optimal C pen m delay n _ Hm Hn (pencostR_nil C pen) (pencostR_snoc C pen) _
           (FR_small C pen m Hm) (FR_mid C pen m Hm) (FR_attained_start C pen m Hm)
           (fun T cp => FR_lower C pen m T cp Hm) Hd Hs).
Qed.

(** the real twins of [pelt_scores_optimal] / [pelt_optimal], same hypotheses *)
Theorem peltR_scores_optimal (C : nat -> nat -> R) (pen : R) (m delay n : nat) :
  (1 <= m)%nat -> (2 * m <= n)%nat -> 0 <= pen -> (m <= delay + 1)%nat ->
  (forall s k e, (s + m <= k)%nat -> (k + m <= e)%nat -> C s k + C k e <= C s e) ->
  forall t, (m <= t <= n)%nat -> nth (t - 1) (fst (peltR C pen m delay n)) 0 = FR C pen m t.
Proof.
  intros Hm Hn Hp Hd Hs. apply peltR_scores_optimal_bounded; auto.
Qed.

Theorem peltR_optimal (C : nat -> nat -> R) (pen : R) (m delay n : nat) :
  (1 <= m)%nat -> (2 * m <= n)%nat -> 0 <= pen -> (m <= delay + 1)%nat ->
  (forall s k e, (s + m <= k)%nat -> (k + m <= e)%nat -> C s k + C k e <= C s e) ->
  forall c, Adm m c n ->
    pencostR C pen (snd (peltR C pen m delay n)) n <= pencostR C pen c n.
Proof.
  intros Hm Hn Hp Hd Hs. apply peltR_optimal_bounded; auto.
Qed.

(** the penalised cost of an admissible segmentation of [0, n) only reads the cost of
    intervals of length >= m inside [0, n] *)
Lemma segcostR_ext (C1 C2 : nat -> nat -> R) (m n : nat) : (1 <= m)%nat ->
  (forall s e, (s + m <= e)%nat -> (e <= n)%nat -> C1 s e = C2 s e) ->
  forall c p T, admseg m p c T -> (T <= n)%nat -> segcostR C1 p c T = segcostR C2 p c T.
Proof.
  intros Hm Hext. induction c as [|a l IH]; intros p T Ha HT; cbn [segcostR admseg] in *.
  - now apply Hext.
  - destruct Ha as [H1 H2]. pose proof (admseg_ge m Hm a l T H2) as Hge.
    rewrite (IH a T H2 HT). rewrite (Hext p a) by lia. reflexivity.
Qed.

Lemma pencostR_ext (C1 C2 : nat -> nat -> R) (pen : R) (m n : nat) : (1 <= m)%nat ->
  (forall s e, (s + m <= e)%nat -> (e <= n)%nat -> C1 s e = C2 s e) ->
  forall c, Adm m c n -> pencostR C1 pen c n = pencostR C2 pen c n.
Proof.
  intros Hm Hext c Hc. unfold pencostR.
  rewrite (segcostR_ext C1 C2 m n Hm Hext c 0%nat n Hc (le_n n)). reflexivity.
Qed.

(** * Embedding: the real model on an integer cost is the image of the executable model *)

Lemma Rltb_IZR x y : Rltb (IZR x) (IZR y) = (x <? y)%Z.
Proof.
  destruct (x <? y)%Z eqn:E.
  - apply Rltb_true, IZR_lt, Z.ltb_lt, E.
  - apply Rltb_false, IZR_le. apply Z.ltb_ge in E. exact E.
Qed.
Lemma Rleb_IZR x y : Rleb (IZR x) (IZR y) = (x <=? y)%Z.
Proof.
  destruct (x <=? y)%Z eqn:E.
  - apply Rleb_true, IZR_le, Z.leb_le, E.
  - apply Rleb_false, IZR_lt. apply Z.leb_gt in E. exact E.
Qed.

Lemma nthR_map_IZR l a : nthR (map IZR l) a = IZR (nthZ l a).
Proof. unfold nthR, nthZ. change 0 with (IZR 0). apply map_nth. Qed.

Lemma tl_map {A B} (f : A -> B) l : tl (map f l) = map f (tl l).
Proof. destruct l; reflexivity. Qed.

Definition liftp (p : nat * Z) : nat * R := (fst p, IZR (snd p)).

(** [IZR] commutes with the arithmetic of the loop and preserves both comparisons:
    [krun_map] of Proofs/PeltLoop.v *)
Theorem peltR_of_Z : forall (C : nat -> nat -> Z) (pen : Z) (m d n : nat),
  peltR (fun s e => IZR (C s e)) (IZR pen) m d n
  = (map IZR (fst (pelt C pen m d n)), snd (pelt C pen m d n)).
Proof.
  intros C pen m d n. rewrite peltR_kpelt, <- gpelt_Z, gpelt_kpelt. unfold kpelt.
  rewrite <- opp_IZR.
  rewrite (krun_map Zn Rn IZR (fun a T g => g + C a T + pen)%Z (fun _ b => b + pen)%Z _ _
             m d (- pen)%Z (C 0%nat) n); [|clear|apply le_n].
  - cbn [gmap gopt gprev fst snd]. now rewrite tl_map.
  - intros t _. apply kstep_map.
    + unfold kcands. rewrite map_map. apply map_ext. intros a. unfold kcandv. cbn [gmap gopt].
      change (nthV Rn (map IZR ?l) a) with (nthR (map IZR l) a).
      now rewrite nthR_map_IZR, !plus_IZR.
    + intros x y _ _. apply Rltb_IZR.
    + intros i b _ x _. rewrite <- plus_IZR. apply Rleb_IZR.
Qed.

(** * End to end: the built-in squared-error cost, one column *)

Section L2OneColumn.
Variable xs : list R.
Notation P1 := (prefix xs).
Notation P2 := (prefix (sq xs)).

(** the split inequality of the kernel, in the shape the PELT theorem asks for *)
Lemma l2_kernel_split (m : nat) : (1 <= m)%nat ->
  forall s k e, (s + m <= k)%nat -> (k + m <= e)%nat ->
    l2_cost_optim_R P1 P2 s k + l2_cost_optim_R P1 P2 k e <= l2_cost_optim_R P1 P2 s e.
Proof. intros Hm s k e H1 H2. apply l2_split; lia. Qed.

(** PELT run on the prefix sums of [xs] with the squared-error kernel: the output is an
    admissible segmentation that minimises the penalised kernel cost.  No hypothesis on
    the cost is left. *)
Theorem pelt_l2_end_to_end (pen : R) (m : nat) :
  (1 <= m)%nat -> (2 * m <= length xs)%nat -> 0 <= pen ->
  let n := length xs in
  let cpts := snd (peltR (l2_cost_optim_R P1 P2) pen m (m - 1) n) in
  Adm m cpts n /\
  forall c, Adm m c n ->
    pencostR (l2_cost_optim_R P1 P2) pen cpts n <= pencostR (l2_cost_optim_R P1 P2) pen c n.
Proof.
  intros Hm Hn Hp n cpts. split.
  - apply peltR_adm; assumption.
  - apply peltR_optimal; [assumption|assumption|assumption|lia|].
    now apply l2_kernel_split.
Qed.

(** on the intervals PELT reads, the kernel is the residual sum of squares of the slice *)
Lemma l2_kernel_is_rss (m : nat) : (1 <= m)%nat ->
  forall s e, (s + m <= e)%nat -> (e <= length xs)%nat ->
    l2_cost_optim_R P1 P2 s e = rss (slice s e xs).
Proof. intros Hm s e H1 H2. apply l2_optim_is_rss; lia. Qed.

(** the same statement with the cost read as the residual sum of squares of the data *)
Corollary pelt_l2_end_to_end_rss (pen : R) (m : nat) :
  (1 <= m)%nat -> (2 * m <= length xs)%nat -> 0 <= pen ->
  let n := length xs in
  let cpts := snd (peltR (l2_cost_optim_R P1 P2) pen m (m - 1) n) in
  Adm m cpts n /\
  forall c, Adm m c n ->
    pencostR (fun s e => rss (slice s e xs)) pen cpts n
    <= pencostR (fun s e => rss (slice s e xs)) pen c n.
Proof.
  intros Hm Hn Hp n cpts.
  destruct (pelt_l2_end_to_end pen m Hm Hn Hp) as [Ha Ho]. fold n in Ha, Ho. fold cpts in Ha, Ho.
  split; [exact Ha|]. intros c Hc.
  rewrite <- (pencostR_ext _ _ pen m n Hm (l2_kernel_is_rss m Hm) cpts Ha).
  rewrite <- (pencostR_ext _ _ pen m n Hm (l2_kernel_is_rss m Hm) c Hc).
  now apply Ho.
Qed.

(** and the last score is that minimal penalised residual sum of squares *)
Corollary pelt_l2_final_score_rss (pen : R) (m : nat) :
  (1 <= m)%nat -> (2 * m <= length xs)%nat -> 0 <= pen ->
  let n := length xs in
  let out := peltR (l2_cost_optim_R P1 P2) pen m (m - 1) n in
  nth (n - 1) (fst out) 0 = pencostR (fun s e => rss (slice s e xs)) pen (snd out) n.
Proof.
  intros Hm Hn Hp n out. unfold out.
  rewrite peltR_final_is_pencost by assumption.
  apply (pencostR_ext _ _ pen m n Hm (l2_kernel_is_rss m Hm)).
  apply peltR_adm; assumption.
Qed.
End L2OneColumn.

(** * Several columns: the aggregated cost is the sum of the per-column costs *)

Definition sumcost (Cs : list (nat -> nat -> R)) (s e : nat) : R :=
  fold_right Rplus 0 (map (fun c => c s e) Cs).

(** a finite sum of costs satisfying the split inequality at [(s, k, e)] satisfies it *)
Lemma split_sum (Cs : list (nat -> nat -> R)) (s k e : nat) :
  (forall c, In c Cs -> c s k + c k e <= c s e) ->
  sumcost Cs s k + sumcost Cs k e <= sumcost Cs s e.
Proof.
  unfold sumcost. induction Cs as [|c0 Cs IH]; intros H; cbn [map fold_right]; [lra|].
  pose proof (H c0 (or_introl eq_refl)) as H0.
  assert (HI : forall c, In c Cs -> c s k + c k e <= c s e) by (intros c Hc; apply H; now right).
  specialize (IH HI). lra.
Qed.

Lemma sumcost_ext (Cs1 Cs2 : list (nat -> nat -> R)) (s e : nat) :
  map (fun c => c s e) Cs1 = map (fun c => c s e) Cs2 -> sumcost Cs1 s e = sumcost Cs2 s e.
Proof. unfold sumcost. intros H. now rewrite H. Qed.

(** the aggregated squared-error cost of a list of columns, as np.sum(..., axis=1) forms it *)
Definition l2_multi (xss : list (list R)) (s e : nat) : R :=
  fold_right Rplus 0 (map (fun xs => l2_cost_optim_R (prefix xs) (prefix (sq xs)) s e) xss).
Definition rss_multi (xss : list (list R)) (s e : nat) : R :=
  fold_right Rplus 0 (map (fun xs => rss (slice s e xs)) xss).

Lemma l2_multi_sumcost xss s e :
  l2_multi xss s e
  = sumcost (map (fun xs => l2_cost_optim_R (prefix xs) (prefix (sq xs))) xss) s e.
Proof. unfold l2_multi, sumcost. now rewrite map_map. Qed.

Lemma l2_multi_split (xss : list (list R)) (m : nat) : (1 <= m)%nat ->
  forall s k e, (s + m <= k)%nat -> (k + m <= e)%nat ->
    l2_multi xss s k + l2_multi xss k e <= l2_multi xss s e.
Proof.
  intros Hm s k e H1 H2. rewrite !l2_multi_sumcost. apply split_sum.
  intros c Hc. apply in_map_iff in Hc as (xs & <- & _). now apply (l2_kernel_split xs m Hm).
Qed.

Lemma l2_multi_is_rss (xss : list (list R)) (m n : nat) : (1 <= m)%nat ->
  (forall xs, In xs xss -> length xs = n) ->
  forall s e, (s + m <= e)%nat -> (e <= n)%nat -> l2_multi xss s e = rss_multi xss s e.
Proof.
  intros Hm Hlen s e H1 H2. unfold l2_multi, rss_multi. f_equal.
  apply map_ext_in. intros xs Hxs. apply (l2_kernel_is_rss xs m Hm s e H1).
  rewrite (Hlen xs Hxs). exact H2.
Qed.

(** PELT on the aggregated kernel cost of any list of columns returns a minimiser; the
    kernel statement needs no assumption at all on the columns *)
Theorem pelt_l2_multicolumn_end_to_end (xss : list (list R)) (pen : R) (m n : nat) :
  (1 <= m)%nat -> (2 * m <= n)%nat -> 0 <= pen ->
  let cpts := snd (peltR (l2_multi xss) pen m (m - 1) n) in
  Adm m cpts n /\
  forall c, Adm m c n -> pencostR (l2_multi xss) pen cpts n <= pencostR (l2_multi xss) pen c n.
Proof.
  intros Hm Hn Hp cpts. split.
  - apply peltR_adm; assumption.
  - apply peltR_optimal; [assumption|assumption|assumption|lia|].
    now apply l2_multi_split.
Qed.

(** when every column has [n] observations the cost is the summed residual sum of squares *)
Corollary pelt_l2_multicolumn_end_to_end_rss (xss : list (list R)) (pen : R) (m n : nat) :
  (1 <= m)%nat -> (2 * m <= n)%nat -> 0 <= pen ->
  (forall xs, In xs xss -> length xs = n) ->
  let cpts := snd (peltR (l2_multi xss) pen m (m - 1) n) in
  Adm m cpts n /\
  forall c, Adm m c n -> pencostR (rss_multi xss) pen cpts n <= pencostR (rss_multi xss) pen c n.
Proof.
  intros Hm Hn Hp Hlen cpts.
  destruct (pelt_l2_multicolumn_end_to_end xss pen m n Hm Hn Hp) as [Ha Ho]. fold cpts in Ha, Ho.
  split; [exact Ha|]. intros c Hc.
  rewrite <- (pencostR_ext _ _ pen m n Hm (l2_multi_is_rss xss m n Hm Hlen) cpts Ha).
  rewrite <- (pencostR_ext _ _ pen m n Hm (l2_multi_is_rss xss m n Hm Hlen) c Hc).
  now apply Ho.
Qed.

(** * End to end: the Gaussian mean-and-variance cost, one column.

    [gvar_split] needs the maximum-likelihood variance of the three intervals involved to be
    at least the floor 1e-16 the code clips it to.  That is a condition on the DATA (it
    fails e.g. for a constant stretch), stated here for every interval of length >= m
    inside the data; it is the only hypothesis besides the ones of the L2 theorem.  The
    bounded form of the optimality theorem is what makes a condition on intervals inside
    [0, n] enough. *)

Section GaussianOneColumn.
Variable xs : list R.
Notation P1 := (prefix xs).
Notation P2 := (prefix (sq xs)).

Definition var_above_floor (m : nat) : Prop :=
  forall s e, (s + m <= e)%nat -> (e <= length xs)%nat -> floor_var <= varR (slice s e xs).

Lemma gvar_kernel_split (m : nat) : (1 <= m)%nat -> var_above_floor m ->
  forall s k e, (s + m <= k)%nat -> (k + m <= e)%nat -> (e <= length xs)%nat ->
    gaussian_var_cost_optim_R P1 P2 s k + gaussian_var_cost_optim_R P1 P2 k e
    <= gaussian_var_cost_optim_R P1 P2 s e.
Proof.
  intros Hm Hv s k e H1 H2 H3.
  apply gvar_split; [lia|lia| | | ]; rewrite V_is_varR by lia; apply Hv; lia.
Qed.

Theorem pelt_gvar_end_to_end (pen : R) (m : nat) :
  (1 <= m)%nat -> (2 * m <= length xs)%nat -> 0 <= pen -> var_above_floor m ->
  let n := length xs in
  let cpts := snd (peltR (gaussian_var_cost_optim_R P1 P2) pen m (m - 1) n) in
  Adm m cpts n /\
  forall c, Adm m c n ->
    pencostR (gaussian_var_cost_optim_R P1 P2) pen cpts n
    <= pencostR (gaussian_var_cost_optim_R P1 P2) pen c n.
Proof.
  intros Hm Hn Hp Hv n cpts. split.
  - apply peltR_adm; assumption.
  - apply peltR_optimal_bounded; [assumption|assumption|assumption|lia|].
    now apply gvar_kernel_split.
Qed.

(** on the intervals PELT reads, the kernel is twice the negative Gaussian log-likelihood
    of the slice at its maximum-likelihood estimate *)
Lemma gvar_kernel_is_nll (m : nat) : (1 <= m)%nat -> var_above_floor m ->
  forall s e, (s + m <= e)%nat -> (e <= length xs)%nat ->
    gaussian_var_cost_optim_R P1 P2 s e
    = nll2 (meanR (slice s e xs)) (varR (slice s e xs)) (slice s e xs).
Proof.
  intros Hm Hv s e H1 H2. apply gvar_optim_is_nll_at_mle; [lia|]. now apply Hv.
Qed.

Corollary pelt_gvar_end_to_end_nll (pen : R) (m : nat) :
  (1 <= m)%nat -> (2 * m <= length xs)%nat -> 0 <= pen -> var_above_floor m ->
  let n := length xs in
  let cpts := snd (peltR (gaussian_var_cost_optim_R P1 P2) pen m (m - 1) n) in
  let nll := fun s e => nll2 (meanR (slice s e xs)) (varR (slice s e xs)) (slice s e xs) in
  Adm m cpts n /\
  forall c, Adm m c n -> pencostR nll pen cpts n <= pencostR nll pen c n.
Proof.
  intros Hm Hn Hp Hv n cpts nll.
  destruct (pelt_gvar_end_to_end pen m Hm Hn Hp Hv) as [Ha Ho]. fold n in Ha, Ho. fold cpts in Ha, Ho.
  split; [exact Ha|]. intros c Hc. unfold nll.
  rewrite <- (pencostR_ext _ _ pen m n Hm (gvar_kernel_is_nll m Hm Hv) cpts Ha).
  rewrite <- (pencostR_ext _ _ pen m n Hm (gvar_kernel_is_nll m Hm Hv) c Hc).
  now apply Ho.
Qed.
End GaussianOneColumn.

(** * Non-vacuity: a concrete integer instance, computed on the executable side *)

(** two candidate mean levels, eight observations; the cost of a segment is the
    smaller of the two summed losses ([tcost] of Proofs/PeltRefine.v) *)
Definition ex_loss : list (list Z) :=
  [[0; 4]; [1; 5]; [0; 3]; [6; 0]; [4; 1]; [5; 0]; [0; 6]; [1; 4]]%Z.

Lemma ex_pelt_Z :
  pelt (tcost ex_loss 1) 2 2 1 8 = ([-2; 1; 1; 6; 4; 4; 10; 7]%Z, [3; 6]%nat).
Proof. vm_compute. reflexivity. Qed.

Example peltR_of_Z_example :
  peltR (fun s e => IZR (tcost ex_loss 1 s e)) 2 2 1 8
  = (map IZR [-2; 1; 1; 6; 4; 4; 10; 7]%Z, [3; 6]%nat).
Proof. rewrite (peltR_of_Z (tcost ex_loss 1) 2 2 1 8), ex_pelt_Z. reflexivity. Qed.

(** the hypotheses of the real optimality theorem are satisfiable and its conclusion is
    the expected one on that instance: no admissible segmentation costs less than 7 *)
Example peltR_optimal_example : forall c, Adm 2 c 8 ->
  7 <= pencostR (fun s e => IZR (tcost ex_loss 1 s e)) 2 c 8.
Proof.
  intros c Hc.
  assert (Hsplit : forall s k e, (s + 2 <= k)%nat -> (k + 2 <= e)%nat ->
            IZR (tcost ex_loss 1 s k) + IZR (tcost ex_loss 1 k e) <= IZR (tcost ex_loss 1 s e)).
  { intros s k e H1 H2. rewrite <- plus_IZR. apply IZR_le. apply tcost_split; lia. }
  pose proof (peltR_optimal (fun s e => IZR (tcost ex_loss 1 s e)) 2 2 1 8
                ltac:(lia) ltac:(lia) ltac:(lra) ltac:(lia) Hsplit c Hc) as Hopt.
  rewrite <- peltR_final_is_pencost in Hopt by lia.
  rewrite peltR_of_Z_example in Hopt. exact Hopt.
Qed.

(** * The end-to-end theorem restated on the generic definition of Model/Generic.v *)
Corollary generic_pelt_l2_optimal (xs : list R) pen m :
  (1 <= m)%nat -> (2 * m <= length xs)%nat -> 0 <= pen ->
  let n := length xs in
  let P1 := prefix xs in let P2 := prefix (sq xs) in
  let cpts := snd (gpelt Rn (l2_cost_optim_R P1 P2) pen m (m - 1) n) in
  Adm m cpts n /\
  forall c, Adm m c n ->
    pencostR (l2_cost_optim_R P1 P2) pen cpts n <= pencostR (l2_cost_optim_R P1 P2) pen c n.
Proof.
  intros Hm Hn Hp. cbv zeta. rewrite gpelt_R. apply (pelt_l2_end_to_end xs pen m Hm Hn Hp).
Qed.

Print Assumptions FR_lower.
Print Assumptions FR_upper.
Print Assumptions peltR_adm.
Print Assumptions peltR_final_is_pencost.
Print Assumptions peltR_scores_optimal.
Print Assumptions peltR_optimal.
Print Assumptions peltR_scores_optimal_bounded.
Print Assumptions peltR_optimal_bounded.
Print Assumptions peltR_of_Z.
Print Assumptions pelt_l2_end_to_end.
Print Assumptions pelt_l2_end_to_end_rss.
Print Assumptions pelt_l2_final_score_rss.
Print Assumptions split_sum.
Print Assumptions pelt_l2_multicolumn_end_to_end.
Print Assumptions pelt_l2_multicolumn_end_to_end_rss.
Print Assumptions pelt_gvar_end_to_end.
Print Assumptions pelt_gvar_end_to_end_nll.
Print Assumptions peltR_of_Z_example.
Print Assumptions peltR_optimal_example.
Print Assumptions generic_pelt_l2_optimal.
