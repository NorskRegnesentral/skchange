(** Rounding-error analysis of the prefix-sum evaluation of the squared-error cost.

    The library evaluates the L2 cost of a segment x_s .. x_{e-1} from two running
    sums computed in binary64 (np.cumsum: S[0] = 0, S[i+1] = fl (S[i] + y_i)):

        S1 = fl-cumsum of x             S2 = fl-cumsum of fl (x_i * x_i)
        a    = fl (S1[e] - S1[s])
        cost = fl ( fl (S2[e] - S2[s]) - fl ( fl (a * a) / n ) )        n = e - s

    Over the reals this is [l2_cost_optim_R] (Gen/KernelsR.v), shown equal to the
    residual sum of squares in Proofs/CostKernels.v.  This file bounds the distance
    between the floating-point value and the real one.

    MODEL OF FLOATING POINT (the assumption of every theorem of Part B):
    Flocq's format FLX with precision 53 (radix 2, UNBOUNDED exponent range) and
    rounding to nearest, ties to even:
        rnd53 x = round radix2 (FLX_exp 53) ZnearestE x          u53 = 2^-53.
    This is binary64 arithmetic as long as no operation overflows and no
    multiplication / division result falls into the subnormal range; overflow and
    underflow are NOT modelled.  Every basic operation is "round the exact result",
    as IEEE-754 prescribes for + - * /.

    Part A is independent of Flocq: it is carried out for ANY function [rnd] with
        forall x, Rabs (rnd x - x) <= u * Rabs x        and   0 <= u
    (the standard model of floating-point arithmetic).  The data x_i are arbitrary
    reals (they need not be representable), the length n = e - s enters only as a
    real divisor.  Each intermediate value is carried as a pair (error bound, magnitude
    bound) of its exact counterpart, [aerr], with one rule per operation; the kernels of
    Proofs/FloatKernels2.v and Proofs/FloatSaving.v are analysed by the same rules.

    Results (Part B, instantiated with rnd53 / u53; M1 = sum of |x_i|, M2 = sum of
    x_i^2, both over the WHOLE prefix 0 .. e-1, n = e - s):
          [fsum53_error]         |fsum l - sum l| <= ((1+u)^(length l) - 1) * sum |l_i|
          [fsum53_error_small]   ... <= 1.02 * length l * u * sum |l_i|   if length l * u <= 1/100
          [fdiff53_error]        |fl (S[e] - S[s]) - (segment sum)| <= (2.04 e + 2.04) u M1
                                 if s <= e and e * u <= 1/100
          [l2_cost_float53_error]  |cost_float - cost_real| <= (4.2 e + 6) u (M2 + M1^2 / n)
                                 if s < e and e * u <= 1/100   (e <= length l is not needed)
          [l2_cost_float53_vs_rss] the same against rss (slice s e l), s < e <= length l
          [l2_cost_float53_tolerance]       e <= 2 000 000     ==>  error <= 1e-9    * (M2 + M1^2 / n)
          [l2_cost_float53_tolerance_wide]  e * u <= 2^-20     ==>  error <= 4.01e-6 * (M2 + M1^2 / n)
    Sharp forms (no smallness hypothesis, in powers of 1+u) are [fdiff_error_sharp]
    and [l2_cost_float_error_sharp].  The constants are first-order tight for this
    style of analysis (2e for the two prefix sums, 4e for the squared one); the
    cancellation S[e] - S[s] is the reason the error scales with the prefix and not
    with the segment.  [rnd53_is_binary64_normal] relates the model to binary64. *)
From Coq Require Import Reals List Psatz.
From Flocq Require Import Core Relative.
From SK Require Import Gen.KernelsR Proofs.RealLib Proofs.ScoreKernels Proofs.CostKernels.
Import ListNotations.
Open Scope R_scope.

(** * Exact sums *)

Lemma sumR_map_nonneg (f : R -> R) (l : list R) :
  (forall x, 0 <= f x) -> 0 <= sumR (map f l).
Proof.
  intros Hf. induction l as [|a t IH]; cbn [map sumR]; [lra|].
  pose proof (Hf a) as Ha. lra.
Qed.

Lemma sumR_abs_nonneg l : 0 <= sumR (map Rabs l).
Proof. apply sumR_map_nonneg. exact Rabs_pos. Qed.

Lemma sumR_abs_le l : Rabs (sumR l) <= sumR (map Rabs l).
Proof.
  induction l as [|a t IH]; cbn [map sumR].
  - rewrite Rabs_R0. lra.
  - pose proof (Rabs_triang a (sumR t)) as Ht. lra.
Qed.

Lemma sqr_nonneg x : 0 <= x * x.
Proof. nra. Qed.

Lemma sumR_map_firstn_split (f : R -> R) s e l :
  (s <= e)%nat ->
  sumR (map f (firstn e l)) = sumR (map f (firstn s l)) + sumR (map f (slice s e l)).
Proof.
  intros Hse. pose proof (prefix_diff (map f l) s e Hse) as HD.
  unfold prefix in HD. rewrite <- map_slice, !firstn_map in HD. lra.
Qed.

(** the sum of a non-negative function over a slice is at most its sum over the
    whole prefix *)
Lemma sumR_slice_le_prefix (f : R -> R) s e l :
  (forall x, 0 <= f x) -> (s <= e)%nat ->
  sumR (map f (slice s e l)) <= sumR (map f (firstn e l)).
Proof.
  intros Hf Hse. rewrite (sumR_map_firstn_split f s e l Hse).
  pose proof (sumR_map_nonneg f (firstn s l) Hf). lra.
Qed.

Lemma sumR_firstn_mono (f : R -> R) s e l :
  (forall x, 0 <= f x) -> (s <= e)%nat ->
  sumR (map f (firstn s l)) <= sumR (map f (firstn e l)).
Proof.
  intros Hf Hse. rewrite (sumR_map_firstn_split f s e l Hse).
  pose proof (sumR_map_nonneg f (slice s e l) Hf). lra.
Qed.

Lemma sq_as_mult l : sq l = map (fun x => x * x) l.
Proof. unfold sq. apply map_ext. intros a. ring. Qed.

(** [Rabs] goals to linear form *)
Lemma Rabs_le_both x y : Rabs x <= y -> - y <= x <= y.
Proof. exact (Rabs_le_inv x y). Qed.

Lemma Rabs_le_of x y : - y <= x <= y -> Rabs x <= y.
Proof. exact (Rabs_le x y). Qed.

Lemma sumR_slice_le (f : R -> R) s k e l :
  (forall x, 0 <= f x) -> (s <= k <= e)%nat ->
  sumR (map f (slice s k l)) <= sumR (map f (firstn e l)).
Proof.
  intros Hf [Hsk Hke].
  pose proof (sumR_slice_le_prefix f s k l Hf Hsk). pose proof (sumR_firstn_mono f k e l Hf Hke). lra.
Qed.

Lemma sumR_slice_abs_le s k e l :
  (s <= k <= e)%nat -> Rabs (sumR (slice s k l)) <= sumR (map Rabs (firstn e l)).
Proof.
  intros H. pose proof (sumR_abs_le (slice s k l)). pose proof (sumR_slice_le Rabs s k e l Rabs_pos H). lra.
Qed.

Lemma sq_div_nonneg x n : (0 < n)%nat -> 0 <= x ^ 2 / INR n.
Proof.
  intros Hn. apply Rmult_le_pos; [apply pow2_ge_0|].
  left. apply Rinv_0_lt_compat, lt_0_INR, Hn.
Qed.

(** * A value with an error bound and a magnitude bound *)

(** [aerr x X E M]: the computed [x] is within [E] of the exact [X], and [X] is at most [M]
    in magnitude.  A rounding-error analysis carries such a pair through the computation,
    one rule per operation; the error of the result is then read off as a polynomial. *)
Definition aerr (x X E M : R) : Prop := Rabs (x - X) <= E /\ Rabs X <= M.

Lemma aerr_weaken {x X E M} E' M' : aerr x X E M -> E <= E' -> M <= M' -> aerr x X E' M'.
Proof. intros [H1 H2] HE HM. split; lra. Qed.

Lemma aerr_exact X : aerr X X 0 (Rabs X).
Proof. split; [|lra]. unfold Rminus. rewrite Rplus_opp_r, Rabs_R0. lra. Qed.

Lemma aerr_add {x X Ex Mx y Y Ey My} :
  aerr x X Ex Mx -> aerr y Y Ey My -> aerr (x + y) (X + Y) (Ex + Ey) (Mx + My).
Proof.
  intros [H1 H2] [H3 H4]. apply Rabs_le_both in H1, H2, H3, H4. split; apply Rabs_le_of; lra.
Qed.

Lemma aerr_sub {x X Ex Mx y Y Ey My} :
  aerr x X Ex Mx -> aerr y Y Ey My -> aerr (x - y) (X - Y) (Ex + Ey) (Mx + My).
Proof.
  intros [H1 H2] [H3 H4]. apply Rabs_le_both in H1, H2, H3, H4. split; apply Rabs_le_of; lra.
Qed.

Lemma aerr_mul {x X Ex Mx y Y Ey My} :
  aerr x X Ex Mx -> aerr y Y Ey My ->
  aerr (x * y) (X * Y) (Ex * Ey + Ex * My + Mx * Ey) (Mx * My).
Proof.
  intros [Hx HX] [Hy HY].
  pose proof (Rabs_pos X). pose proof (Rabs_pos Y).
  pose proof (Rabs_pos (x - X)). pose proof (Rabs_pos (y - Y)).
  split; [|rewrite Rabs_mult; apply Rmult_le_compat; assumption].
  replace (x * y - X * Y) with ((x - X) * (y - Y) + (x - X) * Y + X * (y - Y)) by ring.
  eapply Rle_trans; [apply Rabs_triang|].
  eapply Rle_trans; [apply Rplus_le_compat_r, Rabs_triang|].
  rewrite !Rabs_mult. repeat apply Rplus_le_compat; apply Rmult_le_compat; assumption.
Qed.

Lemma aerr_div {x X E M} n : 0 < n -> aerr x X E M -> aerr (x / n) (X / n) (E / n) (M / n).
Proof.
  intros Hn [H1 H2]. assert (Hi : 0 < / n) by (apply Rinv_0_lt_compat; exact Hn).
  unfold Rdiv. split; [replace (x * / n - X * / n) with ((x - X) * / n) by ring|];
    rewrite Rabs_mult, (Rabs_pos_eq (/ n)) by lra; apply Rmult_le_compat_r; lra.
Qed.

(** * Part A: the standard model, for an arbitrary rounding function *)

Section Abstract.
  Variable rnd : R -> R.
  Variable u : R.
  Hypothesis u_nonneg : 0 <= u.
  Hypothesis rnd_rel : forall x, Rabs (rnd x - x) <= u * Rabs x.

  (** sequential accumulation from a starting value, as np.cumsum does *)
  Definition facc (a : R) (l : list R) : R := fold_left (fun acc y => rnd (acc + y)) l a.
  Definition fsum (l : list R) : R := facc 0 l.
  Definition fprefix (l : list R) (i : nat) : R := fsum (firstn i l).

  (** g n = (1+u)^n - 1, the classical accumulated relative error of n roundings *)
  Definition g (n : nat) : R := (1 + u) ^ n - 1.

  Lemma pow1u_ge1 n : 1 <= (1 + u) ^ n.
  Proof. apply pow_R1_Rle. lra. Qed.

  Lemma g_nonneg n : 0 <= g n.
  Proof. unfold g. pose proof (pow1u_ge1 n). lra. Qed.

  Lemma g_mono s e : (s <= e)%nat -> g s <= g e.
  Proof.
    intros Hse. unfold g.
    assert (H : (1 + u) ^ s <= (1 + u) ^ e) by (apply Rle_pow; [lra|exact Hse]). lra.
  Qed.

  Lemma rnd_abs_le x : Rabs (rnd x) <= (1 + u) * Rabs x.
  Proof.
    pose proof (rnd_rel x) as H.
    pose proof (Rabs_triang (rnd x - x) x) as Ht.
    replace (rnd x - x + x) with (rnd x) in Ht by ring. lra.
  Qed.

  (** one rounding on top of an absolute error E:  the work-horse of Part A *)
  Lemma rnd_abs_err x X E M :
    Rabs (x - X) <= E -> Rabs X <= M ->
    Rabs (rnd x - X) <= E * (1 + u) + u * M.
  Proof.
    intros HE HM.
    pose proof (rnd_rel x) as Hr.
    pose proof (Rabs_triang (x - X) X) as Ht.
    replace (x - X + X) with x in Ht by ring.
    assert (Hux : u * Rabs x <= u * (E + M)).
    { apply Rmult_le_compat_l; [exact u_nonneg|lra]. }
    pose proof (Rabs_triang (rnd x - x) (x - X)) as Ht2.
    replace (rnd x - x + (x - X)) with (rnd x - X) in Ht2 by ring.
    lra.
  Qed.

  Lemma aerr_rnd {x X E M} : aerr x X E M -> aerr (rnd x) X (E * (1 + u) + u * M) M.
  Proof. intros [HE HM]. split; [exact (rnd_abs_err x X E M HE HM)|exact HM]. Qed.

  Lemma aerr_rnd_exact X : aerr (rnd X) X (u * Rabs X) (Rabs X).
  Proof. split; [apply rnd_rel|apply Rle_refl]. Qed.

  (** ** 1. Sequential summation *)

  (** the accumulation started from an approximate value: every step adds an exact term and
      rounds once *)
  Lemma facc_aerr l : forall a X E M,
    aerr a X E M ->
    aerr (facc a l) (X + sumR l)
         ((1 + u) ^ length l * E + g (length l) * (M + sumR (map Rabs l)))
         (M + sumR (map Rabs l)).
  Proof.
    induction l as [|y t IH]; intros a X E M Ha; cbn [sumR length map].
    - unfold facc, g. cbn [fold_left pow]. rewrite Rplus_0_r.
      refine (aerr_weaken _ _ Ha _ _); lra.
    - pose proof (IH _ _ _ _ (aerr_rnd (aerr_add Ha (aerr_exact y)))) as H.
      rewrite Rplus_assoc in H. refine (aerr_weaken _ _ H _ _); [|lra].
      pose proof (sumR_abs_nonneg t) as HT. pose proof (pow1u_ge1 (length t)) as Hp.
      unfold g. cbn [pow]. set (p := (1 + u) ^ length t) in *.
      assert (0 <= u * p * sumR (map Rabs t)).
      { apply Rmult_le_pos; [apply Rmult_le_pos; [exact u_nonneg|lra]|exact HT]. }
      lra.
  Qed.

  Lemma facc_error l : forall a,
    Rabs (facc a l - (a + sumR l)) <= g (length l) * (Rabs a + sumR (map Rabs l)).
  Proof. intros a. destruct (facc_aerr l a a 0 (Rabs a) (aerr_exact a)) as [H _]. lra. Qed.

  Theorem fsum_error l :
    Rabs (fsum l - sumR l) <= ((1 + u) ^ length l - 1) * sumR (map Rabs l).
  Proof.
    pose proof (facc_error l 0) as H. rewrite Rabs_R0, !Rplus_0_l in H. exact H.
  Qed.

  (** ** 2. Prefix sums and their differences *)

  Lemma fprefix_error l i :
    Rabs (fprefix l i - prefix l i) <= g i * sumR (map Rabs (firstn i l)).
  Proof.
    unfold fprefix, prefix.
    pose proof (fsum_error (firstn i l)) as H. fold (g (length (firstn i l))) in H.
    pose proof (g_mono _ _ (firstn_le_length i l)) as Hg.
    pose proof (Rmult_le_compat_r _ _ _ (sumR_abs_nonneg (firstn i l)) Hg). lra.
  Qed.

  (** relative error of a rounded difference of two prefix sums: 1 + hh e = (1+u)(2(1+u)^e - 1) *)
  Definition hh (e : nat) : R := (1 + 2 * g e) * (1 + u) - 1.

  Lemma hh_nonneg e : 0 <= hh e.
  Proof. unfold hh. pose proof (g_nonneg e) as Hg. nra. Qed.

  Lemma fprefix_aerr l i e :
    (i <= e)%nat ->
    aerr (fprefix l i) (prefix l i)
         (g e * sumR (map Rabs (firstn e l))) (sumR (map Rabs (firstn e l))).
  Proof.
    intros Hie.
    pose proof (fprefix_error l i) as H.
    pose proof (g_mono i e Hie) as Hg. pose proof (g_nonneg i) as Hg0.
    pose proof (sumR_firstn_mono Rabs i e l Rabs_pos Hie) as HA.
    pose proof (sumR_abs_nonneg (firstn i l)) as HA0.
    pose proof (sumR_abs_le (firstn i l)) as HX.
    assert (g i * sumR (map Rabs (firstn i l)) <= g e * sumR (map Rabs (firstn e l)))
      by (apply Rmult_le_compat; assumption).
    split; [|unfold prefix]; lra.
  Qed.

  (** the rounded difference of two prefix sums up to [e]: the magnitude bound is that of the
      segment sum itself, not the sum of the bounds of the two prefixes *)
  Lemma fdiff_aerr l s k e :
    (s <= k <= e)%nat ->
    aerr (rnd (fprefix l k - fprefix l s)) (sumR (slice s k l))
         (hh e * sumR (map Rabs (firstn e l))) (sumR (map Rabs (firstn e l))).
  Proof.
    intros Hske. pose proof (sumR_slice_abs_le s k e l Hske) as HM.
    rewrite <- (prefix_diff l s k (proj1 Hske)) in HM |- *.
    destruct (aerr_sub (fprefix_aerr l k e (proj2 Hske)) (fprefix_aerr l s e ltac:(lia))) as [H _].
    refine (aerr_weaken _ _ (aerr_rnd (conj H HM)) _ (Rle_refl _)).
    right. unfold hh. ring.
  Qed.

  (** sharp form: no smallness hypothesis; note that [e <= length l] is not needed *)
  Theorem fdiff_error_sharp l s e :
    (s <= e)%nat ->
    Rabs (rnd (fprefix l e - fprefix l s) - sumR (slice s e l))
      <= hh e * sumR (map Rabs (firstn e l)).
  Proof. intros Hse. exact (proj1 (fdiff_aerr l s e e (conj Hse (le_n e)))). Qed.

  (** (1+u)^k - 1 <= (1 + 2c) k u  as long as  n u <= c <= 1/2  and  k <= n *)
  Lemma g_small_gen c n :
    0 <= c <= 1 / 2 -> INR n * u <= c ->
    forall k, (k <= n)%nat -> g k <= (1 + 2 * c) * (INR k * u).
  Proof.
    intros Hc Hn. induction k as [|k IH]; intros Hk.
    - unfold g. cbn [pow INR]. lra.
    - specialize (IH ltac:(lia)). pose proof (pos_INR k) as Hk0.
      assert (Hku : INR k * u <= c).
      { pose proof (Rmult_le_compat_r u _ _ u_nonneg (le_INR k n ltac:(lia))). lra. }
      rewrite S_INR. unfold g in *. cbn [pow].
      (* (1+u) p - 1 = (p - 1)(1+u) + u <= (1+2c) t (1+u) + u  and  (1+2c) t <= (1+2c) c <= 2c *)
      pose proof (Rmult_le_compat_r (1 + u) _ _ ltac:(lra) IH).
      assert (Hcc : c * c <= 1 / 2 * c) by (apply Rmult_le_compat_r; lra).
      assert (Htu : (1 + 2 * c) * (INR k * u) * u <= 2 * c * u).
      { apply Rmult_le_compat_r; [exact u_nonneg|].
        assert ((1 + 2 * c) * (INR k * u) <= (1 + 2 * c) * c) by (apply Rmult_le_compat_l; lra).
        lra. }
      lra.
  Qed.

  Lemma g_small n : INR n * u <= 1 / 100 -> g n <= 102 / 100 * (INR n * u).
  Proof.
    intros Hn.
    pose proof (g_small_gen (1 / 100) n ltac:(lra) Hn n (le_n n)) as H. lra.
  Qed.

  Lemma u_le_eu e : (0 < e)%nat -> u <= INR e * u.
  Proof.
    intros He. assert (1 <= INR e) by (change 1 with (INR 1); apply le_INR; lia).
    assert (1 * u <= INR e * u) by (apply Rmult_le_compat_r; assumption). lra.
  Qed.

  (** the error factors under the smallness hypotheses, with t = e u:
      1 <= P <= 1 + A t  gives  P (1+u)^k - 1 <= A t + 1.1 k (1 + A / 100) u  for k <= 5 *)
  Lemma consts_small P A e k :
    1 <= P <= 1 + A * (INR e * u) -> 0 <= A -> (k <= 5)%nat ->
    u <= 1 / 100 -> INR e * u <= 1 / 100 ->
    P * (1 + u) ^ k - 1 <= A * (INR e * u) + 11 / 10 * INR k * (1 + A / 100) * u.
  Proof.
    intros HP HA Hk Hu Ht.
    assert (H5u : INR 5 * u <= 5 / 100) by (cbn [INR]; lra).
    pose proof (g_small_gen (5 / 100) 5 ltac:(lra) H5u k Hk) as Hg.
    pose proof (pow1u_ge1 k) as Hg0. unfold g in Hg.
    pose proof (pos_INR e) as He. pose proof (pos_INR k) as Hk0.
    assert (Hku : 0 <= INR k * u) by (apply Rmult_le_pos; assumption).
    set (t := INR e * u) in *. set (Q := (1 + u) ^ k) in *.
    assert (H1 : P * Q <= (1 + A * t) * (1 + 11 / 10 * (INR k * u)))
      by (apply Rmult_le_compat; lra).
    assert (H2 : A * t * (INR k * u) <= A * (1 / 100) * (INR k * u)).
    { apply Rmult_le_compat_r; [exact Hku|]. apply Rmult_le_compat_l; lra. }
    lra.
  Qed.

  Lemma two_g_small e :
    INR e * u <= 1 / 100 ->
    1 <= 1 + 2 * g e <= 1 + 204 / 100 * (INR e * u)
    /\ 1 <= (1 + 2 * g e) ^ 2 <= 1 + 41217 / 10000 * (INR e * u).
  Proof.
    intros Hsmall. pose proof (g_small e Hsmall) as Hg. pose proof (g_nonneg e) as Hg0.
    assert (HGG : g e * g e <= 102 / 10000 * g e) by (apply Rmult_le_compat_r; lra).
    split; [lra|]. replace ((1 + 2 * g e) ^ 2) with (1 + 4 * g e + 4 * (g e * g e)) by ring.
    assert (0 <= g e * g e) by (apply Rmult_le_pos; assumption). lra.
  Qed.

  Lemma hh_small e :
    INR e * u <= 1 / 100 -> hh e <= (204 / 100 * INR e + 204 / 100) * u.
  Proof.
    intros Hsmall. destruct e as [|e'].
    - unfold hh, g. cbn [pow INR]. lra.
    - set (e := S e') in *. pose proof (u_le_eu e ltac:(unfold e; lia)) as Hu.
      pose proof (consts_small _ _ e 1 (proj1 (two_g_small e Hsmall))
                    ltac:(lra) ltac:(lia) ltac:(lra) Hsmall) as H.
      cbn [INR pow] in H. unfold hh. lra.
  Qed.

  (** K1 = 2.04 e + 2.04 *)
  Theorem fdiff_error l s e :
    (s <= e)%nat -> INR e * u <= 1 / 100 ->
    Rabs (rnd (fprefix l e - fprefix l s) - sumR (slice s e l))
      <= (204 / 100 * INR e + 204 / 100) * u * sumR (map Rabs (firstn e l)).
  Proof.
    intros Hse Hsmall.
    pose proof (fdiff_error_sharp l s e Hse) as H.
    pose proof (Rmult_le_compat_r _ _ _ (sumR_abs_nonneg (firstn e l)) (hh_small e Hsmall)). lra.
  Qed.

  (** ** 3. The squared-error cost *)

  (** the rounded squares fl (x_i * x_i) that are accumulated into S2 *)
  Definition fsq (l : list R) : list R := map (fun x => rnd (x * x)) l.

  (** the cost, in exactly the operation order of the library *)
  Definition l2_cost_float (l : list R) (s e : nat) : R :=
    let a := rnd (fprefix l e - fprefix l s) in
    let b := rnd (fprefix (fsq l) e - fprefix (fsq l) s) in
    rnd (b - rnd (rnd (a * a) / INR (e - s))).

  Lemma fsq_abs_sum X :
    sumR (map Rabs (fsq X)) <= (1 + u) * sumR (map (fun x => x * x) X).
  Proof.
    unfold fsq. induction X as [|x t IH]; cbn [map sumR]; [lra|].
    pose proof (rnd_abs_le (x * x)) as H. pose proof (sqr_nonneg x) as Hx.
    rewrite (Rabs_pos_eq (x * x) Hx) in H. lra.
  Qed.

  Lemma fsq_sum_err X :
    Rabs (sumR (fsq X) - sumR (map (fun x => x * x) X)) <= u * sumR (map (fun x => x * x) X).
  Proof.
    unfold fsq. induction X as [|x t IH]; cbn [map sumR].
    - replace (0 - 0) with 0 by ring. rewrite Rabs_R0. lra.
    - pose proof (rnd_rel (x * x)) as H. pose proof (sqr_nonneg x) as Hx.
      rewrite (Rabs_pos_eq (x * x) Hx) in H.
      apply Rabs_le_both in H. apply Rabs_le_both in IH. apply Rabs_le_of. lra.
  Qed.

  (** the S2 difference against the exact sum of squares of the segment *)
  Lemma fdiff_sq_aerr l s k e :
    (s <= k <= e)%nat ->
    aerr (rnd (fprefix (fsq l) k - fprefix (fsq l) s)) (sumR (map (fun x => x * x) (slice s k l)))
         (((1 + hh e) * (1 + u) - 1) * sumR (map (fun x => x * x) (firstn e l)))
         (sumR (map (fun x => x * x) (firstn e l))).
  Proof.
    intros Hske.
    destruct (fdiff_aerr (fsq l) s k e Hske) as [H1 _].
    pose proof (fsq_abs_sum (firstn e l)) as H2.
    unfold fsq in H2 at 1. rewrite <- firstn_map in H2. fold (fsq l) in H2.
    pose proof (fsq_sum_err (slice s k l)) as H3.
    unfold fsq in H3 at 1. rewrite map_slice in H3. fold (fsq l) in H3.
    pose proof (sumR_slice_le (fun x => x * x) s k e l sqr_nonneg Hske) as H4.
    pose proof (sumR_map_nonneg (fun x => x * x) (slice s k l) sqr_nonneg) as H5.
    pose proof (hh_nonneg e) as Hh.
    set (M2 := sumR (map (fun x => x * x) (firstn e l))) in *.
    set (B := sumR (map (fun x => x * x) (slice s k l))) in *.
    assert (H6 : hh e * sumR (map Rabs (firstn e (fsq l))) <= hh e * ((1 + u) * M2))
      by (apply Rmult_le_compat_l; assumption).
    assert (H7 : u * B <= u * M2) by (apply Rmult_le_compat_l; assumption).
    split; [|rewrite (Rabs_pos_eq B H5); exact H4].
    apply Rabs_le_both in H1, H3. apply Rabs_le_of. lra.
  Qed.

  (** sharp form: the two relative errors are
        (1+u)^3 (2(1+u)^e - 1) - 1      on the sum of squares of the prefix, and
        (1+u)^5 (2(1+u)^e - 1)^2 - 1    on (sum of |x_i| over the prefix)^2 / n       *)
  Theorem l2_cost_float_error_sharp l s e :
    (s < e)%nat ->
    Rabs (l2_cost_float l s e - l2_cost_optim_R (prefix l) (prefix (sq l)) s e)
      <= ((1 + hh e) * (1 + u) ^ 2 - 1) * sumR (map (fun x => x * x) (firstn e l))
         + ((1 + hh e) ^ 2 * (1 + u) ^ 3 - 1)
           * ((sumR (map Rabs (firstn e l))) ^ 2 / INR (e - s)).
  Proof.
    intros Hlt. assert (Hse : (s <= e <= e)%nat) by lia.
    assert (Hn : 0 < INR (e - s)) by (apply lt_0_INR; lia).
    pose proof (fdiff_aerr l s e e Hse) as Ha.
    pose proof (fdiff_sq_aerr l s e e Hse) as Hb.
    pose proof (aerr_rnd (aerr_div _ Hn (aerr_rnd (aerr_mul Ha Ha)))) as Hq.
    destruct (aerr_rnd (aerr_sub Hb Hq)) as [H _].
    rewrite l2_optim_form, (prefix_diff l s e), (prefix_diff (sq l) s e), sq_as_mult, <- map_slice by lia.
    cbn [pow]. rewrite Rmult_1_r.
    eapply Rle_trans; [exact H|]. right. unfold Rdiv. ring.
  Qed.

  (** the two relative errors under the smallness hypothesis *)
  Lemma cost_consts_small e :
    (0 < e)%nat -> INR e * u <= 1 / 100 ->
    (1 + hh e) * (1 + u) ^ 2 - 1 <= (42 / 10 * INR e + 6) * u /\
    (1 + hh e) ^ 2 * (1 + u) ^ 3 - 1 <= (42 / 10 * INR e + 6) * u.
  Proof.
    intros He Hsmall. pose proof (u_le_eu e He) as Hu.
    destruct (two_g_small e Hsmall) as [G1 G2].
    pose proof (consts_small _ _ e 3 G1 ltac:(lra) ltac:(lia) ltac:(lra) Hsmall) as H1.
    pose proof (consts_small _ _ e 5 G2 ltac:(lra) ltac:(lia) ltac:(lra) Hsmall) as H2.
    cbn [INR] in H1, H2.
    replace ((1 + hh e) * (1 + u) ^ 2) with ((1 + 2 * g e) * (1 + u) ^ 3)
      by (unfold hh; ring).
    replace ((1 + hh e) ^ 2 * (1 + u) ^ 3) with ((1 + 2 * g e) ^ 2 * (1 + u) ^ 5)
      by (unfold hh; ring).
    split; lra.
  Qed.

  (** K = 4.2 e + 6.  [e <= length l] is not needed. *)
  Theorem l2_cost_float_error l s e :
    (s < e)%nat -> INR e * u <= 1 / 100 ->
    Rabs (l2_cost_float l s e - l2_cost_optim_R (prefix l) (prefix (sq l)) s e)
      <= (42 / 10 * INR e + 6) * u
         * (sumR (map (fun x => x * x) (firstn e l))
            + (sumR (map Rabs (firstn e l))) ^ 2 / INR (e - s)).
  Proof.
    intros Hlt Hsmall.
    pose proof (l2_cost_float_error_sharp l s e Hlt) as H.
    destruct (cost_consts_small e ltac:(lia) Hsmall) as [H1 H2].
    pose proof (sumR_map_nonneg (fun x => x * x) (firstn e l) sqr_nonneg) as HM2.
    pose proof (sq_div_nonneg (sumR (map Rabs (firstn e l))) (e - s) ltac:(lia)) as HW.
    pose proof (Rmult_le_compat_r _ _ _ HM2 H1). pose proof (Rmult_le_compat_r _ _ _ HW H2).
    lra.
  Qed.

End Abstract.

(** * Part B: binary64 without overflow / underflow  (Flocq FLX, precision 53) *)

(** round to nearest, ties to even, 53-bit significand, unbounded exponent *)
Definition rnd53 (x : R) : R := round radix2 (FLX_exp 53) ZnearestE x.
(** unit roundoff 2^-53 *)
Definition u53 : R := bpow radix2 (-53).

Lemma u53_nonneg : 0 <= u53.
Proof. apply bpow_ge_0. Qed.

Lemma u53_value : u53 = / 9007199254740992.
Proof.
  unfold u53. change (bpow radix2 (-53)) with (/ IZR (Z.pow_pos 2 53)).
  replace (Z.pow_pos 2 53) with 9007199254740992%Z by reflexivity. reflexivity.
Qed.

Lemma rnd53_rel x : Rabs (rnd53 x - x) <= u53 * Rabs x.
Proof.
  pose proof (relative_error_N_FLX radix2 53 ltac:(lia) (fun n => negb (Z.even n)) x) as H.
  unfold rnd53, u53.
  replace (/ 2 * bpow radix2 (- (53) + 1)) with (bpow radix2 (-53)) in H.
  - exact H.
  - change (- (53) + 1)%Z with (-53 + 1)%Z. rewrite bpow_plus.
    change (bpow radix2 1) with 2. field.
Qed.

(** from an error bound  (a e + b) u53 S,  proved under  e u53 <= 1/100,  to a tolerance
    eps S  for all prefixes with  e u53 <= T *)
Lemma tolerance_of_error e x a b S T eps :
  INR e * u53 <= T -> T <= 1 / 100 -> 0 <= a -> 0 <= S -> a * T + b * u53 <= eps ->
  (INR e * u53 <= 1 / 100 -> x <= (a * INR e + b) * u53 * S) ->
  x <= eps * S.
Proof.
  intros He HT Ha HS Heps H.
  assert (HK : (a * INR e + b) * u53 <= eps).
  { pose proof (Rmult_le_compat_l a _ _ Ha He). lra. }
  pose proof (Rmult_le_compat_r _ _ _ HS HK). specialize (H ltac:(lra)). lra.
Qed.

(** the tests' tolerance shape: at most two million samples in the prefix, a <= 4.2, b <= 6
    give 1e-9 S *)
Lemma tolerance_1e9 e x a b S :
  INR e <= 2000000 -> 0 <= a <= 42 / 10 -> b <= 6 -> 0 <= S ->
  (INR e * u53 <= 1 / 100 -> x <= (a * INR e + b) * u53 * S) ->
  x <= 1 / 1000000000 * S.
Proof.
  intros He Ha Hb HS. pose proof (Rmult_le_compat_r _ _ _ u53_nonneg He) as HT.
  apply (tolerance_of_error e x a b S _ _ HT); try rewrite u53_value; lra.
Qed.

(** the library's computation in this model *)
Definition fsum53 : list R -> R := fsum rnd53.
Definition fprefix53 : list R -> nat -> R := fprefix rnd53.
Definition l2_cost_float53 : list R -> nat -> nat -> R := l2_cost_float rnd53.

(** the definitions, spelled out (so that the statements below can be read without Part A) *)
Lemma fsum53_unfold l : fsum53 l = fold_left (fun acc y => rnd53 (acc + y)) l 0.
Proof. reflexivity. Qed.

Lemma fprefix53_unfold l i : fprefix53 l i = fsum53 (firstn i l).
Proof. reflexivity. Qed.

Lemma l2_cost_float53_unfold l s e :
  l2_cost_float53 l s e =
    let S1 := fprefix53 l in
    let S2 := fprefix53 (map (fun x => rnd53 (x * x)) l) in
    let a := rnd53 (S1 e - S1 s) in
    rnd53 (rnd53 (S2 e - S2 s) - rnd53 (rnd53 (a * a) / INR (e - s))).
Proof. reflexivity. Qed.

Theorem fsum53_error l :
  Rabs (fsum53 l - sumR l) <= ((1 + u53) ^ length l - 1) * sumR (map Rabs l).
Proof. apply fsum_error; [exact u53_nonneg|exact rnd53_rel]. Qed.

(** explicit form: at most 1.02 n u (sum of |terms|) for n u <= 1/100 *)
Corollary fsum53_error_small l :
  INR (length l) * u53 <= 1 / 100 ->
  Rabs (fsum53 l - sumR l) <= 102 / 100 * INR (length l) * u53 * sumR (map Rabs l).
Proof.
  intros Hsmall. pose proof (fsum53_error l) as H.
  pose proof (g_small u53 u53_nonneg (length l) Hsmall) as Hg. unfold g in Hg.
  pose proof (Rmult_le_compat_r _ _ _ (sumR_abs_nonneg l) Hg). lra.
Qed.

(** the rounded difference of two rounded prefix sums, against the exact segment
    sum.  The error is relative to the size of the WHOLE prefix 0 .. e-1. *)
Theorem fdiff53_error l s e :
  (s <= e)%nat -> INR e * u53 <= 1 / 100 ->
  Rabs (rnd53 (fprefix53 l e - fprefix53 l s) - sumR (slice s e l))
    <= (204 / 100 * INR e + 204 / 100) * u53 * sumR (map Rabs (firstn e l)).
Proof. apply fdiff_error; [exact u53_nonneg|exact rnd53_rel]. Qed.

(** the cost.  K = 4.2 e + 6. *)
Theorem l2_cost_float53_error l s e :
  (s < e)%nat -> INR e * u53 <= 1 / 100 ->
  Rabs (l2_cost_float53 l s e - l2_cost_optim_R (prefix l) (prefix (sq l)) s e)
    <= (42 / 10 * INR e + 6) * u53
       * (sumR (map (fun x => x * x) (firstn e l))
          + (sumR (map Rabs (firstn e l))) ^ 2 / INR (e - s)).
Proof. apply l2_cost_float_error; [exact u53_nonneg|exact rnd53_rel]. Qed.

(** the scale of the tolerance: sum of squares of the prefix + (sum of |x_i|)^2 / n *)
Definition l2_scale (l : list R) (s e : nat) : R :=
  sumR (map (fun x => x * x) (firstn e l)) + (sumR (map Rabs (firstn e l))) ^ 2 / INR (e - s).

Lemma l2_scale_nonneg l s e : (s < e)%nat -> 0 <= l2_scale l s e.
Proof.
  intros Hlt. unfold l2_scale.
  pose proof (sumR_map_nonneg (fun x => x * x) (firstn e l) sqr_nonneg) as HM2.
  pose proof (sq_div_nonneg (sumR (map Rabs (firstn e l))) (e - s) ltac:(lia)) as HW. lra.
Qed.

(** the tests' tolerance shape.  For a prefix of at most two million samples the
    absolute error of the cost is at most 1e-9 times the scale.  (The bound on e is
    stated on [INR e]: a unary [nat] literal of that size cannot be parsed.) *)
Theorem l2_cost_float53_tolerance l s e :
  (s < e)%nat -> INR e <= 2000000 ->
  Rabs (l2_cost_float53 l s e - l2_cost_optim_R (prefix l) (prefix (sq l)) s e)
    <= 1 / 1000000000 * l2_scale l s e.
Proof.
  intros Hlt HeR.
  apply (tolerance_1e9 e _ (42 / 10) 6 _ HeR); [lra|lra|exact (l2_scale_nonneg l s e Hlt)|].
  exact (l2_cost_float53_error l s e Hlt).
Qed.

(** wide range: e * 2^-53 <= 2^-20 (e up to 2^33, about 8.6e9 samples) gives 4.01e-6 *)
Theorem l2_cost_float53_tolerance_wide l s e :
  (s < e)%nat -> INR e * u53 <= bpow radix2 (-20) ->
  Rabs (l2_cost_float53 l s e - l2_cost_optim_R (prefix l) (prefix (sq l)) s e)
    <= 401 / 100000000 * l2_scale l s e.
Proof.
  intros Hlt He.
  apply (tolerance_of_error e _ (42 / 10) 6 _ _ _ He);
    [|lra|exact (l2_scale_nonneg l s e Hlt)| |exact (l2_cost_float53_error l s e Hlt)];
    change (bpow radix2 (-20)) with (/ 1048576); try rewrite u53_value; lra.
Qed.

(** the cost against the statistic itself: the floating-point cost and the residual sum of
    squares of the segment ([l2_optim_is_rss], Proofs/CostKernels.v) *)
Corollary l2_cost_float53_vs_rss l s e :
  (s < e <= length l)%nat -> INR e * u53 <= 1 / 100 ->
  Rabs (l2_cost_float53 l s e - rss (slice s e l))
    <= (42 / 10 * INR e + 6) * u53 * l2_scale l s e.
Proof.
  intros Hse Hsmall. rewrite <- (l2_optim_is_rss l s e Hse).
  apply l2_cost_float53_error; [lia|exact Hsmall].
Qed.

(** Remark on the model.  binary64 is Flocq's FLT format with emin = -1074, prec = 53.
    Its rounding coincides with [rnd53] on every real of magnitude at least 2^-1022
    (the normal range; and trivially at 0), so the theorems above describe the IEEE
    computation whenever no intermediate result overflows and no non-zero intermediate
    result is below 2^-1022 in magnitude. *)
Definition rnd_binary64 (x : R) : R := round radix2 (FLT_exp (-1074) 53) ZnearestE x.

Lemma rnd53_is_binary64_normal x :
  bpow radix2 (-1022) <= Rabs x -> rnd_binary64 x = rnd53 x.
Proof. intros Hx. unfold rnd_binary64, rnd53. apply round_FLT_FLX. exact Hx. Qed.

Lemma rnd53_is_binary64_zero : rnd_binary64 0 = rnd53 0.
Proof. unfold rnd_binary64, rnd53. now rewrite !round_0 by auto with typeclass_instances. Qed.

Print Assumptions fsum53_error.
Print Assumptions fdiff53_error.
Print Assumptions l2_cost_float53_error.
Print Assumptions l2_cost_float53_vs_rss.
Print Assumptions l2_cost_float53_tolerance.
Print Assumptions l2_cost_float53_tolerance_wide.
