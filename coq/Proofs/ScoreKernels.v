(** Score kernels: the cost-to-score adapters (change score, saving, local score)
    applied to the generated cost kernels of Gen/KernelsR.v.

    All kernel facts are proved by (1) one "normal form" lemma per generated kernel,
    obtained by unfolding and closing with [field]/[ring] (so that harmless upstream
    refactorings of the generated expression are absorbed there), and (2) pure algebra
    over real atoms (the prefix-sum differences and the segment lengths). *)
From Coq Require Import Reals List Psatz.
From SK Require Import Gen.KernelsR Proofs.RealLib.
Import ListNotations.
Open Scope R_scope.

(** * Adapters (hand models of the library's cost-to-score adapters) *)

Definition change_score (C : nat -> nat -> R) (s k e : nat) : R := C s e - (C s k + C k e).
Definition saving (Cfixed Coptim : nat -> nat -> R) (s e : nat) : R := Cfixed s e - Coptim s e.
(* Cpool = cost of the rows of [s,a) and [b,e) pooled together *)
Definition local_score (C : nat -> nat -> R) (Cpool : R) (s a b e : nat) : R := C s e - (C a b + Cpool).

Lemma change_score_def C s k e : change_score C s k e = C s e - (C s k + C k e).
Proof. unfold change_score. ring. Qed.
Lemma saving_def Cf Co s e : saving Cf Co s e = Cf s e - Co s e.
Proof. unfold saving. ring. Qed.
Lemma local_score_def C Cpool s a b e : local_score C Cpool s a b e = C s e - (C a b + Cpool).
Proof. unfold local_score. ring. Qed.

Lemma change_score_nonneg_of_split C s k e :
  C s k + C k e <= C s e -> 0 <= change_score C s k e.
Proof. intros Hsplit. rewrite change_score_def. lra. Qed.

Lemma saving_nonneg_of_optim_le_fixed Cf Co s e :
  Co s e <= Cf s e -> 0 <= saving Cf Co s e.
Proof. intros Hle. rewrite saving_def. lra. Qed.

Lemma local_score_nonneg_of_split C Cpool s a b e :
  C a b + Cpool <= C s e -> 0 <= local_score C Cpool s a b e.
Proof. intros Hsplit. rewrite local_score_def. lra. Qed.

(** * Segment lengths as reals *)

Lemma len_pos s e : (s < e)%nat -> 0 < INR (e - s).
Proof. intros Hse. apply lt_0_INR. lia. Qed.

Lemma len_neq0 s e : (s < e)%nat -> INR (e - s) <> 0.
Proof. intros Hse. apply Rgt_not_eq. apply len_pos. exact Hse. Qed.

Lemma len_split s k e : (s <= k)%nat -> (k <= e)%nat ->
  INR (e - s) = INR (k - s) + INR (e - k).
Proof.
  intros Hsk Hke. rewrite <- plus_INR. f_equal. lia.
Qed.

(** * Normal forms of the generated kernels *)

(** the un-floored variance of the kernel *)
Definition V (S1 S2 : nat -> R) (s e : nat) : R :=
  (S2 e - S2 s) / INR (e - s) - ((S1 e - S1 s) / INR (e - s)) ^ 2.

Lemma l2_optim_form S1 S2 s e : (s < e)%nat ->
  l2_cost_optim_R S1 S2 s e = (S2 e - S2 s) - (S1 e - S1 s) ^ 2 / INR (e - s).
Proof.
  intros Hse. pose proof (len_neq0 s e Hse) as Hn.
  unfold l2_cost_optim_R. field. exact Hn.
Qed.

Lemma l2_fixed_form S1 S2 mu s e :
  l2_cost_fixed_R S1 S2 mu s e
  = (S2 e - S2 s) - 2 * mu * (S1 e - S1 s) + INR (e - s) * mu ^ 2.
Proof. unfold l2_cost_fixed_R. ring. Qed.

Lemma l2_saving_form S1 s e : (s < e)%nat ->
  l2_saving_R S1 s e = (S1 e - S1 s) ^ 2 / INR (e - s).
Proof.
  intros Hse. pose proof (len_neq0 s e Hse) as Hn.
  unfold l2_saving_R. field. exact Hn.
Qed.

(** * The L2 saving is the saving of the L2 cost at mu = 0 *)

Theorem l2_saving_is_saving_of_l2 S1 S2 s e : (s < e)%nat ->
  l2_saving_R S1 s e = saving (l2_cost_fixed_R S1 S2 0) (l2_cost_optim_R S1 S2) s e.
Proof.
  intros Hse. pose proof (len_neq0 s e Hse) as Hn.
  rewrite saving_def, l2_saving_form, l2_fixed_form, l2_optim_form by exact Hse.
  set (A := S1 e - S1 s). set (Q := S2 e - S2 s). set (n := INR (e - s)) in *.
  field. exact Hn.
Qed.

(** * Optimal-mean L2 cost is below any fixed-mean L2 cost *)

Lemma l2_fixed_minus_optim_alg (A Q n mu : R) : n <> 0 ->
  (Q - 2 * mu * A + n * mu ^ 2) - (Q - A ^ 2 / n) = n * (A / n - mu) ^ 2.
Proof. intros Hn. field. exact Hn. Qed.

Lemma l2_fixed_minus_optim S1 S2 mu s e : (s < e)%nat ->
  l2_cost_fixed_R S1 S2 mu s e - l2_cost_optim_R S1 S2 s e
  = INR (e - s) * ((S1 e - S1 s) / INR (e - s) - mu) ^ 2.
Proof.
  intros Hse. pose proof (len_neq0 s e Hse) as Hn.
  rewrite l2_fixed_form, l2_optim_form by exact Hse.
  apply l2_fixed_minus_optim_alg. exact Hn.
Qed.

Theorem l2_optim_le_fixed S1 S2 mu s e : (s < e)%nat ->
  l2_cost_optim_R S1 S2 s e <= l2_cost_fixed_R S1 S2 mu s e.
Proof.
  intros Hse.
  exact (le_of_sq_gap _ _ _ _ (Rlt_le _ _ (len_pos s e Hse)) (l2_fixed_minus_optim S1 S2 mu s e Hse)).
Qed.

(** * Splitting a segment never increases the L2 cost *)

Lemma l2_split_alg (A B nb na : R) : 0 < nb -> 0 < na ->
  (A ^ 2 / nb + B ^ 2 / na) - (A + B) ^ 2 / (nb + na)
  = (nb * na / (nb + na)) * (A / nb - B / na) ^ 2.
Proof. intros Hnb Hna. field. repeat split; lra. Qed.

(** the L2 change score in terms of the two segment sums and lengths; the sum of squares
    cancels *)
Lemma l2_change_score_form S1 S2 s k e : (s < k)%nat -> (k < e)%nat ->
  change_score (l2_cost_optim_R S1 S2) s k e
  = ((S1 k - S1 s) ^ 2 / INR (k - s) + (S1 e - S1 k) ^ 2 / INR (e - k))
    - ((S1 k - S1 s) + (S1 e - S1 k)) ^ 2 / (INR (k - s) + INR (e - k)).
Proof.
  intros Hsk Hke.
  pose proof (len_neq0 s k Hsk) as Hnb. pose proof (len_neq0 k e Hke) as Hna.
  pose proof (len_neq0 s e ltac:(lia)) as Hn.
  rewrite change_score_def, !l2_optim_form by lia. rewrite (len_split s k e) in * by lia.
  field. repeat split; assumption.
Qed.

Lemma l2_split_gap S1 S2 s k e : (s < k)%nat -> (k < e)%nat ->
  l2_cost_optim_R S1 S2 s e - (l2_cost_optim_R S1 S2 s k + l2_cost_optim_R S1 S2 k e)
  = (INR (k - s) * INR (e - k) / INR (e - s))
    * ((S1 k - S1 s) / INR (k - s) - (S1 e - S1 k) / INR (e - k)) ^ 2.
Proof.
  intros Hsk Hke.
  rewrite <- change_score_def, l2_change_score_form, (len_split s k e) by lia.
  apply l2_split_alg; apply len_pos; assumption.
Qed.

Theorem l2_split S1 S2 s k e : (s < k)%nat -> (k < e)%nat ->
  l2_cost_optim_R S1 S2 s k + l2_cost_optim_R S1 S2 k e <= l2_cost_optim_R S1 S2 s e.
Proof.
  intros Hsk Hke.
  refine (le_of_sq_gap _ _ _ _ _ (l2_split_gap S1 S2 s k e Hsk Hke)).
  apply Rlt_le, Rdiv_lt_0_compat; [apply Rmult_lt_0_compat|]; apply len_pos; lia.
Qed.

Corollary l2_change_score_nonneg S1 S2 s k e : (s < k)%nat -> (k < e)%nat ->
  0 <= change_score (l2_cost_optim_R S1 S2) s k e.
Proof.
  intros Hsk Hke. apply change_score_nonneg_of_split. apply l2_split; assumption.
Qed.

Corollary l2_saving_nonneg S1 s e : (s < e)%nat -> 0 <= l2_saving_R S1 s e.
Proof.
  intros Hse.
  rewrite (l2_saving_is_saving_of_l2 S1 (fun _ => 0) s e Hse).
  apply saving_nonneg_of_optim_le_fixed. apply l2_optim_le_fixed. exact Hse.
Qed.

(** what the L2 saving loses by splitting is exactly the L2 change score (the squared
    CUSUM statistic) ... *)
Theorem l2_saving_split_gap_is_change_score S1 S2 s k e : (s < k)%nat -> (k < e)%nat ->
  l2_saving_R S1 s k + l2_saving_R S1 k e - l2_saving_R S1 s e
  = change_score (l2_cost_optim_R S1 S2) s k e.
Proof.
  intros Hsk Hke.
  rewrite l2_change_score_form, !l2_saving_form, (len_split s k e) by lia.
  replace (S1 e - S1 s) with ((S1 k - S1 s) + (S1 e - S1 k)) by ring. reflexivity.
Qed.

(** ... hence the L2 saving is sub-additive under splitting: the hypothesis under which
    CAPA / MVCAPA are optimal (C03) holds for the built-in saving, column by column *)
Theorem l2_saving_subadditive S1 s k e : (s < k)%nat -> (k < e)%nat ->
  l2_saving_R S1 s e <= l2_saving_R S1 s k + l2_saving_R S1 k e.
Proof.
  intros Hsk Hke.
  pose proof (l2_saving_split_gap_is_change_score S1 (fun _ => 0) s k e Hsk Hke).
  pose proof (l2_change_score_nonneg S1 (fun _ => 0) s k e Hsk Hke). lra.
Qed.

(** * The squared CUSUM score is the L2 change score *)

(** pure algebra: with x = sqrt (na/(n nb)), y = sqrt (nb/(n na)), n = nb + na *)
Lemma cusum_sq_alg (A B nb na : R) : 0 < nb -> 0 < na ->
  Rabs (sqrt (na / ((nb + na) * nb)) * A - sqrt (nb / ((nb + na) * na)) * B) ^ 2
  = (A ^ 2 / nb + B ^ 2 / na) - (A + B) ^ 2 / (nb + na).
Proof.
  intros Hnb Hna.
  set (a := na / ((nb + na) * nb)). set (b := nb / ((nb + na) * na)).
  assert (Hn : 0 < nb + na) by lra.
  assert (Ha : 0 <= a).
  { apply Rlt_le. apply Rdiv_lt_0_compat; [lra | apply Rmult_lt_0_compat; lra]. }
  assert (Hb : 0 <= b).
  { apply Rlt_le. apply Rdiv_lt_0_compat; [lra | apply Rmult_lt_0_compat; lra]. }
  assert (Hxx : sqrt a * sqrt a = a) by (apply sqrt_sqrt; exact Ha).
  assert (Hyy : sqrt b * sqrt b = b) by (apply sqrt_sqrt; exact Hb).
  assert (Hxy : sqrt a * sqrt b = / (nb + na)).
  { rewrite <- sqrt_mult by assumption.
    replace (a * b) with ((/ (nb + na)) ^ 2) by (unfold a, b; field; repeat split; lra).
    apply sqrt_pow2. apply Rlt_le. apply Rinv_0_lt_compat. exact Hn. }
  rewrite pow2_abs.
  replace ((sqrt a * A - sqrt b * B) ^ 2)
    with ((sqrt a * sqrt a) * A ^ 2 - 2 * (sqrt a * sqrt b) * (A * B) + (sqrt b * sqrt b) * B ^ 2)
    by ring.
  rewrite Hxx, Hyy, Hxy. unfold a, b. field. repeat split; lra.
Qed.

(** normal form of the generated CUSUM kernel; the arguments of the two square roots
    are identified up to [field], so their exact generated shape does not matter *)
Lemma cusum_form S1 s k e : (s < k)%nat -> (k < e)%nat ->
  cusum_score_R S1 s k e
  = Rabs (sqrt (INR (e - k) / ((INR (k - s) + INR (e - k)) * INR (k - s))) * (S1 k - S1 s)
          - sqrt (INR (k - s) / ((INR (k - s) + INR (e - k)) * INR (e - k))) * (S1 e - S1 k)).
Proof.
  intros Hsk Hke.
  pose proof (len_pos s k Hsk) as Hnb. pose proof (len_pos k e Hke) as Hna.
  unfold cusum_score_R. rewrite ?mult_INR, ?plus_INR. rewrite ?(len_split s k e) by lia.
  first [ align ltac:(field; nz); apply f_equal; ring
        | rewrite Rabs_minus_sym; align ltac:(field; nz); apply f_equal; ring ].
Qed.

Theorem cusum_sq_is_l2_change_score S1 S2 s k e : (s < k)%nat -> (k < e)%nat ->
  (cusum_score_R S1 s k e) ^ 2 = change_score (l2_cost_optim_R S1 S2) s k e.
Proof.
  intros Hsk Hke.
  rewrite (cusum_form S1 s k e Hsk Hke), cusum_sq_alg, l2_change_score_form
    by (assumption || now apply len_pos).
  reflexivity.
Qed.

Corollary cusum_sq_formula S1 s k e : (s < k)%nat -> (k < e)%nat ->
  (cusum_score_R S1 s k e) ^ 2
  = (INR (k - s) * INR (e - k) / INR (e - s))
    * ((S1 k - S1 s) / INR (k - s) - (S1 e - S1 k) / INR (e - k)) ^ 2.
Proof.
  intros Hsk Hke.
  rewrite (cusum_sq_is_l2_change_score S1 (fun _ => 0) s k e Hsk Hke), change_score_def.
  apply l2_split_gap; assumption.
Qed.

Corollary cusum_nonneg S1 s k e : (s < k)%nat -> (k < e)%nat -> 0 <= cusum_score_R S1 s k e.
Proof.
  intros Hsk Hke. rewrite (cusum_form S1 s k e Hsk Hke). apply Rabs_pos.
Qed.

(** * Logarithm facts *)

Lemma ln_le_sub1 u : 0 < u -> ln u <= u - 1.
Proof.
  intros Hu. pose proof (exp_ineq1_le (ln u)) as Hexp.
  rewrite (exp_ln u Hu) in Hexp. lra.
Qed.

Lemma ln_le_mono x y : 0 < x -> x <= y -> ln x <= ln y.
Proof.
  intros Hx [Hlt | Heq].
  - apply Rlt_le. apply ln_increasing; assumption.
  - subst y. apply Rle_refl.
Qed.

Lemma ln_div_pos x y : 0 < x -> 0 < y -> ln (x / y) = ln x - ln y.
Proof.
  intros Hx Hy. unfold Rdiv.
  rewrite ln_mult by (try apply Rinv_0_lt_compat; assumption).
  rewrite ln_Rinv by assumption. ring.
Qed.

(** weighted Jensen inequality for ln, two points, against any [z] at or above the weighted
    mean W = (p x + q y) / (p + q) *)
Lemma ln_jensen2 (p q x y z : R) : 0 < p -> 0 < q -> 0 < x -> 0 < y ->
  p * x + q * y <= (p + q) * z ->
  p * ln x + q * ln y <= (p + q) * ln z.
Proof.
  intros Hp Hq Hx Hy Hz.
  set (W := (p * x + q * y) / (p + q)).
  assert (Hpx : 0 < p * x) by (apply Rmult_lt_0_compat; assumption).
  assert (Hqy : 0 < q * y) by (apply Rmult_lt_0_compat; assumption).
  assert (HW : 0 < W).
  { unfold W. apply Rdiv_lt_0_compat; lra. }
  assert (HWz : W <= z).
  { apply (Rmult_le_reg_l (p + q)); [lra|].
    replace ((p + q) * W) with (p * x + q * y) by (unfold W; field; lra). exact Hz. }
  pose proof (Rmult_le_compat_l (p + q) _ _ ltac:(lra) (ln_le_mono W z HW HWz)) as Hm.
  pose proof (ln_le_sub1 (x / W) (Rdiv_lt_0_compat _ _ Hx HW)) as Hlx.
  pose proof (ln_le_sub1 (y / W) (Rdiv_lt_0_compat _ _ Hy HW)) as Hly.
  rewrite ln_div_pos in Hlx, Hly by assumption.
  assert (Hpl : p * (ln x - ln W) <= p * (x / W - 1)).
  { apply Rmult_le_compat_l; lra. }
  assert (Hql : q * (ln y - ln W) <= q * (y / W - 1)).
  { apply Rmult_le_compat_l; lra. }
  assert (Hsum : p * (x / W - 1) + q * (y / W - 1) = 0).
  { unfold W. field. split; lra. }
  lra.
Qed.

(** * Gaussian mean+variance cost, above the variance floor *)

Lemma var_from_sums_form S1 S2 s e : (s < e)%nat ->
  var_from_sums_R S1 S2 s e = Rmax (V S1 S2 s e) floor_var.
Proof.
  intros Hse. pose proof (len_neq0 s e Hse) as Hn.
  unfold var_from_sums_R, V. align ltac:(first [unfold floor_var; lra | field; exact Hn]). ring.
Qed.

Lemma gvar_optim_form S1 S2 s e : (s < e)%nat ->
  gaussian_var_cost_optim_R S1 S2 s e
  = INR (e - s) * ln (2 * PI * Rmax (V S1 S2 s e) floor_var) + INR (e - s).
Proof.
  intros Hse. pose proof (len_neq0 s e Hse) as Hn.
  unfold gaussian_var_cost_optim_R, V.
  align ltac:(first [unfold floor_var; lra | ring | field; exact Hn]). ring.
Qed.

(** for every [v]: division by 0 is a total function, and the identity is one of [ring] *)
Lemma gvar_fixed_form S1 S2 mu v s e :
  gaussian_var_cost_fixed_R S1 S2 mu v s e
  = INR (e - s) * ln (2 * PI * v)
    + ((S2 e - S2 s) - 2 * mu * (S1 e - S1 s) + INR (e - s) * mu ^ 2) / v.
Proof.
  unfold gaussian_var_cost_fixed_R. align ltac:(ring). unfold Rdiv. ring.
Qed.

Theorem gvar_optim_above_floor S1 S2 s e : (s < e)%nat -> floor_var <= V S1 S2 s e ->
  gaussian_var_cost_optim_R S1 S2 s e
  = INR (e - s) * ln (2 * PI * V S1 S2 s e) + INR (e - s).
Proof.
  intros Hse Hfloor. rewrite gvar_optim_form by exact Hse.
  rewrite (Rmax_left _ _ Hfloor). ring.
Qed.

(** the quadratic form of the fixed-parameter cost *)
Lemma quad_form_alg (A Q n mu : R) : n <> 0 ->
  Q - 2 * mu * A + n * mu ^ 2 = n * ((Q / n - (A / n) ^ 2) + (A / n - mu) ^ 2).
Proof. intros Hn. field. exact Hn. Qed.

Lemma quad_form_V S1 S2 mu s e : (s < e)%nat ->
  (S2 e - S2 s) - 2 * mu * (S1 e - S1 s) + INR (e - s) * mu ^ 2
  = INR (e - s) * (V S1 S2 s e + ((S1 e - S1 s) / INR (e - s) - mu) ^ 2).
Proof.
  intros Hse. unfold V. apply quad_form_alg. apply len_neq0. exact Hse.
Qed.

Theorem gvar_optim_le_fixed S1 S2 mu v s e :
  (s < e)%nat -> floor_var <= V S1 S2 s e -> 0 < v ->
  gaussian_var_cost_optim_R S1 S2 s e <= gaussian_var_cost_fixed_R S1 S2 mu v s e.
Proof.
  intros Hse Hfloor Hv.
  pose proof (len_pos s e Hse) as Hn. pose proof floor_var_pos as Hfl.
  pose proof two_PI_pos as H2pi.
  rewrite gvar_optim_above_floor by assumption.
  rewrite gvar_fixed_form.
  rewrite quad_form_V by exact Hse.
  set (n := INR (e - s)) in *. set (V0 := V S1 S2 s e) in *.
  set (d := (S1 e - S1 s) / n - mu).
  assert (HV0 : 0 < V0) by lra.
  rewrite (ln_mult (2 * PI) V0), (ln_mult (2 * PI) v) by assumption.
  pose proof (ln_le_sub1 (V0 / v) (Rdiv_lt_0_compat _ _ HV0 Hv)) as Hln.
  rewrite ln_div_pos in Hln by assumption.
  assert (Hd : 0 <= d ^ 2 / v).
  { apply Rmult_le_pos; [apply pow2_ge_0 | apply Rlt_le, Rinv_0_lt_compat, Hv]. }
  assert (Hkey : ln V0 - ln v + 1 <= (V0 + d ^ 2) / v).
  { replace ((V0 + d ^ 2) / v) with (V0 / v + d ^ 2 / v) by (field; lra). lra. }
  assert (Hmul : n * (ln V0 - ln v + 1) <= n * ((V0 + d ^ 2) / v)).
  { apply Rmult_le_compat_l; lra. }
  replace (n * (V0 + d ^ 2) / v) with (n * ((V0 + d ^ 2) / v)) by (field; lra).
  lra.
Qed.

(** n V is the L2 cost (for arbitrary S1 S2) *)
Lemma l2_optim_is_nV S1 S2 s e : (s < e)%nat ->
  l2_cost_optim_R S1 S2 s e = INR (e - s) * V S1 S2 s e.
Proof.
  intros Hse. rewrite l2_optim_form by exact Hse. unfold V. field. apply len_neq0. exact Hse.
Qed.

Lemma V_split S1 S2 s k e : (s < k)%nat -> (k < e)%nat ->
  INR (k - s) * V S1 S2 s k + INR (e - k) * V S1 S2 k e <= INR (e - s) * V S1 S2 s e.
Proof.
  intros Hsk Hke. rewrite <- !l2_optim_is_nV by lia. apply l2_split; assumption.
Qed.

Theorem gvar_split S1 S2 s k e : (s < k)%nat -> (k < e)%nat ->
  floor_var <= V S1 S2 s k -> floor_var <= V S1 S2 k e -> floor_var <= V S1 S2 s e ->
  gaussian_var_cost_optim_R S1 S2 s k + gaussian_var_cost_optim_R S1 S2 k e
  <= gaussian_var_cost_optim_R S1 S2 s e.
Proof.
  intros Hsk Hke Hfb Hfa Hfn.
  pose proof (len_pos s k Hsk) as Hnb. pose proof (len_pos k e Hke) as Hna.
  pose proof floor_var_pos as Hfl. pose proof two_PI_pos as H2pi.
  pose proof (V_split S1 S2 s k e Hsk Hke) as HVs.
  rewrite !gvar_optim_above_floor by (assumption || lia).
  rewrite (len_split s k e) in * by lia.
  set (nb := INR (k - s)) in *. set (na := INR (e - k)) in *.
  set (Vb := V S1 S2 s k) in *. set (Va := V S1 S2 k e) in *. set (Vn := V S1 S2 s e) in *.
  assert (HVb : 0 < Vb) by lra. assert (HVa : 0 < Va) by lra. assert (HVn : 0 < Vn) by lra.
  rewrite (ln_mult (2 * PI) Vb), (ln_mult (2 * PI) Va), (ln_mult (2 * PI) Vn) by assumption.
  pose proof (ln_jensen2 nb na Vb Va Vn Hnb Hna HVb HVa HVs) as Hj.
  lra.
Qed.

Corollary gvar_change_score_nonneg S1 S2 s k e : (s < k)%nat -> (k < e)%nat ->
  floor_var <= V S1 S2 s k -> floor_var <= V S1 S2 k e -> floor_var <= V S1 S2 s e ->
  0 <= change_score (gaussian_var_cost_optim_R S1 S2) s k e.
Proof.
  intros Hsk Hke Hfb Hfa Hfn. apply change_score_nonneg_of_split.
  apply gvar_split; assumption.
Qed.

Corollary gvar_saving_nonneg S1 S2 mu v s e :
  (s < e)%nat -> floor_var <= V S1 S2 s e -> 0 < v ->
  0 <= saving (gaussian_var_cost_fixed_R S1 S2 mu v) (gaussian_var_cost_optim_R S1 S2) s e.
Proof.
  intros Hse Hfloor Hv. apply saving_nonneg_of_optim_le_fixed.
  apply gvar_optim_le_fixed; assumption.
Qed.

(** * Savings derived from costs are sub-additive under splitting *)

(** a fixed-parameter cost is ADDITIVE over adjacent intervals, the optimised cost satisfies the
    split inequality: hence Saving(baseline_cost) is sub-additive -- the hypothesis of the CAPA
    optimality theorem (C03) for every cost-derived saving *)
Lemma saving_subadditive_of_parts Cf Co s k e :
  Cf s e = Cf s k + Cf k e -> Co s k + Co k e <= Co s e ->
  saving Cf Co s e <= saving Cf Co s k + saving Cf Co k e.
Proof. intros Hadd Hsplit. rewrite !saving_def. lra. Qed.

Theorem l2_fixed_additive S1 S2 mu s k e : (s <= k)%nat -> (k <= e)%nat ->
  l2_cost_fixed_R S1 S2 mu s e = l2_cost_fixed_R S1 S2 mu s k + l2_cost_fixed_R S1 S2 mu k e.
Proof.
  intros Hsk Hke. rewrite !l2_fixed_form. rewrite (len_split s k e) by lia. ring.
Qed.

Theorem gvar_fixed_additive S1 S2 mu v s k e : (s <= k)%nat -> (k <= e)%nat -> v <> 0 ->
  gaussian_var_cost_fixed_R S1 S2 mu v s e
  = gaussian_var_cost_fixed_R S1 S2 mu v s k + gaussian_var_cost_fixed_R S1 S2 mu v k e.
Proof.
  intros Hsk Hke Hv. rewrite !gvar_fixed_form. rewrite (len_split s k e) by lia.
  field. exact Hv.
Qed.

Theorem l2_cost_saving_subadditive S1 S2 mu s k e : (s < k)%nat -> (k < e)%nat ->
  saving (l2_cost_fixed_R S1 S2 mu) (l2_cost_optim_R S1 S2) s e
  <= saving (l2_cost_fixed_R S1 S2 mu) (l2_cost_optim_R S1 S2) s k
     + saving (l2_cost_fixed_R S1 S2 mu) (l2_cost_optim_R S1 S2) k e.
Proof.
  intros Hsk Hke. apply saving_subadditive_of_parts.
  - apply l2_fixed_additive; lia.
  - apply l2_split; assumption.
Qed.

Theorem gvar_cost_saving_subadditive S1 S2 mu v s k e : (s < k)%nat -> (k < e)%nat -> v <> 0 ->
  floor_var <= V S1 S2 s k -> floor_var <= V S1 S2 k e -> floor_var <= V S1 S2 s e ->
  saving (gaussian_var_cost_fixed_R S1 S2 mu v) (gaussian_var_cost_optim_R S1 S2) s e
  <= saving (gaussian_var_cost_fixed_R S1 S2 mu v) (gaussian_var_cost_optim_R S1 S2) s k
     + saving (gaussian_var_cost_fixed_R S1 S2 mu v) (gaussian_var_cost_optim_R S1 S2) k e.
Proof.
  intros Hsk Hke Hv Hfb Hfa Hfn. apply saving_subadditive_of_parts.
  - apply gvar_fixed_additive; [lia | lia | exact Hv].
  - apply gvar_split; assumption.
Qed.

(** with the variance floor ACTIVE the Gaussian cost can violate the split inequality: two halves of
    equal mean, one constant (variance floored up to 1e-16) and one of variance 2e-16 -- the pooled
    variance is exactly the floor, and the two parts cost n/2 * ln 2 more than the whole.  (Stated on
    the algebraic normal form: [W] is what the kernel computes for variance inputs [Vb Va Vn].) *)
Theorem gvar_split_can_fail_at_the_floor :
  let W (n V : R) := n * ln (2 * PI * Rmax V floor_var) + n in
  exists nb na Vb Va Vn : R,
    0 < nb /\ 0 < na /\ 0 <= Vb /\ 0 <= Va /\ nb * Vb + na * Va = (nb + na) * Vn /\
    W (nb + na) Vn < W nb Vb + W na Va.
Proof.
  intros W. exists 1, 1, 0, (2 * floor_var), floor_var.
  pose proof floor_var_pos as Hf. pose proof two_PI_pos as Hpi.
  repeat split; try lra.
  unfold W. rewrite (Rmax_right 0 floor_var) by lra.
  rewrite (Rmax_left (2 * floor_var) floor_var) by lra.
  rewrite (Rmax_left floor_var floor_var) by lra.
  replace (2 * PI * (2 * floor_var)) with (2 * (2 * PI * floor_var)) by ring.
  rewrite (ln_mult 2 (2 * PI * floor_var)) by (try lra; apply Rmult_lt_0_compat; lra).
  assert (H2 : 0 < ln 2) by (rewrite <- ln_1; apply ln_increasing; lra).
  lra.
Qed.

(** * Real data: S1, S2 are the prefix sums of a list and of its squares *)

Lemma l2_optim_is_rss xs s e : (s < e)%nat -> (e <= length xs)%nat ->
  l2_cost_optim_R (prefix xs) (prefix (sq xs)) s e = rss (slice s e xs).
Proof.
  intros Hse Hlen.
  assert (Hl : length (slice s e xs) = (e - s)%nat) by (apply slice_length; lia).
  rewrite l2_optim_form, prefix_sq_diff, prefix_diff, rss_expand, Hl by lia. reflexivity.
Qed.

Theorem l2_optim_nonneg xs s e : (s < e)%nat -> (e <= length xs)%nat ->
  0 <= l2_cost_optim_R (prefix xs) (prefix (sq xs)) s e.
Proof.
  intros Hse Hlen. rewrite l2_optim_is_rss by assumption. apply rss_nonneg.
Qed.

Lemma V_is_varR xs s e : (s < e)%nat -> (e <= length xs)%nat ->
  V (prefix xs) (prefix (sq xs)) s e = varR (slice s e xs).
Proof.
  intros Hse Hlen. pose proof (len_neq0 s e Hse) as Hn.
  assert (Hl : length (slice s e xs) = (e - s)%nat) by (apply slice_length; lia).
  unfold varR. rewrite Hl, <- l2_optim_is_rss by assumption.
  rewrite l2_optim_is_nV by exact Hse. field. exact Hn.
Qed.

Theorem V_nonneg xs s e : (s < e)%nat -> (e <= length xs)%nat ->
  0 <= V (prefix xs) (prefix (sq xs)) s e.
Proof.
  intros Hse Hlen. rewrite V_is_varR by assumption.
  apply Rle_mult_inv_pos; [apply rss_nonneg|]. rewrite slice_length by lia. now apply len_pos.
Qed.

(** Cauchy-Schwarz on a slice, as a by-product: (sum x)^2 <= n * sum x^2 *)
Corollary cauchy_schwarz_slice xs s e : (s < e)%nat -> (e <= length xs)%nat ->
  (prefix xs e - prefix xs s) ^ 2 <= INR (e - s) * (prefix (sq xs) e - prefix (sq xs) s).
Proof.
  intros Hse Hlen. pose proof (len_pos s e Hse) as Hn.
  pose proof (l2_optim_nonneg xs s e Hse Hlen) as Hc.
  rewrite l2_optim_form in Hc by exact Hse.
  set (A := prefix xs e - prefix xs s) in *.
  replace (A ^ 2) with (INR (e - s) * (A ^ 2 / INR (e - s))) by (field; lra).
  apply Rmult_le_compat_l; lra.
Qed.

(** The floored kernel variance always dominates the floor and the data variance. *)
Lemma var_from_sums_ge_floor S1 S2 s e : (s < e)%nat -> floor_var <= var_from_sums_R S1 S2 s e.
Proof. intros Hse. rewrite var_from_sums_form by exact Hse. apply Rmax_r. Qed.

Print Assumptions cusum_sq_is_l2_change_score.
Print Assumptions l2_saving_is_saving_of_l2.
Print Assumptions l2_optim_le_fixed.
Print Assumptions l2_split.
Print Assumptions gvar_optim_le_fixed.
Print Assumptions gvar_split.
Print Assumptions l2_saving_subadditive.
Print Assumptions gvar_cost_saving_subadditive.
Print Assumptions gvar_split_can_fail_at_the_floor.

(** NOTE on axioms.  The four L2/CUSUM theorems above depend only on the axioms of the
    stdlib reals.  The two Gaussian theorems additionally list [Classical_Prop.classic]:
    this is inherited from the stdlib DEFINITION of [ln] itself ([ln_exists] is proved
    with the classical IVT), so every statement that mentions [ln] -- including the
    generated kernels [gaussian_var_cost_*_R] on their own -- lists it: *)
Print Assumptions ln.
Print Assumptions gaussian_var_cost_optim_R.
Print Assumptions l2_optim_nonneg.
Print Assumptions V_nonneg.
