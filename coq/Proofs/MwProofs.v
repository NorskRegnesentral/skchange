(** Moving-window detector: properties of Model/Mw.v.  [mw] is the Z instance of the generic
    detector (Proofs/GenericZ.v), so they are the facts of Proofs/GenericOrder.v at [Zn], with the
    comparisons written in Z.
    1. the score vector,
    2. the runs of [where_runs] (Proofs/WhereRuns.v) in position form,
    3. the changepoints: first argmax of every sufficiently long run. *)
From Coq Require Import ZArith List Lia Bool Sorted.
From SK Require Import Lib.Base Model.Mw Model.Generic.
From SK Require Import Proofs.ArgmaxLemmas Proofs.WhereRuns Proofs.GenericZ Proofs.GenericOrder.
Import ListNotations.
Open Scope Z_scope.

(** * 1. Scores *)
Theorem mw_scores_length : forall CS b n, length (mw_scores CS b n) = n.
Proof. exact (gmw_scores_length Zn). Qed.

Theorem mw_scores_nth : forall CS b n t, (t < n)%nat ->
  nthZ (mw_scores CS b n) t =
  if (b <=? t)%nat && (t + b <=? n)%nat then CS (t - b)%nat t (t + b)%nat else 0.
Proof. exact (gmw_scores_nth Zn). Qed.

(** * 2. Maximal runs *)

(** position form: increasing order and pairwise disjointness *)
Corollary where_runs_ordered : forall l i j,
  (i < j < length (where_runs l))%nat ->
  (snd (nth i (where_runs l) (0, 0)%nat) < fst (nth j (where_runs l) (0, 0)%nat))%nat.
Proof.
  intros l i j Hij.
  exact (FOP_nth run_lt _ (0, 0)%nat (StronglySorted_FOP _ _ (where_runs_sorted l)) i j Hij).
Qed.

(** * 3. Changepoints *)
Lemma gmw_cpts_Z : forall scores thr mdi, gmw_cpts Zn scores thr mdi = mw_cpts scores thr mdi.
Proof.
  intros scores thr mdi. unfold gmw_cpts, mw_cpts. apply flat_map_ext. intros [s e].
  rewrite gargmax_Z. reflexivity.
Qed.

Theorem mw_cpts_spec : forall scores thr mdi c,
  In c (mw_cpts scores thr mdi) <->
  exists a z, In (a, z) (where_runs (map (fun v => thr <? v) scores)) /\
    (mdi <= z - a)%nat /\ (a <= c < z)%nat /\
    (forall i, (a <= i < z)%nat -> nthZ scores i <= nthZ scores c) /\
    (forall i, (a <= i < c)%nat -> nthZ scores i < nthZ scores c).
Proof.
  intros scores thr mdi c. rewrite <- gmw_cpts_Z.
  rewrite (gmw_cpts_spec Zn _ swo_Z scores thr mdi c (allZ_Forall scores)).
  split; intros (a & z & Hin & Hm & Hc & Hmax & Hfirst); exists a, z;
    (split; [exact Hin|]); (split; [exact Hm|]); (split; [exact Hc|]); split; intros i Hi.
  - exact (proj1 (Z.ltb_ge _ _) (Hmax i Hi)).
  - exact (proj1 (Z.ltb_lt _ _) (Hfirst i Hi)).
  - exact (proj2 (Z.ltb_ge _ _) (Hmax i Hi)).
  - exact (proj2 (Z.ltb_lt _ _) (Hfirst i Hi)).
Qed.

Theorem mw_cpts_sorted : forall scores thr mdi, StronglySorted lt (mw_cpts scores thr mdi).
Proof. intros scores thr mdi. rewrite <- gmw_cpts_Z. apply gmw_cpts_sorted_any. Qed.

Corollary mw_cpts_increasing : forall scores thr mdi i j,
  (i < j < length (mw_cpts scores thr mdi))%nat ->
  (nthN (mw_cpts scores thr mdi) i < nthN (mw_cpts scores thr mdi) j)%nat.
Proof.
  intros scores thr mdi i j Hij.
  exact (FOP_nth lt _ 0%nat (StronglySorted_FOP _ _ (mw_cpts_sorted scores thr mdi)) i j Hij).
Qed.

Theorem mw_cpts_above : forall scores thr mdi c,
  In c (mw_cpts scores thr mdi) -> (c < length scores)%nat /\ thr < nthZ scores c.
Proof.
  intros scores thr mdi c H. rewrite <- gmw_cpts_Z in H.
  destruct (gmw_cpts_above Zn _ _ _ _ H) as [Hc Hlt]. split; [exact Hc | apply Z.ltb_lt; exact Hlt].
Qed.

(** scores outside [b, n-b] are 0, hence not above a non-negative threshold *)
Theorem mw_cpts_range : forall CS b n thr mdi c,
  0 <= thr -> In c (snd (mw CS b n thr mdi)) -> (b <= c /\ c + b <= n)%nat.
Proof.
  intros CS b n thr mdi c Hthr H. rewrite <- gmw_Z in H.
  exact (gmw_cpts_in_range Zn CS b n thr mdi c (thr_Z thr Hthr) H).
Qed.

(** time reversal: the score vector of the reversed series is the reversed score vector
    (no assumption on [b] is needed for 1 <= t < n) *)
Theorem mw_reversal_scores : forall CS b n t,
  (1 <= t < n)%nat ->
  nthZ (mw_scores (fun s k e => CS (n - e) (n - k) (n - s))%nat b n) t =
  nthZ (mw_scores CS b n) (n - t).
Proof. exact (G08_reversal Zn). Qed.

(** position 0 maps to position n, outside the vector; both sides are 0 when b >= 1 *)
Theorem mw_reversal_scores_0 : forall CS b n,
  (1 <= b)%nat ->
  nthZ (mw_scores (fun s k e => CS (n - e) (n - k) (n - s))%nat b n) 0 = 0 /\
  nthZ (mw_scores CS b n) (n - 0) = 0.
Proof.
  intros CS b n Hb. split.
  - destruct n as [|n]; [reflexivity|]. rewrite mw_scores_nth by lia.
    replace (b <=? 0)%nat with false by (symmetry; apply Nat.leb_gt; lia). reflexivity.
  - unfold nthZ. apply nth_overflow. rewrite mw_scores_length. lia.
Qed.

Theorem mw_ext : forall CS1 CS2 b n thr mdi,
  (forall s k e, CS1 s k e = CS2 s k e) -> mw CS1 b n thr mdi = mw CS2 b n thr mdi.
Proof.
  intros CS1 CS2 b n thr mdi H. rewrite <- (gmw_Z CS1), <- (gmw_Z CS2). apply (G08_only_valid_cuts_matter Zn). intros t _ _. apply H.
Qed.

Print Assumptions mw_scores_length.
Print Assumptions mw_scores_nth.
Print Assumptions where_runs_spec.
Print Assumptions where_runs_sorted.
Print Assumptions where_runs_ordered.
Print Assumptions mw_cpts_spec.
Print Assumptions mw_cpts_sorted.
Print Assumptions mw_cpts_increasing.
Print Assumptions mw_cpts_above.
Print Assumptions mw_cpts_range.
Print Assumptions mw_reversal_scores.
Print Assumptions mw_reversal_scores_0.
Print Assumptions mw_ext.
