(** Plain facts about lists shared by the proof files: lookups through [map], [firstn]
    and [skipn]; indexed maps, written in the
    models as [map g (combine (seq o (length l)) l)]; [repeat]; [filter];
    [existsb (Nat.eqb x)]; [fold_right Nat.max]; [last]; sequences that are monotone
    step by step; the position of the first element passing a test; equality tests;
    [Base.sumZ]. *)
From Coq Require Import List Arith Bool Lia.
Import ListNotations.

(** * Positions *)

Lemma nth_error_lt_some :
  forall (A : Type) (l : list A) (i : nat), i < length l -> exists x, nth_error l i = Some x.
Proof.
  intros A l i Hlt. destruct (nth_error l i) as [x|] eqn:Hn.
  - exists x. reflexivity.
  - apply nth_error_None in Hn. lia.
Qed.

Lemma nth_error_some_lt :
  forall (A : Type) (l : list A) (i : nat) (x : A), nth_error l i = Some x -> i < length l.
Proof. intros A l i x Hn. apply nth_error_Some. rewrite Hn. discriminate. Qed.

(** * Lookups through map, firstn, skipn *)

Lemma nth_map_lt : forall {A B} (f : A -> B) l j d d',
  j < length l -> nth j (map f l) d' = f (nth j l d).
Proof.
  intros A B f. induction l as [|x t IH]; intros j d d' H; simpl in *; [lia|].
  destruct j; [reflexivity| apply IH; lia].
Qed.

Lemma nth_firstn_lt : forall {A} k (l : list A) j d,
  j < k -> nth j (firstn k l) d = nth j l d.
Proof.
  intros A. induction k as [|k IH]; intros l j d H; [lia|].
  destruct l as [|x t]; simpl; [reflexivity|].
  destruct j; [reflexivity| apply IH; lia].
Qed.

Lemma nth_skipn_add : forall {A} s (l : list A) j d,
  nth j (skipn s l) d = nth (s + j) l d.
Proof.
  intros A. induction s as [|s IH]; intros l j d; simpl; [reflexivity|].
  destruct l as [|x t]; [destruct j; reflexivity| apply IH].
Qed.

(** * Indexed maps *)

Lemma nth_map_seq : forall (B : Type) (f : nat -> B) o n i d,
  i < n -> nth i (map f (seq o n)) d = f (o + i).
Proof.
  intros B f o n i d Hi.
  rewrite nth_indep with (d' := f 0) by (rewrite map_length, seq_length; lia).
  rewrite map_nth. rewrite seq_nth by lia. reflexivity.
Qed.

Lemma nth_error_map_seq : forall (B : Type) (f : nat -> B) o n i,
  i < n -> nth_error (map f (seq o n)) i = Some (f (o + i)).
Proof.
  intros B f o n i Hi.
  rewrite (nth_error_nth' _ (f 0)) by (rewrite map_length, seq_length; exact Hi).
  rewrite nth_map_seq by exact Hi. reflexivity.
Qed.

Lemma combine_seq_map : forall (A : Type) (d : A) (l : list A) o,
  combine (seq o (length l)) l = map (fun i => (o + i, nth i l d)) (seq 0 (length l)).
Proof.
  intros A d l. induction l as [|x t IH]; intros o.
  - reflexivity.
  - cbn [length seq combine map nth]. rewrite Nat.add_0_r. f_equal.
    rewrite IH, <- seq_shift, map_map. apply map_ext. intros i.
    rewrite Nat.add_succ_comm. reflexivity.
Qed.

Lemma map_combine_seq : forall {A B C} (f : A * B -> C) (a : list A) (b : list B) da db,
  length a = length b ->
  map f (combine a b) = map (fun j => f (nth j a da, nth j b db)) (seq 0 (length b)).
Proof.
  intros A B C f a b da db H.
  apply nth_ext with (d := f (da, db)) (d' := f (da, db)).
  - rewrite !map_length, combine_length, seq_length. lia.
  - intros j Hj. rewrite map_length, combine_length in Hj.
    rewrite nth_map_seq by lia. simpl.
    rewrite (nth_map_lt f (combine a b) j (da, db)) by (rewrite combine_length; lia).
    rewrite combine_nth by assumption. reflexivity.
Qed.

Lemma map_combine_seq_length : forall (A B : Type) (g : nat * A -> B) (l : list A) o,
  length (map g (combine (seq o (length l)) l)) = length l.
Proof.
  intros A B g l o. rewrite map_length, combine_length, seq_length. apply Nat.min_id.
Qed.

Lemma nth_error_map_combine_seq :
  forall (A B : Type) (f : nat * A -> B) (l : list A) (s j : nat),
    nth_error (map f (combine (seq s (length l)) l)) j =
    option_map (fun v => f (s + j, v)) (nth_error l j).
Proof.
  intros A B f l. induction l as [|a l IH]; intros s j.
  - destruct j; reflexivity.
  - destruct j as [|j]; simpl.
    + rewrite Nat.add_0_r. reflexivity.
    + rewrite IH. rewrite Nat.add_succ_comm. reflexivity.
Qed.

Lemma nth_map_combine_seq :
  forall (A B : Type) (g : nat * A -> B) (l : list A) o i (dA : A) (dB : B),
  i < length l -> nth i (map g (combine (seq o (length l)) l)) dB = g (o + i, nth i l dA).
Proof.
  intros A B g l o i dA dB Hi. apply nth_error_nth.
  rewrite nth_error_map_combine_seq, (nth_error_nth' l dA Hi). reflexivity.
Qed.

(** the models' in-place updates ([Objects.set_sfit], [Objects.upd], [Adapters.aupd])
    unfold to [imap f l] resp. [set_cell l i v] *)
Definition imap {A B : Type} (f : nat -> A -> B) (l : list A) : list B :=
  map (fun ix => f (fst ix) (snd ix)) (combine (seq 0 (length l)) l).

Lemma nth_error_imap :
  forall (A B : Type) (f : nat -> A -> B) (l : list A) (j : nat),
    nth_error (imap f l) j = option_map (f j) (nth_error l j).
Proof. intros A B f l j. exact (nth_error_map_combine_seq _ _ _ l 0 j). Qed.

Lemma length_imap :
  forall (A B : Type) (f : nat -> A -> B) (l : list A), length (imap f l) = length l.
Proof. intros A B f l. exact (map_combine_seq_length _ _ _ l 0). Qed.

Lemma imap_id : forall (A : Type) (l : list A), imap (fun _ x => x) l = l.
Proof.
  intros A l. unfold imap. generalize 0.
  induction l as [|a l IH]; intros s; simpl; [reflexivity | rewrite IH; reflexivity].
Qed.

Definition set_cell {A : Type} (l : list A) (i : nat) (v : A) : list A :=
  imap (fun j x => if j =? i then v else x) l.

Lemma nth_error_set_cell :
  forall (A : Type) (l : list A) (i : nat) (v : A) (j : nat),
    nth_error (set_cell l i v) j =
    option_map (fun x => if j =? i then v else x) (nth_error l j).
Proof. intros A l i v j. apply nth_error_imap. Qed.

Lemma nth_error_set_cell_same :
  forall (A : Type) (l : list A) (i : nat) (v x : A),
    nth_error l i = Some x -> nth_error (set_cell l i v) i = Some v.
Proof.
  intros A l i v x Hn. rewrite nth_error_set_cell, Hn. simpl. rewrite Nat.eqb_refl. reflexivity.
Qed.

Lemma nth_error_set_cell_other :
  forall (A : Type) (l : list A) (i : nat) (v : A) (j : nat),
    j <> i -> nth_error (set_cell l i v) j = nth_error l j.
Proof.
  intros A l i v j Hne. rewrite nth_error_set_cell.
  apply Nat.eqb_neq in Hne. rewrite Hne. destruct (nth_error l j); reflexivity.
Qed.

Lemma length_set_cell :
  forall (A : Type) (l : list A) (i : nat) (v : A), length (set_cell l i v) = length l.
Proof. intros A l i v. apply length_imap. Qed.

(** * repeat, map, filter *)

Lemma map_repeat : forall (A B : Type) (f : A -> B) (x : A) n, map f (repeat x n) = repeat (f x) n.
Proof. intros A B f x n. induction n as [|n IH]; cbn [repeat map]; [reflexivity|]. now rewrite IH. Qed.

Lemma nth_repeat_lt : forall (A : Type) (a d : A) n j, j < n -> nth j (repeat a n) d = a.
Proof.
  intros A a d n j Hj. rewrite (nth_indep _ d a) by (rewrite repeat_length; exact Hj).
  apply nth_repeat.
Qed.

Lemma map_seq_const : forall (B : Type) (f : nat -> B) (v : B) a m,
  (forall i, a <= i < a + m -> f i = v) -> map f (seq a m) = repeat v m.
Proof.
  intros B f v a m. revert a. induction m as [|m IH]; intros a H.
  - reflexivity.
  - cbn [seq map repeat]. rewrite (H a) by lia. f_equal. apply IH. intros i Hi. apply H. lia.
Qed.

Lemma seq_split : forall lo s n,
  lo <= s <= n -> seq lo (n - lo) = seq lo (s - lo) ++ seq s (n - s).
Proof.
  intros lo s n H. replace (n - lo) with ((s - lo) + (n - s)) by lia.
  rewrite seq_app. replace (lo + (s - lo)) with s by lia. reflexivity.
Qed.

Lemma filter_all_false : forall (A : Type) (f : A -> bool) (l : list A),
  (forall x, In x l -> f x = false) -> filter f l = [].
Proof.
  intros A f l. induction l as [|x t IH]; intros H.
  - reflexivity.
  - simpl. rewrite (H x) by (left; reflexivity).
    apply IH. intros y Hy. apply H. right. exact Hy.
Qed.

Lemma filter_all_true : forall (A : Type) (f : A -> bool) (l : list A),
  (forall x, In x l -> f x = true) -> filter f l = l.
Proof.
  intros A f l. induction l as [|x t IH]; intros H.
  - reflexivity.
  - simpl. rewrite (H x) by (left; reflexivity). f_equal.
    apply IH. intros y Hy. apply H. right. exact Hy.
Qed.

Lemma filter_map_comm : forall (A B : Type) (g : A -> B) (f : B -> bool) (l : list A),
  filter f (map g l) = map g (filter (fun x => f (g x)) l).
Proof.
  intros A B g f l. induction l as [|x t IH].
  - reflexivity.
  - simpl. destruct (f (g x)); simpl; rewrite IH; reflexivity.
Qed.

(** * Reflecting boolean conjunctions clause by clause *)

Lemma andb_prop_iff : forall (a b : bool) (P Q : Prop),
  (a = true <-> P) -> (b = true <-> Q) -> (a && b = true <-> P /\ Q).
Proof. intros a b P Q HP HQ. rewrite andb_true_iff, HP, HQ. reflexivity. Qed.

(** * The half-open range test *)

Lemma range_test_iff : forall a b i, (a <=? i) && (i <? b) = true <-> a <= i < b.
Proof.
  intros a b i. rewrite andb_true_iff, Nat.leb_le, Nat.ltb_lt. reflexivity.
Qed.

Lemma range_test_false : forall a b i, ~ a <= i < b -> (a <=? i) && (i <? b) = false.
Proof.
  intros a b i H. apply not_true_iff_false. rewrite range_test_iff. exact H.
Qed.

(** * existsb *)

Lemma existsb_false_iff : forall (A : Type) (f : A -> bool) (l : list A),
  existsb f l = false <-> (forall x, In x l -> f x = false).
Proof.
  intros A f l. induction l as [|h t IH]; simpl.
  - split; [intros _ x Hx; contradiction | reflexivity].
  - rewrite orb_false_iff, IH. split.
    + intros [Hh Ht] x [Hx | Hx]; [subst; exact Hh | apply Ht; exact Hx].
    + intros H. split; [apply H; left; reflexivity | intros x Hx; apply H; right; exact Hx].
Qed.

Lemma negb_existsb_iff : forall (A : Type) (f : A -> bool) (P : A -> Prop) (l : list A),
  (forall x, f x = false <-> P x) ->
  (negb (existsb f l) = true <-> forall x, In x l -> P x).
Proof.
  intros A f P l H. rewrite negb_true_iff, existsb_false_iff.
  split; intros H' x Hx; apply H, H', Hx.
Qed.

Section EqbTests.
Context {A : Type} (eqb : A -> A -> bool).
Hypothesis eqb_eq : forall x y, eqb x y = true <-> x = y.

Lemma existsb_eqb_iff : forall (x : A) (l : list A), existsb (eqb x) l = true <-> In x l.
Proof.
  intros x l. rewrite existsb_exists. split.
  - intros [y [Hin Heq]]. apply eqb_eq in Heq. subst y. exact Hin.
  - intros Hin. exists x. split; [exact Hin | apply eqb_eq; reflexivity].
Qed.

(** [AffectedCheck.nodupb] and [nodupZb] unfold to this *)
Fixpoint nodup_test (l : list A) : bool :=
  match l with [] => true | x :: t => negb (existsb (eqb x) t) && nodup_test t end.

Lemma nodup_test_iff : forall l, nodup_test l = true <-> NoDup l.
Proof.
  induction l as [|x t IH]; cbn [nodup_test].
  - split; intros _; [constructor | reflexivity].
  - rewrite andb_true_iff, negb_true_iff, <- not_true_iff_false, existsb_eqb_iff, IH. split.
    + intros [Hx Ht]. constructor; assumption.
    + intros Hnd. inversion Hnd. split; assumption.
Qed.
End EqbTests.

Lemma existsb_eqb_In : forall (x : nat) (l : list nat),
  existsb (Nat.eqb x) l = true <-> In x l.
Proof. exact (existsb_eqb_iff Nat.eqb Nat.eqb_eq). Qed.

Lemma existsb_eqb_not_In : forall (x : nat) (l : list nat),
  existsb (Nat.eqb x) l = false <-> ~ In x l.
Proof.
  intros x l. rewrite <- existsb_eqb_In. symmetry. apply not_true_iff_false.
Qed.

(** * fold_right Nat.max *)

Lemma fold_max_le : forall l b,
  (forall x, In x l -> x <= b) -> fold_right Nat.max 0 l <= b.
Proof.
  induction l as [|x t IH]; intros b H; simpl.
  - lia.
  - pose proof (H x (or_introl eq_refl)) as Hx.
    assert (Ht : fold_right Nat.max 0 t <= b) by (apply IH; intros y Hy; apply H; right; exact Hy).
    lia.
Qed.

Lemma fold_max_ge : forall l x, In x l -> x <= fold_right Nat.max 0 l.
Proof.
  induction l as [|y t IH]; intros x Hin; simpl.
  - destruct Hin.
  - destruct Hin as [Heq | Hin].
    + subst. lia.
    + pose proof (IH x Hin). lia.
Qed.

Lemma fold_max_app : forall A B,
  fold_right Nat.max 0 (A ++ B) =
  Nat.max (fold_right Nat.max 0 A) (fold_right Nat.max 0 B).
Proof.
  induction A as [|a A IH]; intros B.
  - reflexivity.
  - cbn [app fold_right]. rewrite IH. apply Nat.max_assoc.
Qed.

Lemma fold_max_repeat : forall m k, 0 < m -> fold_right Nat.max 0 (repeat k m) = k.
Proof.
  intros m k Hm. apply Nat.le_antisymm.
  - apply fold_max_le. intros x Hx. apply repeat_spec in Hx. lia.
  - apply fold_max_ge. destruct m; [lia | left; reflexivity].
Qed.

(** * last *)

Lemma last_nth_eq : forall (A : Type) (l : list A) (d : A),
  last l d = nth (length l - 1) l d.
Proof.
  intros A l d. induction l as [|h t IH]; simpl.
  - reflexivity.
  - destruct t as [|h' t'].
    + reflexivity.
    + rewrite IH. simpl. rewrite Nat.sub_0_r. reflexivity.
Qed.

Lemma last_seq : forall m s, last (seq (S s) m) s = s + m.
Proof.
  intros [|m] s.
  - simpl. lia.
  - rewrite seq_S, last_last. lia.
Qed.

(** * Step by step monotone sequences *)

Section Chain.
Context {A : Type} (R : A -> A -> Prop) (f : nat -> A) (k : nat).
Hypothesis Rtrans : forall x y z, R x y -> R y z -> R x z.
Hypothesis Hstep : forall i, S i < k -> R (f i) (f (S i)).

Lemma chain_lt : forall i j, i < j -> j < k -> R (f i) (f j).
Proof.
  intros i j Hij. induction Hij as [|j Hij IH]; intros Hj.
  - apply Hstep. exact Hj.
  - apply Rtrans with (f j); [apply IH; lia | apply Hstep; exact Hj].
Qed.

Lemma chain_le : (forall x, R x x) -> forall i j, i <= j -> j < k -> R (f i) (f j).
Proof.
  intros Rrefl i j Hij Hj. destruct (Nat.eq_dec i j) as [->|Hne].
  - apply Rrefl.
  - apply chain_lt; [lia | exact Hj].
Qed.
End Chain.

Lemma steps_cons : forall (A : Type) (R : A -> A -> Prop) (d x : A) (t : list A),
  (0 < length t -> R x (nth 0 t d)) ->
  (forall i, S i < length t -> R (nth i t d) (nth (S i) t d)) ->
  forall i, S i < length (x :: t) -> R (nth i (x :: t) d) (nth (S i) (x :: t) d).
Proof.
  intros A R d x t H0 Ht [|i] Hi; cbn [length] in Hi; [apply H0 | apply Ht]; lia.
Qed.

(** * Position of the first element passing a test *)

Fixpoint find_first {A : Type} (p : A -> bool) (l : list A) : option nat :=
  match l with
  | [] => None
  | a :: t => if p a then Some 0 else option_map S (find_first p t)
  end.

Lemma find_first_some : forall (A : Type) (p : A -> bool) l k,
  find_first p l = Some k -> exists a, nth_error l k = Some a /\ p a = true.
Proof.
  intros A p. induction l as [|a t IH]; intros k H; cbn [find_first] in H.
  - discriminate.
  - destruct (p a) eqn:E.
    + inversion H. exists a. split; [reflexivity | exact E].
    + destruct (find_first p t) as [m|]; [|discriminate]. inversion H.
      apply IH. reflexivity.
Qed.

Lemma find_first_miss : forall (A : Type) (p : A -> bool) l,
  (forall a, In a l -> p a = false) -> find_first p l = None.
Proof.
  intros A p. induction l as [|a t IH]; intros H; cbn [find_first].
  - reflexivity.
  - rewrite (H a) by (left; reflexivity).
    rewrite IH; [reflexivity | intros b Hb; apply H; right; exact Hb].
Qed.

Lemma find_first_hit : forall (A : Type) (p : A -> bool) l k a,
  nth_error l k = Some a -> p a = true ->
  (forall j b, j < k -> nth_error l j = Some b -> p b = false) ->
  find_first p l = Some k.
Proof.
  intros A p. induction l as [|a0 t IH]; intros k a Hk Ha Hbefore.
  - destruct k; discriminate.
  - cbn [find_first]. destruct k as [|k].
    + inversion Hk. subst a0. rewrite Ha. reflexivity.
    + rewrite (Hbefore 0 a0) by (reflexivity || lia).
      rewrite (IH k a Hk Ha); [reflexivity|].
      intros j b Hj Hb. apply (Hbefore (S j) b); [lia | exact Hb].
Qed.

(** * Equality tests on lists *)

Section ListEqb.
  Variables (A : Type) (e : A -> A -> bool).

  (** the fixpoint comparisons of the checkers ([ObjectsCheck.outs_eqb],
      [AdaptersCheck.aouts_eqb] and the like) unfold to this *)
  Fixpoint list_eqb (a b : list A) : bool :=
    match a, b with
    | [], [] => true
    | x :: a', y :: b' => e x y && list_eqb a' b'
    | _, _ => false
    end.

  Lemma list_eqb_true :
    (forall x y, e x y = true -> x = y) -> forall a b, list_eqb a b = true -> a = b.
  Proof.
    intros He. induction a as [|x a IH]; intros [|y b] H; cbn in H; try discriminate H.
    - reflexivity.
    - apply andb_true_iff in H as [Hxy Hab]. rewrite (He x y Hxy), (IH b Hab). reflexivity.
  Qed.

  Lemma list_eqb_refl : (forall x, e x x = true) -> forall a, list_eqb a a = true.
  Proof.
    intros He. induction a as [|x a IH]; cbn; [reflexivity | rewrite He, IH; reflexivity].
  Qed.
End ListEqb.

(** * Sums of integers *)

From Coq Require Import ZArith.
From SK Require Import Lib.Base.

Lemma sumZ_app : forall l1 l2, sumZ (l1 ++ l2) = sumZ l1 + sumZ l2.
Proof. induction l1 as [|x l1 IH]; intros l2; cbn [app sumZ]; [reflexivity | rewrite IH; lia]. Qed.

Lemma sumZ_seq_split : forall (f : nat -> Z) s k e, (s <= k)%nat -> (k <= e)%nat ->
  sumZ (map f (seq s (e - s))) = sumZ (map f (seq s (k - s))) + sumZ (map f (seq k (e - k))).
Proof.
  intros f s k e H1 H2. rewrite (seq_split s k e) by lia. rewrite map_app. apply sumZ_app.
Qed.
