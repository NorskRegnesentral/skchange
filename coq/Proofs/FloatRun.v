(** Facts about single binary64 operations and boolean premises that the binary64 run theorems
    (Proofs/PeltFloat*.v, Proofs/CapaFloat*.v, Proofs/MwSbsFloatCusum.v, Proofs/CbsFloatL2.v) share:
    the order, negation and absolute value of finite floats against their real values [FR]; one
    rounded addition against perturbed operands; a float that approximates a true statistic compared
    with a threshold or with another such float; [forallb] over a range and over a triangle; the
    real value of a closed float as a rational ([FR_value]). *)
From Coq Require Import Reals Lra Lia List Floats.
From Flocq Require Import Core BinarySingleNaN.
From SK Require Import Model.PeltR Model.Generic Model.GenericF Proofs.RealLib Proofs.FloatError Proofs.FloatRefine.
Import ListNotations.
Local Open Scope R_scope.

Notation float := PrimFloat.float (only parsing).

(** * Finite floats embed in R with their order, negation, absolute value *)

Lemma F_ltb_FR (x y : float) : finF x = true -> finF y = true ->
  PrimFloat.ltb x y = Rltb (FR x) (FR y).
Proof.
  intros Hx Hy. rewrite finF_B in Hx, Hy.
  rewrite FP.ltb_equiv, (Bltb_correct _ _ _ _ Hx Hy). unfold FR, Rltb.
  destruct (Rlt_bool_spec (B2R (FP.Prim2B x)) (B2R (FP.Prim2B y))) as [H|H];
    destruct (Rlt_dec (B2R (FP.Prim2B x)) (B2R (FP.Prim2B y))) as [H'|H'];
    try reflexivity; exfalso; lra.
Qed.

Lemma F_leb_FR (x y : float) : finF x = true -> finF y = true ->
  PrimFloat.leb x y = Rleb (FR x) (FR y).
Proof.
  intros Hx Hy. rewrite finF_B in Hx, Hy.
  rewrite FP.leb_equiv, (Bleb_correct _ _ _ _ Hx Hy). unfold FR, Rleb.
  destruct (Rle_bool_spec (B2R (FP.Prim2B x)) (B2R (FP.Prim2B y))) as [H|H];
    destruct (Rle_dec (B2R (FP.Prim2B x)) (B2R (FP.Prim2B y))) as [H'|H'];
    try reflexivity; exfalso; lra.
Qed.

Lemma F_ltb_lt (x y : float) : finF x = true -> finF y = true ->
  (PrimFloat.ltb x y = true <-> FR x < FR y).
Proof.
  intros Hx Hy. rewrite (F_ltb_FR x y Hx Hy). unfold Rltb.
  destruct (Rlt_dec (FR x) (FR y)); split; intros H; try assumption; try reflexivity;
    [discriminate|contradiction].
Qed.

Lemma F_ltb_ge (x y : float) : finF x = true -> finF y = true ->
  PrimFloat.ltb x y = false -> FR y <= FR x.
Proof.
  intros Hx Hy H. destruct (Rle_lt_dec (FR y) (FR x)) as [|Hlt]; [assumption|].
  apply (F_ltb_lt x y Hx Hy) in Hlt. rewrite Hlt in H. discriminate.
Qed.

Lemma F_leb_le (x y : float) : finF x = true -> finF y = true ->
  PrimFloat.leb x y = true -> FR x <= FR y.
Proof.
  intros Hx Hy. rewrite (F_leb_FR x y Hx Hy). unfold Rleb.
  destruct (Rle_dec (FR x) (FR y)); [trivial|discriminate].
Qed.

Lemma FR_opp (x : float) : FR (- x)%float = - FR x.
Proof. unfold FR. rewrite FP.opp_equiv. apply B2R_Bopp. Qed.

Lemma finF_opp (x : float) : finF (- x)%float = finF x.
Proof. rewrite !finF_B, FP.opp_equiv. apply is_finite_Bopp. Qed.

Lemma FR_abs (x : float) : FR (abs x) = Rabs (FR x).
Proof. unfold FR. rewrite FP.abs_equiv. apply B2R_Babs. Qed.

Lemma finF_abs (x : float) : finF (abs x) = finF x.
Proof. rewrite !finF_B, FP.abs_equiv. apply is_finite_Babs. Qed.

Lemma nthR_map_FR (l : list float) i : nthR (map FR l) i = FR (nthV F64 l i).
Proof. unfold nthR, nthV. cbn [zero F64]. rewrite <- FR_zero. apply map_nth. Qed.

Lemma nthV_finite (l : list float) i : forallb finF l = true -> finF (nthV F64 l i) = true.
Proof.
  intros H. unfold nthV. destruct (Nat.lt_ge_cases i (length l)) as [Hlt|Hge].
  - exact (proj1 (forallb_forall _ _) H _ (nth_In _ _ Hlt)).
  - rewrite nth_overflow by exact Hge. exact finF_zero.
Qed.

Lemma u53_pos : 0 < u53.
Proof. rewrite u53_value. lra. Qed.

Lemma u53_lt_1 : u53 < 1.
Proof. rewrite u53_value. lra. Qed.

Lemma small_le (n T : nat) : (T <= n)%nat -> INR n * u53 <= 1 / 100 -> INR T * u53 <= 1 / 100.
Proof.
  intros HT H. pose proof u53_pos. apply le_INR in HT.
  eapply Rle_trans; [|exact H]. apply Rmult_le_compat_r; lra.
Qed.

(** a kernel bound (4.2 T + K) u53 scale at a cut ending at T <= n, against (4.2 n + K) u53 Sc *)
Lemma kernel_bound_le (K err scale Sc : R) (T n : nat) : 0 <= K -> (T <= n)%nat ->
  err <= (42 / 10 * INR T + K) * u53 * scale -> 0 <= scale <= Sc ->
  err <= (42 / 10 * INR n + K) * u53 * Sc.
Proof.
  intros HK HT He [H0 HS]. pose proof u53_pos. pose proof (pos_INR T). apply le_INR in HT.
  eapply Rle_trans; [exact He|]. apply Rmult_le_compat; [|exact H0| |exact HS].
  - apply Rmult_le_pos; lra.
  - apply Rmult_le_compat_r; lra.
Qed.

Lemma INR_pred (p : nat) : (1 <= p)%nat -> INR (p - 1) = INR p - 1.
Proof. intros Hp. rewrite minus_INR by lia. reflexivity. Qed.

(** * One rounded addition *)

Lemma FR_add_error (x y : float) :
  finF x = true -> finF y = true -> finF (x + y)%float = true ->
  Rabs (FR (x + y)%float - (FR x + FR y)) <= u53 * Rabs (FR x + FR y).
Proof. intros Hx Hy Hs. rewrite (FR_add53 x y Hx Hy Hs). apply rnd53_rel. Qed.

(** the float sum against the sum of two reals near its operands: the two distances and one
    rounding, the exact sum of the operands being at most [Mag] in magnitude *)
Lemma add_error2 (x y : float) (rx ry dx dy Mag : R) :
  finF x = true -> finF y = true -> finF (x + y)%float = true ->
  Rabs (FR x - rx) <= dx -> Rabs (FR y - ry) <= dy -> Rabs (FR x + FR y) <= Mag ->
  Rabs (FR (x + y)%float - (rx + ry)) <= dx + dy + u53 * Mag.
Proof.
  intros Hx Hy Hxy Hdx Hdy HM.
  pose proof (FR_add_error x y Hx Hy Hxy) as Hr. pose proof u53_nonneg as Hu.
  assert (Hm : u53 * Rabs (FR x + FR y) <= u53 * Mag) by (apply Rmult_le_compat_l; assumption).
  apply Rabs_le_both in Hr. apply Rabs_le_both in Hdx. apply Rabs_le_both in Hdy.
  apply Rabs_le_of. lra.
Qed.

Lemma add_error (x y : float) (r delta Mag : R) :
  finF x = true -> finF y = true -> finF (x + y)%float = true ->
  Rabs (FR y - r) <= delta -> Rabs (FR x + FR y) <= Mag ->
  Rabs (FR (x + y)%float - (FR x + r)) <= delta + u53 * Mag.
Proof.
  intros Hx Hy Hxy Hd HM.
  pose proof (add_error2 x y (FR x) r 0 delta Mag Hx Hy Hxy (Rabs_diag_0 _) Hd HM) as H.
  now rewrite Rplus_0_l in H.
Qed.

(** the exact sum is at most the rounded sum / (1 - u53) in magnitude *)
Lemma sum_mag_from_rounded_R (x y : float) (M : R) :
  finF x = true -> finF y = true -> finF (x + y)%float = true ->
  Rabs (FR (x + y)%float) <= M ->
  Rabs (FR x + FR y) <= M / (1 - u53).
Proof.
  intros Hx Hy Hs H1.
  pose proof (FR_add_error x y Hx Hy Hs) as H2.
  pose proof u53_lt_1 as Hu. pose proof u53_pos as Hu0.
  set (z := FR x + FR y) in *. set (r := FR (x + y)%float) in *.
  assert (Hz : Rabs z <= Rabs r + u53 * Rabs z).
  { replace z with (r - (r - z)) at 1 by ring.
    eapply Rle_trans; [apply Rabs_triang|]. rewrite Rabs_Ropp. lra. }
  apply Rmult_le_reg_r with (1 - u53); [lra|].
  unfold Rdiv. rewrite Rmult_assoc, Rinv_l by lra. lra.
Qed.

(** * A finite float within [E] of a true statistic [S], compared *)

Lemma above_sound thr v S E : finF thr = true -> finF v = true -> Rabs (FR v - S) <= E ->
  PrimFloat.ltb thr v = true -> S > FR thr - E.
Proof.
  intros Ht Hv Hc Hl. apply (F_ltb_lt thr v Ht Hv) in Hl. apply Rabs_le_both in Hc. lra.
Qed.

Lemma above_complete thr v S E : finF thr = true -> finF v = true -> Rabs (FR v - S) <= E ->
  S > FR thr + E -> PrimFloat.ltb thr v = true.
Proof.
  intros Ht Hv Hc Hl. apply (F_ltb_lt thr v Ht Hv). apply Rabs_le_both in Hc. lra.
Qed.

(** [v] is a float maximum: the true statistic of any other candidate [w] is below [FR v] up to
    its error, hence within the two errors of the true statistic of [v] *)
Lemma max_lower v w Sw Ew : finF v = true -> finF w = true -> Rabs (FR w - Sw) <= Ew ->
  PrimFloat.ltb v w = false -> Sw - Ew <= FR v.
Proof.
  intros Hv Hw Hc Hl. apply (F_ltb_ge v w Hv Hw) in Hl. apply Rabs_le_both in Hc. lra.
Qed.

Lemma max_within v w Sv Ev Sw Ew : finF v = true -> finF w = true ->
  Rabs (FR v - Sv) <= Ev -> Rabs (FR w - Sw) <= Ew ->
  PrimFloat.ltb v w = false -> Sw <= Sv + Ev + Ew.
Proof.
  intros Hv Hw Hcv Hcw Hl. pose proof (max_lower v w Sw Ew Hv Hw Hcw Hl).
  apply Rabs_le_both in Hcv. lra.
Qed.

(** a maximum is above whatever one candidate is above *)
Lemma max_above thr v w : finF thr = true -> finF v = true -> finF w = true ->
  PrimFloat.ltb thr w = true -> PrimFloat.ltb v w = false -> PrimFloat.ltb thr v = true.
Proof.
  intros Ht Hv Hw H1 H2. apply (F_ltb_lt thr v Ht Hv).
  apply (F_ltb_lt thr w Ht Hw) in H1. apply (F_ltb_ge v w Hv Hw) in H2. lra.
Qed.

(** * Boolean tests over a range and over the triangle a < T *)

Lemma forallb_seq (f : nat -> bool) k len : forallb f (seq k len) = true ->
  forall i, (k <= i < k + len)%nat -> f i = true.
Proof. intros H i Hi. apply (proj1 (forallb_forall _ _) H). apply in_seq. exact Hi. Qed.

Lemma forallb_triangle (P : nat -> nat -> bool) k len :
  forallb (fun T => forallb (fun a => P a T) (seq 0 T)) (seq k len) = true ->
  forall a T, (a < T)%nat -> (k <= T < k + len)%nat -> P a T = true.
Proof.
  intros H a T HaT HT. apply (forallb_seq _ _ _ (forallb_seq _ _ _ H T HT)). lia.
Qed.

(** * Real values of concrete floats *)
Lemma FR_SF x : FR x = SF2R radix2 (Prim2SF x).
Proof. unfold FloatRefine.FR, FP.Prim2B. apply B2R_SF2B. Qed.

Lemma FR_dyadic x s mm e :
  Prim2SF x = S754_finite s mm e -> (e <= 0)%Z ->
  FR x = IZR (cond_Zopp s (Zpos mm)) / IZR (2 ^ (- e)).
Proof.
  intros H He. rewrite FR_SF, H. unfold SF2R, F2R. cbn [Fnum Fexp].
  unfold Rdiv. f_equal.
  replace e with (- - e)%Z at 1 by lia. rewrite bpow_opp. f_equal.
  rewrite <- IZR_Zpower by lia. reflexivity.
Qed.

Ltac FR_eval x H :=
  let sf := eval vm_compute in (Prim2SF x) in
  match sf with
  | S754_finite ?s ?mm ?e =>
    assert (H : FR x = IZR (cond_Zopp s (Zpos mm)) / IZR (2 ^ (- e)))
      by (apply FR_dyadic; [vm_compute; reflexivity|lia]);
    let z := eval vm_compute in (2 ^ (- e))%Z in
    change (2 ^ (- e))%Z with z in H; cbn [cond_Zopp] in H
  end.

(** closes [FR x = r] for a closed finite float [x] and a rational [r] *)
Ltac FR_value :=
  lazymatch goal with
  | |- FR ?x = _ => let H := fresh in FR_eval x H; cbn [Z.opp] in H; rewrite H; lra
  end.
