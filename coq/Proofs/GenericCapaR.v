(** The generic CAPA / MVCAPA (Model/GenericCapa.v) at the instance of the real numbers ([Rn] of
    Proofs/GenericR.v) IS the real-valued model Model/CapaR.v: the theorems of Proofs/CapaReal.v are
    theorems about the same definition that is run on integer tables (Proofs/GenericCapaZ.v) and on
    binary64 tables ([F64]).

    The "negligible beta" test is [gtiny_le Rn 0] (beta <= 0), by computation the test [all_tinyR].
    (A strict test "beta < c" cannot coincide with "beta <= 0" on all reals, so there is no real
    twin of [gcapa_Z_lt].)  The derived maximum and equality test are bridged by [gmax_R] (on a tie
    [gmax] returns its first and [Rmax] its second argument: the same real) and [geqb_R]. *)
From Coq Require Import Reals List Lra.
From SK Require Import Lib.Base Model.PeltR Proofs.RealLib Model.CapaR Model.CapaA Model.Generic
                       Model.GenericCapa Proofs.GenericR Proofs.PeltLoop Proofs.CapaSkeleton.
Import ListNotations.
Open Scope R_scope.

Lemma gargmax_from_R l : forall bi b i, gargmax_from Rn bi b i l = argmaxR_from bi b i l.
Proof.
  induction l as [|x t IH]; intros bi b i; cbn [gargmax_from argmaxR_from]; [reflexivity|].
  cbn [T ltb Rn]. destruct (Rltb b x); apply IH.
Qed.

Lemma gargmax_R l : gargmax Rn l = argmaxR l.
Proof. destruct l as [|x t]; cbn [gargmax argmaxR]; [reflexivity|]. rewrite gargmax_from_R. reflexivity. Qed.

Lemma nthV_R (l : list R) i : nthV Rn l i = nthR l i.
Proof. reflexivity. Qed.

(** ---- derived operations ---- *)
Lemma gsub_R x y : gsub Rn x y = x - y.
Proof. reflexivity. Qed.

Lemma gmax_R a b : gmax Rn a b = Rmax a b.
Proof.
  unfold gmax, Rmax. cbn [ltb Rn]. unfold Rltb.
  destruct (Rlt_dec a b) as [H1|H1]; destruct (Rle_dec a b) as [H2|H2]; try reflexivity; lra.
Qed.

Lemma geqb_R a b : geqb Rn a b = Reqb a b.
Proof.
  unfold geqb, Reqb. cbn [ltb Rn]. unfold Rltb.
  destruct (Rlt_dec a b) as [H1|H1]; destruct (Rlt_dec b a) as [H2|H2];
    destruct (Req_EM_T a b) as [H3|H3]; cbn; try reflexivity; lra.
Qed.

Lemma gtiny_le_R b : gtiny_le Rn 0 b = Rleb b 0.
Proof. reflexivity. Qed.

(** [gsum] is the left fold from the first element (NumPy's order); over R it is [sumR] (a right fold
    ending in 0) by associativity and commutativity of the addition. *)
Lemma fold_left_add_R (t : list R) (acc : R) : fold_left (add Rn) t acc = acc + sumR t.
Proof.
  revert acc. induction t as [|y t IH]; intros acc; cbn [fold_left sumR].
  - lra.
  - rewrite IH. change (add Rn acc y) with (acc + y). lra.
Qed.

Lemma gsum_R (l : list R) : gsum Rn l = sumR l.
Proof. destruct l as [|x t]; cbn [gsum sumR]; [reflexivity|]. apply fold_left_add_R. Qed.

(** ---- penalise_savings ---- *)
Lemma ginsert_desc_R (x : R) (l : list R) : ginsert_desc Rn x l = insert_descR x l.
Proof.
  induction l as [|y t IH]; cbn [ginsert_desc insert_descR]; [reflexivity|].
  change (ltb Rn y x) with (Rltb y x). destruct (Rltb y x); [reflexivity|]. rewrite IH. reflexivity.
Qed.

Lemma gsort_desc_R (l : list R) : gsort_desc Rn l = sort_descR l.
Proof.
  induction l as [|x t IH]; cbn [gsort_desc sort_descR]; [reflexivity|].
  rewrite IH. apply ginsert_desc_R.
Qed.

Lemma gcumsum_from_R (l : list R) : forall acc, gcumsum_from Rn acc l = cumsumR_from acc l.
Proof.
  induction l as [|x t IH]; intros acc; cbn [gcumsum_from cumsumR_from]; [reflexivity|].
  rewrite IH. reflexivity.
Qed.

Lemma gcumsum_R (l : list R) : gcumsum Rn l = cumsumR l.
Proof. unfold gcumsum, cumsumR. apply gcumsum_from_R. Qed.

Lemma gsub_lists_R (a b : list R) : gsub_lists Rn a b = sub_listsR a b.
Proof. reflexivity. Qed.

Lemma gall_tiny_R (betas : list R) : gall_tiny Rn (gtiny_le Rn 0) betas = all_tinyR betas.
Proof. reflexivity. Qed.

Lemma forallb_geqb_R b0 (l : list R) : forallb (fun b => geqb Rn b b0) l = forallb (fun b => Reqb b b0) l.
Proof.
  induction l as [|b t IH]; cbn [forallb]; [reflexivity|]. rewrite geqb_R, IH. reflexivity.
Qed.

Lemma gall_equal_R (betas : list R) : gall_equal Rn betas = all_equalR betas.
Proof.
  unfold gall_equal, all_equalR. destruct betas as [|b0 t]; [reflexivity|]. apply forallb_geqb_R.
Qed.

Lemma map_gmax_R c (sav : list R) :
  map (fun s => gmax Rn (gsub Rn s c) (zero Rn)) sav = map (fun s => Rmax (s - c) 0) sav.
Proof. apply map_ext. intros s. rewrite gmax_R. reflexivity. Qed.

Theorem gpenalise_R (sav : list R) (alpha : R) (betas : list R) :
  gpenalise Rn (gtiny_le Rn 0) sav alpha betas = penaliseR sav alpha betas.
Proof.
  unfold gpenalise, penaliseR.
  rewrite gall_tiny_R, gall_equal_R.
  destruct (all_tinyR betas).
  - rewrite gsum_R. reflexivity.
  - destruct (all_equalR betas).
    + rewrite gsum_R. change (hd (zero Rn) betas) with (hd 0 betas). rewrite map_gmax_R. reflexivity.
    + rewrite gargmax_R, gsort_desc_R, gsub_lists_R, gcumsum_R. reflexivity.
Qed.

(** ---- find_affected_components ---- *)
Lemma ginsert_idx_R (sav : list R) j l : ginsert_idx Rn sav j l = insert_idxR sav j l.
Proof.
  induction l as [|k t IH]; cbn [ginsert_idx insert_idxR]; [reflexivity|].
  change (ltb Rn (nthV Rn sav k) (nthV Rn sav j)) with (Rltb (nthR sav k) (nthR sav j)).
  destruct (Rltb (nthR sav k) (nthR sav j)); [reflexivity|]. rewrite IH. reflexivity.
Qed.

Lemma gargsort_desc_R (sav : list R) : gargsort_desc Rn sav = argsort_descR sav.
Proof.
  unfold gargsort_desc, argsort_descR.
  change (@length (T Rn) sav) with (@length R sav).
  induction (seq 0 (length sav)) as [|j t IH]; cbn [fold_right]; [reflexivity|].
  rewrite IH. apply ginsert_idx_R.
Qed.

Theorem gaffected_R (sav : list R) (alpha : R) (betas : list R) :
  gaffected Rn sav alpha betas = affectedR sav alpha betas.
Proof.
  unfold gaffected, affectedR. cbv zeta.
  rewrite gargmax_R, gargsort_desc_R, gsub_lists_R, gcumsum_R. reflexivity.
Qed.

(** ---- run_base_capa ---- *)

(** the loop of Proofs/CapaSkeleton.v over R IS the loop of Model/CapaA.v, for any arithmetic *)
Section RunA.
Variables Vc Vc' : nat -> nat -> R -> R.
Variables Vp Vp' : nat -> R -> R.
Variables Wk Wk' : nat -> nat -> R -> R.
Variables (m M delay : nat).
Hypothesis HVc : forall a T g, Vc a T g = Vc' a T g.
Hypothesis HVp : forall t g, Vp t g = Vp' t g.
Hypothesis HWk : forall a T c, Wk a T c = Wk' a T c.

Definition cst_relR (g : gcst Rn) (s : stC) : Prop :=
  gcopt Rn g = optC s /\ gcastart Rn g = astartC s /\
  gcstarts Rn g = startsC s /\ gcpending Rn g = pendingC s.

Lemma cstep_A g s t : cst_relR g s ->
  cst_relR (cstep Rn Vc Vp Wk m M delay g t) (stepA Vc' Vp' Wk' m M delay s t).
Proof.
  intros (Ho & Ha & Hs & Hq).
  unfold cstep, cchoose, clow, ccands, cstarts1, pop, ckeep, stepA.
  rewrite Ho, Ha, Hs, Hq. cbv zeta. rewrite gargmax_R, HVp.
  rewrite (map_ext (fun a => Vc a (S t) (nthV Rn (optC s) a))
                   (fun a => Vc' a (S t) (nthR (optC s) a)))
    by (intros a; apply HVc).
  rewrite !nthV_R. cbn [T ltb Rn].
  set (starts1 := if (m <=? S t)%nat then startsC s ++ [(S t - m)%nat] else startsC s).
  set (cands := map (fun a => Vc' a (S t) (nthR (optC s) a)) starts1).
  set (ot := nthR (optC s) t). set (optp := Vp' t ot).
  destruct (match argmaxR cands with
            | Some (i, oc) =>
                if Rltb ot oc
                then if Rltb oc optp then (Some t, optp) else (Some (nthN starts1 i), oc)
                else if Rltb ot optp then (Some t, optp) else (None, ot)
            | None => if Rltb ot optp then (Some t, optp) else (None, ot)
            end) as [choice best].
  rewrite (filter_ext (fun ac0 => Rltb (Wk (fst ac0) (S t) (snd ac0)) best)
                      (fun ac0 => Rltb (Wk' (fst ac0) (S t) (snd ac0)) best))
    by (intros ac0; now rewrite HWk).
  destruct (Nat.ltb delay _); unfold cst_relR; cbn; repeat split; reflexivity.
Qed.

Lemma crun_A n :
  cst_relR (crun Rn Vc Vp Wk m M delay n) (runA Vc' Vp' Wk' m M delay n).
Proof.
  unfold crun, runA. apply fold_left_rel; [intros g s t; apply cstep_A|repeat split].
Qed.

Theorem ccapa_A n : ccapa Rn Vc Vp Wk m M delay n = capaA Vc' Vp' Wk' m M delay n.
Proof.
  unfold ccapa, capaA. cbv zeta. destruct (crun_A n) as (Ho & Ha & _ & _).
  rewrite Ho, Ha. reflexivity.
Qed.
End RunA.

Theorem gcapa_R (Sc : nat -> nat -> list R) (Sp : nat -> list R)
  (ac : R) (bc : list R) (ap : R) (bp : list R) (m M delay n : nat) :
  gcapa Rn (gtiny_le Rn 0) Sc Sp ac bc ap bp m M delay n = capaR Sc Sp ac bc ap bp m M delay n.
Proof.
  rewrite <- capaA_exact.
  apply (ccapa_A (fun a T g => add Rn g (gPc Rn (gtiny_le Rn 0) Sc ac bc a T)) _
                 (fun t g => add Rn g (gPp Rn (gtiny_le Rn 0) Sp ap bp t)) _
                 (fun _ _ c => add Rn c (add Rn ac (gsum Rn bc)))).
  - intros a T g. unfold gPc, PcR. now rewrite gpenalise_R.
  - intros t g. unfold gPp, PpR. now rewrite gpenalise_R.
  - intros a T c. now rewrite gsum_R.
Qed.

Print Assumptions gpenalise_R.
Print Assumptions gaffected_R.
Print Assumptions gcapa_R.
