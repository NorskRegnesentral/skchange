(** Seeded binary segmentation: properties of Model/Sbs.v.
    1. seeded intervals (integer part),
    2. per-interval first-argmax [amoc],
    3. the vocabulary of the greedy changepoint selection (its theorems: Proofs/AnyThreshold.v,
       Proofs/GenericSpec.v, and Proofs/GreedyZ.v for this model),
    4. sorting and extensionality of the assembled detector [sbs].
    [sbs] is the Z instance of the generic detector (Proofs/GenericZ.v): what is said about score
    values comes from Proofs/GenericOrder.v at [Zn]. *)
From Coq Require Import ZArith List Lia Bool Permutation.
From SK Require Import Lib.Base Model.Sbs Model.Generic.
From SK Require Import Proofs.ArgmaxLemmas Proofs.GenericZ Proofs.GenericOrder.
Import ListNotations.
Open Scope Z_scope.

(** * 1. Seeded intervals *)
Section Intervals.
Local Open Scope nat_scope.

Lemma ceil_div_bounds : forall a b, 1 <= b ->
  a <= ceil_div a b * b /\ ceil_div a b * b < a + b.
Proof.
  intros a b Hb. unfold ceil_div.
  pose proof (Nat.div_mod (a + b - 1) b ltac:(lia)) as E.
  pose proof (Nat.mod_upper_bound (a + b - 1) b ltac:(lia)) as U.
  nia.
Qed.

Lemma ceil_div_below : forall a b i, 1 <= b -> i < ceil_div a b -> i * b < a.
Proof.
  intros a b i Hb Hi. destruct (ceil_div_bounds a b Hb) as [_ U]. nia.
Qed.

Lemma map_seq_last : forall {A} (f : nat -> A) k,
  map f (seq 0 (S k)) = map f (seq 0 k) ++ [f k].
Proof. intros. rewrite seq_S, map_app. reflexivity. Qed.

(** membership in the intervals of one length: a regular interval [i < n_steps],
    or the last one (possibly fixed up) *)
Lemma iol_in_iff : forall n minlen len step s e,
  In (s, e) (intervals_of_len n minlen len step) <->
  (exists i, i < ceil_div (n - len) step /\ s = i * step /\ e = Nat.min (i * step + len) n) \/
  (s = (if Nat.min (ceil_div (n - len) step * step + len) n - ceil_div (n - len) step * step <? minlen
        then n - minlen else ceil_div (n - len) step * step) /\
   e = Nat.min (ceil_div (n - len) step * step + len) n).
Proof.
  intros n minlen len step s e. unfold intervals_of_len. cbv zeta.
  rewrite map_seq_last. cbv beta. rewrite last_last, removelast_last. cbn [fst snd].
  generalize (ceil_div (n - len) step) as q; intro q.
  destruct (Nat.min (q * step + len) n - q * step <? minlen);
    rewrite in_app_iff, in_map_iff; simpl In; split.
  - intros [(i & E & Hi) | [E | []]].
    + inversion E; subst. apply in_seq in Hi. left. exists i. repeat split; lia.
    + inversion E; subst. right. split; reflexivity.
  - intros [(i & Hi & -> & ->) | [-> ->]].
    + left. exists i. split; [reflexivity| apply in_seq; lia].
    + right. left. reflexivity.
  - intros [(i & E & Hi) | [E | []]].
    + inversion E; subst. apply in_seq in Hi. left. exists i. repeat split; lia.
    + inversion E; subst. right. split; reflexivity.
  - intros [(i & Hi & -> & ->) | [-> ->]].
    + left. exists i. split; [reflexivity| apply in_seq; lia].
    + right. left. reflexivity.
Qed.

Lemma iol_in_range : forall n minlen len step s e,
  1 <= minlen <= n -> minlen <= len <= n -> 1 <= step ->
  In (s, e) (intervals_of_len n minlen len step) ->
  e <= n /\ minlen <= e - s /\ s < e /\ e - s <= len.
Proof.
  intros n minlen len step s e Hml Hlen Hstep H. apply iol_in_iff in H.
  destruct (ceil_div_bounds (n - len) step Hstep) as [L U].
  destruct H as [(i & Hi & -> & ->) | [-> ->]].
  - pose proof (ceil_div_below _ _ _ Hstep Hi) as B. lia.
  - destruct (Nat.min (ceil_div (n - len) step * step + len) n
              - ceil_div (n - len) step * step <? minlen) eqn:E.
    + apply Nat.ltb_lt in E. lia.
    + apply Nat.ltb_ge in E. lia.
Qed.

Lemma iol_last : forall n minlen len step,
  1 <= minlen <= n -> minlen <= len <= n -> 1 <= step ->
  exists s, In (s, n) (intervals_of_len n minlen len step).
Proof.
  intros n minlen len step Hml Hlen Hstep.
  destruct (ceil_div_bounds (n - len) step Hstep) as [L U].
  eexists. apply iol_in_iff. right. split; [reflexivity| lia].
Qed.

Lemma iol_first : forall n minlen len step,
  1 <= minlen <= n -> minlen <= len <= n -> 1 <= step ->
  In (0, len) (intervals_of_len n minlen len step).
Proof.
  intros n minlen len step Hml Hlen Hstep.
  destruct (ceil_div_bounds (n - len) step Hstep) as [L U].
  apply iol_in_iff.
  destruct (ceil_div (n - len) step) as [|q] eqn:Q.
  - right. simpl. replace (Nat.min len n - 0 <? minlen) with false
      by (symmetry; apply Nat.ltb_ge; lia). split; lia.
  - left. exists 0. split; [lia|]. split; simpl; lia.
Qed.

Lemma iol_nonempty : forall n minlen len step, intervals_of_len n minlen len step <> [].
Proof.
  intros n minlen len step. unfold intervals_of_len. cbv zeta.
  rewrite map_seq_last. cbv beta. rewrite last_last, removelast_last.
  destruct (_ <? _); intro H; apply app_eq_nil in H; destruct H; discriminate.
Qed.

Section Seeded.
Variables n minlen : nat.
Variable lens : list (nat * nat).
Hypothesis Hml : 1 <= minlen <= n.
Hypothesis Hlens : forall len step, In (len, step) lens -> minlen <= len <= n /\ 1 <= step.

Theorem seeded_in_range : forall s e,
  In (s, e) (seeded_intervals n minlen lens) ->
  (e <= n /\ minlen <= e - s /\ s < e) /\
  exists len step, In (len, step) lens /\ e - s <= len.
Proof.
  intros s e H. unfold seeded_intervals in H. apply in_flat_map in H.
  destruct H as ([len step] & Hls & Hin). simpl in Hin.
  destruct (Hlens len step Hls) as [Hlen Hstep].
  destruct (iol_in_range _ _ _ _ _ _ Hml Hlen Hstep Hin) as (A & B & C & D).
  split; [lia|]. exists len, step. split; assumption.
Qed.

Theorem seeded_nonempty : lens <> [] -> seeded_intervals n minlen lens <> [].
Proof.
  destruct lens as [|[len step] t]; [contradiction|]. intros _.
  unfold seeded_intervals. simpl. intro H. apply app_eq_nil in H. destruct H as [H _].
  exact (iol_nonempty _ _ _ _ H).
Qed.

Theorem seeded_covers_end : lens <> [] ->
  (exists s, In (s, n) (seeded_intervals n minlen lens)) /\
  (exists e, In (0, e) (seeded_intervals n minlen lens)).
Proof.
  destruct lens as [|[len step] t] eqn:EL; [contradiction|]. intros _.
  destruct (Hlens len step (or_introl eq_refl)) as [Hlen Hstep].
  split.
  - destruct (iol_last n minlen len step Hml Hlen Hstep) as (s & Hs).
    exists s. unfold seeded_intervals. simpl. apply in_app_iff. left. exact Hs.
  - exists len. unfold seeded_intervals. simpl. apply in_app_iff. left.
    apply iol_first; assumption.
Qed.
(** stronger form: EVERY interval length contributes an interval starting at 0
    (of exactly that length) and an interval ending at n (of at most that length) *)
Theorem seeded_covers_end_each : forall len step, In (len, step) lens ->
  In (0, len) (seeded_intervals n minlen lens) /\
  exists s, In (s, n) (seeded_intervals n minlen lens) /\ n - s <= len.
Proof.
  intros len step Hls. destruct (Hlens len step Hls) as [Hlen Hstep].
  unfold seeded_intervals. split.
  - apply in_flat_map. exists (len, step). split; [exact Hls|]. simpl.
    apply iol_first; assumption.
  - destruct (iol_last n minlen len step Hml Hlen Hstep) as (s & Hs).
    exists s. split.
    + apply in_flat_map. exists (len, step). split; [exact Hls | exact Hs].
    + pose proof (iol_in_range _ _ _ _ _ _ Hml Hlen Hstep Hs). lia.
Qed.
End Seeded.
End Intervals.

(** * 2. Per-interval maximisation *)
Section Amoc.
Variable CS : nat -> nat -> nat -> Z.
Variable m : nat.

Theorem amoc_spec : forall s e k v,
  amoc CS m (s, e) = Some (k, v) ->
  (s + m <= k /\ k + m <= e)%nat /\ v = CS s k e /\
  (forall k', (s + m <= k' /\ k' + m <= e)%nat ->
     CS s k' e <= v /\ (CS s k' e = v -> (k <= k')%nat)).
Proof.
  intros s e k v H. rewrite <- gamoc_Z in H.
  destruct (gamoc_spec Zn _ swo_Z CS m s e k v (fun _ _ _ => I) H) as (Hk & Hv & Hmax).
  split; [exact Hk|]. split; [exact Hv|]. intros k' Hk'. destruct (Hmax k' Hk') as [Hle Hlt].
  split; [exact (proj1 (Z.ltb_ge _ _) Hle)|]. intros Heq.
  destruct (le_lt_dec k k') as [L | L]; [exact L|]. pose proof (proj1 (Z.ltb_lt _ _) (Hlt L)). lia.
Qed.

Theorem amoc_some : forall s e, (s + 2 * m <= e)%nat -> exists kv, amoc CS m (s, e) = Some kv.
Proof.
  intros s e H. unfold amoc.
  destruct (argmax_some (map (fun k => CS s k e) (seq (s + m) (e - m + 1 - (s + m)))))
    as (i & v & A).
  - intro E. apply (f_equal (@length Z)) in E. rewrite map_length, seq_length in E.
    simpl in E. lia.
  - rewrite A. eauto.
Qed.

Theorem amoc_none : forall s e, (e < s + 2 * m)%nat -> amoc CS m (s, e) = None.
Proof.
  intros s e H. unfold amoc.
  replace (e - m + 1 - (s + m))%nat with 0%nat by lia. reflexivity.
Qed.

Lemma amocs_inv : forall ivs am, amocs CS m ivs = Some am ->
  length am = length ivs /\
  forall i, (i < length ivs)%nat ->
    amoc CS m (nth i ivs (0, 0)%nat) = Some (nth i am (0%nat, 0)).
Proof.
  intros ivs am H. rewrite <- gamocs_Z in H. destruct (gamocs_inv Zn CS m ivs am H) as [Hl Hn].
  split; [exact Hl|]. intros i Hi. rewrite <- gamoc_Z. apply Hn. exact Hi.
Qed.

Theorem amocs_some : forall ivs,
  (forall s e, In (s, e) ivs -> (s + 2 * m <= e)%nat) ->
  exists am, amocs CS m ivs = Some am /\ length am = length ivs /\
    forall i, (i < length ivs)%nat ->
      amoc CS m (nth i ivs (0, 0)%nat) = Some (nth i am (0%nat, 0)).
Proof.
  intros ivs H.
  assert (E : exists am, amocs CS m ivs = Some am).
  { induction ivs as [|[s e] t IH]; cbn [amocs]; [eauto|].
    destruct (amoc_some s e) as (kv & ->); [apply H; left; reflexivity|].
    destruct IH as (r & ->); [intros s' e' Hin; apply H; right; exact Hin|]. eauto. }
  destruct E as (am & E). exists am. split; [exact E|]. apply amocs_inv. exact E.
Qed.
End Amoc.

(** * 3. Greedy changepoint selection *)

(** picking the maximiser of interval [i] removes every interval [j] that contains it *)
Definition Ksbs (ivs : list (nat * nat)) (maxs : list nat) (i j : nat) : bool :=
  contains (nth j ivs (0, 0)%nat) (nthN maxs i).

Lemma contains_iff : forall se c, contains se c = true <-> (fst se <= c < snd se)%nat.
Proof. intros se c. unfold contains. rewrite andb_true_iff, Nat.leb_le, Nat.ltb_lt. reflexivity. Qed.

(** standing assumptions of the selection loop: three parallel lists of length [N],
    a non-negative threshold, and every interval contains its own maximiser *)
Definition greedy_pre (thr : Z) (ivs : list (nat * nat)) (maxs : list nat)
           (scores : list Z) (N : nat) : Prop :=
  length ivs = N /\ length maxs = N /\ length scores = N /\ 0 <= thr /\
  (forall i, (i < N)%nat -> contains (nth i ivs (0, 0)%nat) (nthN maxs i) = true).

(** separation: distinct and at distance >= m *)
Definition sep (m c c' : nat) : Prop := c <> c' /\ (c + m <= c' \/ c' + m <= c)%nat.

Definition maxs_inside (m : nat) (ivs : list (nat * nat)) (maxs : list nat) (N : nat) : Prop :=
  forall i, (i < N)%nat ->
    (fst (nth i ivs (0, 0)%nat) + m <= nthN maxs i /\
     nthN maxs i + m <= snd (nth i ivs (0, 0)%nat))%nat.

(** * 4. The assembled detector *)
Lemma insert_nat_ins : forall x l, insert_nat x l = ins Nat.leb x l.
Proof.
  intros x. induction l as [|y t IH]; simpl; [reflexivity|]. rewrite IH. reflexivity.
Qed.

Lemma sort_nat_isort : forall l, sort_nat l = isort Nat.leb l.
Proof.
  unfold sort_nat, isort. induction l as [|x t IH]; simpl; [reflexivity|].
  rewrite IH, insert_nat_ins. reflexivity.
Qed.

Lemma sort_nat_perm : forall l, Permutation (sort_nat l) l.
Proof. intros l. rewrite sort_nat_isort. apply isort_perm. Qed.

Lemma sort_nat_sorted : forall l i, (S i < length (sort_nat l))%nat ->
  (nthN (sort_nat l) i <= nthN (sort_nat l) (S i))%nat.
Proof.
  intros l i Hi. rewrite sort_nat_isort in *.
  pose proof (Sorted_nth _ _ 0%nat (isort_sorted Nat.leb l) i Hi) as [H | H].
  - apply Nat.leb_le in H. exact H.
  - apply Nat.leb_gt in H. unfold nthN. lia.
Qed.

Theorem sbs_ext : forall CS1 CS2 m thr ivs,
  (forall s k e, CS1 s k e = CS2 s k e) -> sbs CS1 m thr ivs = sbs CS2 m thr ivs.
Proof.
  intros CS1 CS2 m thr ivs H. rewrite <- (gsbs_Z CS1), <- (gsbs_Z CS2).
  apply (G07_only_valid_cuts_matter Zn). intros s e k _ _ _. apply H.
Qed.

Print Assumptions seeded_in_range.
Print Assumptions seeded_nonempty.
Print Assumptions seeded_covers_end.
Print Assumptions seeded_covers_end_each.
Print Assumptions amoc_spec.
Print Assumptions amoc_some.
Print Assumptions amoc_none.
Print Assumptions amocs_some.
Print Assumptions sbs_ext.
