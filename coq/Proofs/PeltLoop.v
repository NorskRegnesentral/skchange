(** The PELT loop with the arithmetic left out.

    [kstep] is the iteration of run_pelt (Model/Pelt.v, PeltR.v, PeltA.v, Generic.v) over the
    state record [gst N] of Model/Generic.v in which the two places where the code computes
    with score values are ARBITRARY functions, as in Model/PeltA.v:
      [V a T g] : the candidate value of the start [a] for the end [T] when [opt_cost[a] = g],
      [W T b]   : the prune threshold of the iteration with end [T] that selected the value [b];
    the initial block is [x0] (the dummy entries) and [I0 e] (the ends [m .. 2m-1]).
    [gstep N C pen] is the instance [V a T g = g + C a T + pen], [W T b = b + pen]
    ([gstep_kstep]); the Z, R and inexact models are reached through Proofs/GenericZ.v and
    Proofs/GenericR.v.

    Everything about the loop that does not depend on what the numbers ARE is proved here,
    once: which starts are evaluated, where the back-pointers point, how every stored value
    was computed ([KInv]), that stored values are never overwritten, that the back-pointer
    chain is an admissible segmentation, and the bookkeeping of the pruning queue
    ([QInv_step]).  No law of [N] is used, except in [gargmin_min] (a strict order). *)
From Coq Require Import List Lia Bool Arith.
From SK Require Import Lib.Base Proofs.ListFacts Model.Pelt Model.Generic Proofs.PeltSpec Proofs.PeltLemmas
  Proofs.ArgmaxLemmas.
Import ListNotations.
Open Scope nat_scope.

(** the index shift between [scores = opt_cost[1:]] and [opt_cost] *)
Lemma nth_pred_tl {A} (l : list A) t d : 1 <= t -> nth (t - 1) (tl l) d = nth t l d.
Proof. intros Ht. rewrite nth_tl. f_equal. lia. Qed.

Lemma fold_left_ext {A B} (f g : A -> B -> A) (l : list B) :
  (forall a b, f a b = g a b) -> forall a, fold_left f l a = fold_left g l a.
Proof. intros H. induction l as [|x l IH]; intros a; cbn; [reflexivity|]. rewrite H. apply IH. Qed.

Lemma fold_left_seq_S {A} (f : A -> nat -> A) a k x :
  fold_left f (seq a (S k)) x = f (fold_left f (seq a k) x) (a + k).
Proof. rewrite seq_S, fold_left_app. reflexivity. Qed.

(** the starts evaluated for the end [S T]: the current ones and the newly admissible [T + 1 - m] *)
Lemma starts1_ok m T (sts : list nat) : 2 * m - 1 <= T -> (forall a, In a sts -> last_start m T a) ->
  forall a, In a (sts ++ [T - (m - 1)]) -> last_start m (S T) a.
Proof.
  intros HT Hs a Ha. apply in_app_or in Ha as [Ha|[<-|[]]].
  - now apply last_start_mono, Hs.
  - right. lia.
Qed.

(** * The scan [gargmin]: the first maximum for the converse order (Proofs/ArgmaxLemmas.v) *)
Section Argmin.
Variable N : num.

Theorem gargmin_index_in_range : forall (l : list (T N)) (d : T N) (i : nat) (b : T N),
  gargmin N l = Some (i, b) -> i < length l /\ b = nth i l d.
Proof. intros l d. exact (gargmax_nth (converse N) d l). Qed.

Lemma gargmin_some (l : list (T N)) : l <> [] -> exists i b, gargmin N l = Some (i, b).
Proof.
  destruct l as [|x t]; [congruence|]. intros _. unfold gargmin.
  destruct (gargmin_from N 0 x 1 t) as [i b]. exists i, b. reflexivity.
Qed.

Hypothesis ltb_irrefl : forall x, ltb N x x = false.
Hypothesis ltb_trans : forall x y z, ltb N x y = true -> ltb N y z = true -> ltb N x z = true.

Lemma gargmin_min l i b : gargmin N l = Some (i, b) -> forall y, In y l -> ltb N y b = false.
Proof.
  exact (gargmax_ub (converse N) (fun _ => True) (fun x _ => ltb_irrefl x)
           (fun x y z _ _ _ A B => ltb_trans z y x B A) l i b (proj2 (Forall_forall _ l) (fun _ _ => I))).
Qed.
End Argmin.

(** * The loop *)

(** [pending_prunes]: once more than [delay] lists wait, the oldest one is applied *)
Definition pop (delay : nat) (pend : list (list nat)) : list nat * list (list nat) :=
  if delay <? length pend then (hd [] pend, tl pend) else ([], pend).

Section Loop.
Variable N : num.
Variable V : nat -> nat -> T N -> T N.
Variable W : nat -> T N -> T N.
Variable m delay : nat.

Definition kstarts1 (s : gst N) (t : nat) : list nat := gstarts N s ++ [t - (m - 1)].
Definition kcandv (s : gst N) (t a : nat) : T N := V a (S t) (nthV N (gopt N s) a).
Definition kcands (s : gst N) (t : nat) : list (T N) := map (kcandv s t) (kstarts1 s t).
Definition kdrop (s : gst N) (t : nat) (b : T N) : list nat :=
  map fst (filter (fun ac => negb (leb N (snd ac) (W (S t) b)))
                  (combine (kstarts1 s t) (kcands s t))).

Definition kstep (s : gst N) (t : nat) : gst N :=
  match gargmin N (kcands s t) with
  | None => s
  | Some (i, b) =>
    let '(now, pend') := pop delay (gpending N s ++ [kdrop s t b]) in
    {| gopt := gopt N s ++ [b];
       gprev := gprev N s ++ [nthN (kstarts1 s t) i];
       gstarts := removeall now (kstarts1 s t);
       gpending := pend' |}
  end.

Variable x0 : T N.
Variable I0 : nat -> T N.

Definition kinit : gst N :=
  {| gopt := repeat x0 m ++ map I0 (seq m m);
     gprev := repeat 0 (2 * m - 1);
     gstarts := [0];
     gpending := [] |}.

Definition krun (n : nat) : gst N := fold_left kstep (seq (2 * m - 1) (n - (2 * m - 1))) kinit.

Definition kpelt (n : nat) : list (T N) * list nat :=
  (tl (gopt N (krun n)), changepoints (gprev N (krun n)) n).

Lemma krun_init : krun (2 * m - 1) = kinit.
Proof. unfold krun. rewrite Nat.sub_diag. reflexivity. Qed.

Lemma krun_S T : 2 * m - 1 <= T -> krun (S T) = kstep (krun T) T.
Proof.
  intros HT. unfold krun. replace (S T - (2 * m - 1)) with (S (T - (2 * m - 1))) by lia.
  rewrite fold_left_seq_S. f_equal. lia.
Qed.

(** the step never takes the [None] branch; the selected start is one of the evaluated
    starts and the selected value is its candidate value *)
Lemma kstep_cases s t : exists i b,
  gargmin N (kcands s t) = Some (i, b) /\
  In (nthN (kstarts1 s t) i) (kstarts1 s t) /\
  b = kcandv s t (nthN (kstarts1 s t) i) /\
  kstep s t = {| gopt := gopt N s ++ [b];
                 gprev := gprev N s ++ [nthN (kstarts1 s t) i];
                 gstarts := removeall (fst (pop delay (gpending N s ++ [kdrop s t b]))) (kstarts1 s t);
                 gpending := snd (pop delay (gpending N s ++ [kdrop s t b])) |}.
Proof.
  assert (Hne : kcands s t <> []).
  { unfold kcands, kstarts1. intros E. apply map_eq_nil in E. destruct (gstarts N s); discriminate. }
  destruct (gargmin_some N (kcands s t) Hne) as (i & b & Harg).
  destruct (gargmin_index_in_range N (kcands s t) (kcandv s t 0) i b Harg) as [Hi Hnth].
  unfold kcands in Hi. rewrite map_length in Hi.
  exists i, b. split; [exact Harg|]. split; [now apply nth_In|]. split.
  - rewrite Hnth. apply map_nth.
  - unfold kstep. rewrite Harg. destruct (pop delay _). reflexivity.
Qed.

Lemma in_kdrop s t b a :
  In a (kdrop s t b) -> In a (kstarts1 s t) /\ leb N (kcandv s t a) (W (S t) b) = false.
Proof.
  unfold kdrop. intros Ha. apply in_map_iff in Ha as ([a' c] & Ea & Hin). cbn [fst] in Ea. subst a'.
  apply filter_In in Hin as [Hin Hc]. cbn [snd] in Hc.
  apply in_combine_map in Hin as [Hin Ec]. subst c.
  split; [exact Hin|now apply negb_true_iff].
Qed.

(** ** The state at time [T]: [gopt] holds the entries for the ends [0 .. T], [gprev] the
       back-pointers of the ends [1 .. T].  The last three fields record HOW each stored value
       was computed. *)
Record KInv (T : nat) (s : gst N) : Prop := {
  ki_len_opt : length (gopt N s) = S T;
  ki_len_prev : length (gprev N s) = T;
  ki_starts : forall a, In a (gstarts N s) -> last_start m T a;
  ki_pend_len : length (gpending N s) <= delay;
  ki_pend : forall D a, In D (gpending N s) -> In a D -> last_start m T a;
  ki_bp : forall e, m <= e <= T -> last_start m e (nthN (gprev N s) (e - 1));
  ki_small : forall e, e < m -> nthV N (gopt N s) e = x0;
  ki_lo : forall e, m <= e < 2 * m -> e <= T ->
      nthN (gprev N s) (e - 1) = 0 /\ nthV N (gopt N s) e = I0 e;
  ki_hi : forall e, 2 * m <= e <= T ->
      nthV N (gopt N s) e
      = V (nthN (gprev N s) (e - 1)) e (nthV N (gopt N s) (nthN (gprev N s) (e - 1))) }.

Lemma kinit_opt_small e : e < m -> nthV N (gopt N kinit) e = x0.
Proof.
  intros H. unfold nthV, kinit. cbn [gopt].
  rewrite app_nth1 by (rewrite repeat_length; lia). now apply nth_repeat_lt.
Qed.

Lemma kinit_opt_mid e : m <= e < 2 * m -> nthV N (gopt N kinit) e = I0 e.
Proof.
  intros H. unfold nthV, kinit. cbn [gopt].
  rewrite app_nth2 by (rewrite repeat_length; lia). rewrite repeat_length.
  rewrite (nth_indep _ (zero N) (I0 0)) by (rewrite map_length, seq_length; lia).
  rewrite (map_nth I0), seq_nth by lia. f_equal. lia.
Qed.

Hypothesis m_pos : 1 <= m.

Lemma kinit_len_opt : length (gopt N kinit) = S (2 * m - 1).
Proof. unfold kinit. cbn [gopt]. rewrite app_length, repeat_length, map_length, seq_length. lia. Qed.

Lemma kinit_KInv : KInv (2 * m - 1) kinit.
Proof.
  assert (Hp : forall e, m <= e <= 2 * m - 1 -> nthN (gprev N kinit) (e - 1) = 0).
  { intros e He. unfold nthN, kinit. cbn [gprev]. apply nth_repeat_lt. lia. }
  constructor.
  - apply kinit_len_opt.
  - apply repeat_length.
  - intros a [<-|[]]. now left.
  - cbn. lia.
  - intros D a [].
  - intros e He. rewrite Hp by lia. now left.
  - apply kinit_opt_small.
  - intros e He HeT. split; [apply Hp; lia|now apply kinit_opt_mid].
  - intros e He. lia.
Qed.

Lemma kstep_KInv T s : 2 * m - 1 <= T -> KInv T s -> KInv (S T) (kstep s T).
Proof.
  intros HT [Hlo Hlp Hst Hpl Hpe Hbp Hsm Hvlo Hvhi].
  destruct (kstep_cases s T) as (i & b & _ & Ha0 & Hb & Hstep).
  pose proof (starts1_ok m T _ HT Hst) as Hok1. fold (kstarts1 s T) in Hok1.
  set (a0 := nthN (kstarts1 s T) i) in *.
  assert (Ha0T : a0 < S T) by (apply (last_start_lt m); [exact m_pos|lia|now apply Hok1]).
  assert (Hpold : forall e, 1 <= e <= T -> nthN (gprev N s ++ [a0]) (e - 1) = nthN (gprev N s) (e - 1)).
  { intros e He. apply app_nth1. lia. }
  assert (Hpnew : nthN (gprev N s ++ [a0]) T = a0).
  { unfold nthN. rewrite <- Hlp. apply nth_middle. }
  assert (Hoold : forall e, e <= T -> nthV N (gopt N s ++ [b]) e = nthV N (gopt N s) e).
  { intros e He. apply app_nth1. lia. }
  assert (Honew : nthV N (gopt N s ++ [b]) (S T) = b).
  { unfold nthV. rewrite <- Hlo. apply nth_middle. }
  assert (Hpend1 : forall D a, In D (gpending N s ++ [kdrop s T b]) -> In a D -> last_start m (S T) a).
  { intros D a HD Ha. apply in_app_or in HD as [HD|[<-|[]]].
    - apply last_start_mono. exact (Hpe D a HD Ha).
    - apply Hok1. now apply in_kdrop in Ha. }
  rewrite Hstep. unfold pop. rewrite app_length. cbn [length].
  constructor; cbn [gopt gprev gstarts gpending].
  - rewrite app_length, Hlo. cbn [length]. lia.
  - rewrite app_length, Hlp. cbn [length]. lia.
  - intros a Ha. apply in_removeall in Ha as [Ha _]. now apply Hok1.
  - destruct (delay <? _) eqn:Hc; cbn [snd].
    + apply Nat.ltb_lt in Hc. rewrite length_tl, app_length. cbn [length]. lia.
    + apply Nat.ltb_ge in Hc. rewrite app_length. cbn [length]. lia.
  - intros D a HD. apply Hpend1. destruct (delay <? _); cbn [snd] in HD; [|exact HD].
    destruct (gpending N s ++ _); [destruct HD|now right].
  - intros e He. destruct (Nat.eq_dec e (S T)) as [->|Hne].
    + replace (S T - 1) with T by lia. rewrite Hpnew. now apply Hok1.
    + rewrite Hpold by lia. apply Hbp. lia.
  - intros e He. rewrite Hoold by lia. now apply Hsm.
  - intros e He HeT. rewrite Hpold, Hoold by lia. apply Hvlo; lia.
  - intros e He. destruct (Nat.eq_dec e (S T)) as [->|Hne].
    + replace (S T - 1) with T by lia. rewrite Hpnew, Honew, Hoold by lia. exact Hb.
    + assert (Hlt : nthN (gprev N s) (e - 1) < e).
      { apply (last_start_lt m); [exact m_pos|lia|apply Hbp; lia]. }
      rewrite Hpold by lia. rewrite !Hoold by lia. apply Hvhi. lia.
Qed.

Lemma krun_KInv n : 2 * m - 1 <= n -> KInv n (krun n).
Proof.
  intros Hn. unfold krun. replace n with (2 * m - 1 + (n - (2 * m - 1))) at 1 by lia.
  apply (fold_left_seq_inv KInv kstep).
  - intros T s HT HS. now apply kstep_KInv.
  - apply kinit_KInv.
Qed.

(** stored values are never overwritten *)
Lemma krun_opt_prefix n T : 2 * m - 1 <= T -> T <= n ->
  forall e, e <= T -> nthV N (gopt N (krun n)) e = nthV N (gopt N (krun T)) e.
Proof.
  intros HT HTn. induction HTn as [|n' Hle IH]; intros e He; [reflexivity|].
  rewrite krun_S by lia.
  destruct (kstep_cases (krun n') n') as (i & b & _ & _ & _ & Hstep).
  rewrite Hstep. cbn [gopt].
  pose proof (ki_len_opt n' _ (krun_KInv n' ltac:(lia))) as Hlo.
  unfold nthV at 1. rewrite app_nth1 by lia. now apply IH.
Qed.

Lemma kpelt_scores_nth n t : 1 <= t ->
  nth (t - 1) (fst (kpelt n)) (zero N) = nthV N (gopt N (krun n)) t.
Proof. apply nth_pred_tl. Qed.

Lemma kpelt_scores_length n : 2 * m <= n -> length (fst (kpelt n)) = n.
Proof.
  intros Hn. unfold kpelt. cbn [fst].
  rewrite length_tl, (ki_len_opt n _ (krun_KInv n ltac:(lia))). lia.
Qed.
End Loop.

Arguments ki_len_opt {N V m delay x0 I0 T s}.
Arguments ki_len_prev {N V m delay x0 I0 T s}.
Arguments ki_starts {N V m delay x0 I0 T s}.
Arguments ki_pend_len {N V m delay x0 I0 T s}.
Arguments ki_pend {N V m delay x0 I0 T s}.
Arguments ki_bp {N V m delay x0 I0 T s}.
Arguments ki_small {N V m delay x0 I0 T s}.
Arguments ki_lo {N V m delay x0 I0 T s}.
Arguments ki_hi {N V m delay x0 I0 T s}.

Lemma gstep_kstep N C pen m delay s t :
  gstep N C pen m delay s t
  = kstep N (fun a T g => add N (add N g (C a T)) pen) (fun _ b => add N b pen) m delay s t.
Proof.
  unfold gstep, kstep, kcands, kcandv, kdrop, kstarts1, pop. cbv zeta.
  destruct (gargmin N _) as [[i b]|]; [|reflexivity].
  destruct (delay <? _); reflexivity.
Qed.

Lemma grun_krun N C pen m delay n :
  grun N C pen m delay n
  = krun N (fun a T g => add N (add N g (C a T)) pen) (fun _ b => add N b pen) m delay
         (neg N pen) (C 0) n.
Proof. apply fold_left_ext. apply gstep_kstep. Qed.

Lemma gpelt_kpelt N C pen m delay n :
  gpelt N C pen m delay n
  = kpelt N (fun a T g => add N (add N g (C a T)) pen) (fun _ b => add N b pen) m delay
          (neg N pen) (C 0) n.
Proof. unfold gpelt, kpelt. now rewrite grun_krun. Qed.

(** * Change of number type.  [f] sends the values of one run to those of another; the two runs
      stay in step as long as the candidates correspond and [f] preserves the comparisons AT
      THE VALUES THE STEP LOOKS AT (from Z into R: always; from binary64 into R: as long as
      they are finite). *)
Section Map.
Variables N1 N2 : num.
Variable f : T N1 -> T N2.

Definition gliftp (p : nat * T N1) : nat * T N2 := (fst p, f (snd p)).

Lemma gargmin_from_map l : forall bi b i,
  (forall x y, In x (b :: l) -> In y (b :: l) -> ltb N2 (f x) (f y) = ltb N1 x y) ->
  gargmin_from N2 bi (f b) i (map f l) = gliftp (gargmin_from N1 bi b i l).
Proof.
  induction l as [|x t IH]; intros bi b i H; cbn [map gargmin_from]; [reflexivity|].
  rewrite (H x b) by (cbn [In]; auto).
  destruct (ltb N1 x b); apply IH; intros y z Hy Hz; apply H; cbn [In] in *; tauto.
Qed.

Lemma gargmin_map l :
  (forall x y, In x l -> In y l -> ltb N2 (f x) (f y) = ltb N1 x y) ->
  gargmin N2 (map f l) = option_map gliftp (gargmin N1 l).
Proof.
  destruct l as [|x t]; intros H; cbn [map gargmin option_map]; [reflexivity|].
  now rewrite gargmin_from_map.
Qed.

Lemma drop_map (l1 : list nat) (z1 : T N1) (z2 : T N2) : forall cz : list (T N1),
  (forall x, In x cz -> leb N2 (f x) z2 = leb N1 x z1) ->
  map fst (filter (fun ac => negb (leb N2 (snd ac) z2)) (combine l1 (map f cz)))
  = map fst (filter (fun ac => negb (leb N1 (snd ac) z1)) (combine l1 cz)).
Proof.
  induction l1 as [|a l1 IH]; intros cz H; [reflexivity|].
  destruct cz as [|c cz]; [reflexivity|].
  cbn [map combine filter snd]. rewrite (H c) by now left.
  destruct (leb N1 c z1); cbn [negb map fst]; rewrite IH; auto; intros; apply H; now right.
Qed.

Definition gmap (s : gst N1) : gst N2 :=
  Build_gst N2 (map f (gopt N1 s)) (gprev N1 s) (gstarts N1 s) (gpending N1 s).

Variable V1 : nat -> nat -> T N1 -> T N1.
Variable W1 : nat -> T N1 -> T N1.
Variable V2 : nat -> nat -> T N2 -> T N2.
Variable W2 : nat -> T N2 -> T N2.
Variable m delay : nat.

Lemma kstep_map s t :
  kcands N2 V2 m (gmap s) t = map f (kcands N1 V1 m s t) ->
  (forall x y, In x (kcands N1 V1 m s t) -> In y (kcands N1 V1 m s t) ->
     ltb N2 (f x) (f y) = ltb N1 x y) ->
  (forall i b, gargmin N1 (kcands N1 V1 m s t) = Some (i, b) ->
     forall x, In x (kcands N1 V1 m s t) ->
       leb N2 (f x) (W2 (S t) (f b)) = leb N1 x (W1 (S t) b)) ->
  kstep N2 V2 W2 m delay (gmap s) t = gmap (kstep N1 V1 W1 m delay s t).
Proof.
  intros Hc Hlt Hle. unfold kstep. rewrite Hc, (gargmin_map _ Hlt).
  destruct (gargmin N1 (kcands N1 V1 m s t)) as [[i b]|];
    cbn [option_map gliftp fst snd]; [|reflexivity].
  assert (Hd : kdrop N2 V2 W2 m (gmap s) t (f b) = kdrop N1 V1 W1 m s t b).
  { unfold kdrop. rewrite Hc. apply drop_map. exact (Hle i b eq_refl). }
  rewrite Hd. change (gpending N2 (gmap s)) with (gpending N1 s).
  destruct (pop delay _) as [now pend']. unfold gmap. cbn [gopt gprev gstarts gpending].
  now rewrite map_app.
Qed.

Variable x1 : T N1.
Variable I1 : nat -> T N1.

Lemma kinit_map : kinit N2 m (f x1) (fun e => f (I1 e)) = gmap (kinit N1 m x1 I1).
Proof.
  unfold kinit, gmap. cbn [gopt gprev gstarts gpending]. now rewrite map_app, map_repeat, map_map.
Qed.

Lemma krun_map n :
  (forall t, 2 * m - 1 <= t < n ->
     kstep N2 V2 W2 m delay (gmap (krun N1 V1 W1 m delay x1 I1 t)) t
     = gmap (kstep N1 V1 W1 m delay (krun N1 V1 W1 m delay x1 I1 t) t)) ->
  forall t, t <= n ->
    krun N2 V2 W2 m delay (f x1) (fun e => f (I1 e)) t = gmap (krun N1 V1 W1 m delay x1 I1 t).
Proof.
  intros Hstep t. destruct (le_lt_dec (2 * m - 1) t) as [Ht|Ht].
  - induction Ht as [|t Ht IH]; intros Htn.
    + rewrite !krun_init. apply kinit_map.
    + rewrite !krun_S, IH by (exact Ht || lia). apply Hstep. lia.
  - intros _. unfold krun. replace (t - (2 * m - 1)) with 0 by lia. apply kinit_map.
Qed.
End Map.

(** * Back-pointer chains.  When every back-pointer is an admissible last start, following
      them yields an admissible segmentation; a property [P cp e] of the chain [cp] found from
      the end [e] (its cost, say) is established link by link. *)
Section Chain.
Variable m : nat.
Variable pv : list nat.
Variable n : nat.
Variable P : list nat -> nat -> Prop.
Hypothesis m_pos : 1 <= m.
Hypothesis bp_ok : forall e, m <= e <= n -> last_start m e (nthN pv (e - 1)).
Hypothesis P_nil : forall e, m <= e <= n -> nthN pv (e - 1) = 0 -> P [] e.
Hypothesis P_snoc : forall e cp, m <= e <= n -> m <= nthN pv (e - 1) -> nthN pv (e - 1) + m <= e ->
  P cp (nthN pv (e - 1)) -> P (cp ++ [nthN pv (e - 1)]) e.

Lemma backtrack_chain : forall fuel e acc, m <= e <= n -> e <= fuel ->
  exists cp, backtrack fuel pv e acc = 0 :: cp ++ acc /\ Adm m cp e /\ P cp e.
Proof.
  induction fuel as [|f IH]; intros e acc He Hf; [lia|].
  destruct e as [|i]; [lia|]. cbn [backtrack].
  pose proof (bp_ok (S i) He) as Hfull. pose proof (P_nil (S i) He) as Hn.
  pose proof (P_snoc (S i)) as Hs. replace (S i - 1) with i in * by lia.
  set (c := nthN pv i) in *.
  destruct Hfull as [Hc|[Hc1 Hc2]].
  - exists []. rewrite Hc. split; [destruct f; reflexivity|]. split; [cbn; lia|now apply Hn].
  - destruct (IH c (c :: acc) ltac:(lia) ltac:(lia)) as (cp & Hbt & Hadm & HP).
    exists (cp ++ [c]). split; [|split].
    + rewrite Hbt, <- app_assoc. reflexivity.
    + apply admseg_snoc. split; [exact Hadm|lia].
    + apply Hs; auto.
Qed.

Lemma changepoints_chain T : m <= T <= n -> Adm m (changepoints pv T) T /\ P (changepoints pv T) T.
Proof.
  intros HT. destruct (backtrack_chain T T [] HT (le_n T)) as (cp & Hbt & H).
  unfold changepoints. rewrite Hbt. cbn [tl]. now rewrite app_nil_r.
Qed.
End Chain.

Lemma kpelt_adm N V W m delay x0 I0 n : 1 <= m -> 2 * m <= n ->
  Adm m (snd (kpelt N V W m delay x0 I0 n)) n.
Proof.
  intros Hm Hn.
  apply (changepoints_chain m _ n (fun _ _ => True)); auto; [|lia].
  apply (ki_bp (krun_KInv N V W m delay x0 I0 Hm n ltac:(lia))).
Qed.

(** * The pruning queue.  [adm T a] says that the start [a] is admissible for the end [T], and
      [cond a tau] stands for "the start [a] was found too expensive at the end [tau]" in
      whatever sense the caller needs; [QInv] says that every admissible start missing from
      the start list was condemned at least [m] ends ago, and that the [i]-th waiting list
      holds starts condemned at the end at which it was queued.  One iteration preserves this
      whatever the numbers are and however the next start list [sts'] is formed from the
      evaluated one [sts1], provided the list it queues holds starts condemned at the new end,
      [sts1] lacks only condemned starts, and [sts'] loses only the starts applied now or no
      longer admissible. *)
Section Queue.
Variables m delay : nat.
Variables adm cond : nat -> nat -> Prop.

Record QInv (T : nat) (sts : list nat) (pd : list (list nat)) : Prop := {
  q_missing : forall a, adm T a -> ~ In a sts ->
      exists tau, tau + m <= T + 1 /\ cond a tau;
  q_len : length pd <= delay;
  q_pend : forall i D, nth_error pd i = Some D ->
      forall a, In a D -> cond a (T + 1 + i - length pd) }.

Lemma QInv_nil T sts : (forall a, adm T a -> In a sts) -> QInv T sts [].
Proof.
  intros H. constructor.
  - intros a Ha Hn. now contradiction Hn; apply H.
  - cbn. lia.
  - intros [|i] D Hi; discriminate.
Qed.

Lemma QInv_step T sts sts1 sts' pd D now pd' :
  m <= delay + 1 -> (forall a, adm (S T) a -> m <= T + 2) ->
  QInv T sts pd ->
  (forall a, adm (S T) a -> ~ In a sts1 -> exists tau, tau + m <= T + 1 /\ cond a tau) ->
  (forall a, In a D -> cond a (S T)) ->
  pop delay (pd ++ [D]) = (now, pd') ->
  (forall a, adm (S T) a -> In a sts1 -> ~ In a now -> In a sts') ->
  QInv (S T) sts' pd'.
Proof.
  intros Hd Hm [_ Hlen Hpend] Hmiss HD Epop Hkeep.
  assert (Hpend1 : forall j D', nth_error (pd ++ [D]) j = Some D' ->
            forall a, In a D' -> cond a (S T + 1 + j - length (pd ++ [D]))).
  { intros j D' Hj a Ha. rewrite app_length. cbn [length].
    destruct (lt_dec j (length pd)) as [Hlt|Hge].
    - rewrite nth_error_app1 in Hj by auto.
      replace (S T + 1 + j - (length pd + 1)) with (T + 1 + j - length pd) by lia.
      exact (Hpend j D' Hj a Ha).
    - rewrite nth_error_app2 in Hj by lia.
      destruct (j - length pd) as [|j'] eqn:Ej; cbn in Hj; [|destruct j'; discriminate].
      injection Hj as <-. replace (S T + 1 + j - (length pd + 1)) with (S T) by lia.
      now apply HD. }
  unfold pop in Epop. destruct (delay <? length (pd ++ [D])) eqn:Hc; injection Epop as <- <-.
  - (* the oldest list is applied: it was queued at the end [S T - delay] *)
    apply Nat.ltb_lt in Hc. rewrite app_length in Hc. cbn [length] in Hc.
    destruct (pd ++ [D]) as [|D0 ptl] eqn:Ep; [destruct pd; discriminate|]. cbn [hd tl].
    assert (Hl : length (D0 :: ptl) = delay + 1).
    { rewrite <- Ep, app_length. cbn [length]. lia. }
    constructor.
    + intros a Hf Hn. destruct (in_dec Nat.eq_dec a sts1) as [Hin|Hnin].
      * exists (S T - delay). split; [specialize (Hm a Hf); lia|].
        replace (S T - delay) with (S T + 1 + 0 - length (D0 :: ptl)) by lia.
        apply (Hpend1 0 D0 eq_refl).
        destruct (in_dec Nat.eq_dec a D0) as [Hi0|Hni0]; [exact Hi0|].
        now contradiction Hn; apply Hkeep.
      * destruct (Hmiss a Hf Hnin) as (tau & Htau & Hcd). exists tau. split; [lia|auto].
    + cbn [length] in Hl. lia.
    + intros j D' Hj a Ha.
      replace (S T + 1 + j - length ptl) with (S T + 1 + S j - length (D0 :: ptl))
        by (cbn [length]; lia).
      exact (Hpend1 (S j) D' Hj a Ha).
  - apply Nat.ltb_ge in Hc. constructor; [|exact Hc|exact Hpend1].
    intros a Hf Hn.
    destruct (Hmiss a Hf) as (tau & Htau & Hcd).
    + intros Hin. apply Hn, Hkeep; [exact Hf|exact Hin|intros []].
    + exists tau. split; [lia|auto].
Qed.
End Queue.

(** PELT: every [last_start] is admissible, the evaluated list is the old one with the newest
    start, and only the starts applied now are removed from it *)
Section PeltQueue.
Variables m delay : nat.
Hypothesis m_pos : 1 <= m.
Variable cond : nat -> nat -> Prop.

Lemma QInv_init : QInv m delay (last_start m) cond (2 * m - 1) [0] [].
Proof. apply QInv_nil. intros a Ha. left. unfold last_start in Ha. lia. Qed.

(** an admissible start of [S T] that is not among the evaluated starts was missing before *)
Lemma q_missing1 T sts pd : 2 * m - 1 <= T -> QInv m delay (last_start m) cond T sts pd ->
  forall a, last_start m (S T) a -> ~ In a (sts ++ [T - (m - 1)]) ->
    exists tau, tau + m <= T + 1 /\ cond a tau.
Proof.
  intros HT HQ a Hf Hn. apply (q_missing _ _ _ _ _ _ _ HQ).
  - assert (a <> T - (m - 1)) by (intros ->; apply Hn, in_or_app; right; now left).
    unfold last_start in *. lia.
  - intros Hin. apply Hn, in_or_app. now left.
Qed.

Lemma pqueue_step T sts pd D :
  m <= delay + 1 -> 2 * m - 1 <= T ->
  QInv m delay (last_start m) cond T sts pd ->
  (forall a, In a D -> cond a (S T)) ->
  QInv m delay (last_start m) cond (S T)
       (removeall (fst (pop delay (pd ++ [D]))) (sts ++ [T - (m - 1)]))
       (snd (pop delay (pd ++ [D]))).
Proof.
  intros Hd HT HQ HD.
  eapply QInv_step with (sts1 := sts ++ [T - (m - 1)]);
    [exact Hd| |exact HQ|exact (q_missing1 T sts pd HT HQ)|exact HD|apply surjective_pairing|].
  - intros a _. lia.
  - intros a _ Hin Hn. apply in_removeall. auto.
Qed.
End PeltQueue.
