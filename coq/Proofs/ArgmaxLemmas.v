(** General facts reused by the detector proofs:
    - the first maximum (argmax) of a list for an arbitrary strict weak order, with the first minimum
      as its mirror image and the Z functions of Lib/Base.v as instances,
    - [maxl] / [minl] of Lib/Base.v,
    - a generic insertion sort (sort_nat and sort_pairs are instances),
    - Sorted / ForallOrdPairs helpers. *)
From Coq Require Import ZArith List Lia Permutation Sorted.
From SK Require Export Proofs.ListFacts.
From SK Require Import Lib.Base Model.Generic Proofs.GenericRank Proofs.GenericZ.
Import ListNotations.
Open Scope Z_scope.

Section FirstMax.
Local Open Scope nat_scope.
Variable N : num.
Notation V := (T N).
Notation "x <! y" := (ltb N x y) (at level 70).

Lemma gargmax_from_shape : forall (d : V) l bi b i,
  gargmax_from N bi b i l = (bi, b) \/
  exists j, j < length l /\ gargmax_from N bi b i l = (i + j, nth j l d).
Proof.
  intros d. induction l as [|x t IH]; intros bi b i; cbn [gargmax_from]; [left; reflexivity|].
  destruct (b <! x).
  - right. destruct (IH i x (S i)) as [E | (j & Hj & E)].
    + exists 0. cbn [length nth]. split; [lia|]. rewrite E. f_equal. lia.
    + exists (S j). cbn [length nth]. split; [lia|]. rewrite E. f_equal. lia.
  - destruct (IH bi b (S i)) as [E | (j & Hj & E)]; [left; exact E|].
    right. exists (S j). cbn [length nth]. split; [lia|]. rewrite E. f_equal. lia.
Qed.

(** the value reported by an argmax is the element at the reported position: no law is needed *)
Lemma gargmax_nth : forall (d : V) l j v, gargmax N l = Some (j, v) -> j < length l /\ v = nth j l d.
Proof.
  intros d [|x t] j v H; cbn [gargmax] in H; [discriminate|].
  inversion H as [H0]. clear H.
  destruct (gargmax_from_shape d t 0 x 1) as [E | (j' & Hj' & E)]; rewrite E in H0; inversion H0; subst.
  - cbn [length nth]. split; [lia | reflexivity].
  - cbn [length]. split; [lia|]. reflexivity.
Qed.

Lemma gargmax_none : forall l, gargmax N l = None <-> l = [].
Proof. intros [|x t]; cbn [gargmax]; split; intro H; try reflexivity; discriminate. Qed.

(** two positions with the first-maximum property among those satisfying [P] coincide (no law needed) *)
Lemma first_max_unique_on : forall (f : nat -> V) (P : nat -> Prop) i c, P i -> P c ->
  (forall j, P j -> f i <! f j = false) -> (forall j, P j -> j < i -> f j <! f i = true) ->
  (forall j, P j -> f c <! f j = false) -> (forall j, P j -> j < c -> f j <! f c = true) -> c = i.
Proof.
  intros f P i c Hi Hc Bi Ci Bc Cc.
  destruct (Nat.lt_trichotomy c i) as [L | [E | L]]; [|exact E|]; exfalso.
  - specialize (Ci c Hc L). specialize (Bc i Hi). congruence.
  - specialize (Cc i Hi L). specialize (Bi c Hc). congruence.
Qed.

Lemma first_max_unique : forall (d : V) (l : list V) i c,
  i < length l -> c < length l ->
  (forall j, j < length l -> nth i l d <! nth j l d = false) ->
  (forall j, j < i -> nth j l d <! nth i l d = true) ->
  (forall j, j < length l -> nth c l d <! nth j l d = false) ->
  (forall j, j < c -> nth j l d <! nth c l d = true) -> c = i.
Proof.
  intros d l i c Hi Hc Bi Ci Bc Cc.
  exact (first_max_unique_on (fun j => nth j l d) (fun j => j < length l) i c Hi Hc
           Bi (fun j _ => Ci j) Bc (fun j _ => Cc j)).
Qed.

Variable ok : V -> Prop.

(** the reported value is an upper bound: for this [ltb] need only be a strict partial order on [ok] *)
Section UpperBound.
Hypothesis Hirr : forall x, ok x -> x <! x = false.
Hypothesis Htr : forall x y z, ok x -> ok y -> ok z -> x <! y = true -> y <! z = true -> x <! z = true.

Lemma not_below : forall b r, ok b -> ok r -> r = b \/ b <! r = true -> r <! b = false.
Proof.
  intros b r Hb Hr [-> | H]; [exact (Hirr b Hb)|].
  destruct (r <! b) eqn:E; [|reflexivity].
  rewrite <- (Hirr b Hb). symmetry. exact (Htr b r b Hb Hr Hb H E).
Qed.

Lemma gargmax_from_ub : forall l bi b i, ok b -> Forall ok l ->
  ok (snd (gargmax_from N bi b i l)) /\
  (snd (gargmax_from N bi b i l) = b \/ b <! snd (gargmax_from N bi b i l) = true) /\
  forall y, In y l -> snd (gargmax_from N bi b i l) <! y = false.
Proof.
  induction l as [|x t IH]; intros bi b i Hb Hl; cbn [gargmax_from].
  - split; [exact Hb|]. split; [left; reflexivity | intros y []].
  - inversion Hl as [|x' t' Hx Ht]; subst x' t'.
    destruct (b <! x) eqn:E.
    + destruct (IH i x (S i) Hx Ht) as (Hr & Hxr & Hall). split; [exact Hr|]. split.
      * right. destruct Hxr as [-> | Hxr]; [exact E | exact (Htr b x _ Hb Hx Hr E Hxr)].
      * intros y [<- | Hy]; [exact (not_below x _ Hx Hr Hxr) | exact (Hall y Hy)].
    + destruct (IH bi b (S i) Hb Ht) as (Hr & Hbr & Hall). split; [exact Hr|]. split; [exact Hbr|].
      intros y [<- | Hy]; [|exact (Hall y Hy)].
      destruct Hbr as [-> | Hbr]; [exact E|].
      apply Bool.not_true_is_false. intros E'.
      rewrite (Htr b _ x Hb Hr Hx Hbr E') in E. discriminate.
Qed.

Lemma gargmax_ub : forall l i v, Forall ok l -> gargmax N l = Some (i, v) ->
  forall y, In y l -> v <! y = false.
Proof.
  intros [|x t] i v Hl H; cbn [gargmax] in H; [discriminate|].
  inversion Hl as [|x' t' Hx Ht]; subst x' t'.
  destruct (gargmax_from_ub t 0 x 1 Hx Ht) as (Hr & Hxr & Hall).
  inversion H as [H0]. rewrite H0 in Hr, Hxr, Hall. cbn [snd] in Hr, Hxr, Hall.
  intros y [<- | Hy]; [exact (not_below x v Hx Hr Hxr) | exact (Hall y Hy)].
Qed.
End UpperBound.

Hypothesis Hswo : swo N ok.

Lemma gargmax_from_first : forall (d : V) l bi b i ri rv,
  ok b -> Forall ok l -> gargmax_from N bi b i l = (ri, rv) ->
  ok rv /\
  ((ri = bi /\ rv = b) \/
   exists j, ri = i + j /\ j < length l /\ rv = nth j l d /\ b <! rv = true /\
             forall j', j' < j -> nth j' l d <! rv = true).
Proof.
  intros d. induction l as [|x t IH]; intros bi b i ri rv Hb Hl H; cbn [gargmax_from] in H.
  - inversion H; subst ri rv. split; [exact Hb|]. left. split; reflexivity.
  - inversion Hl as [|x' t' Hx Ht]; subst x' t'.
    destruct (b <! x) eqn:E.
    + destruct (IH i x (S i) ri rv Hx Ht H) as (Hrv & Hcase). split; [exact Hrv|].
      right. destruct Hcase as [[-> ->] | (j & -> & Hj & Hn & Hxrv & Hfirst)].
      * exists 0. cbn [length nth]. split; [lia|]. split; [lia|]. split; [reflexivity|].
        split; [exact E|]. intros j' Hj'. lia.
      * exists (S j). cbn [length nth]. split; [lia|]. split; [lia|]. split; [exact Hn|].
        split; [exact (swo_trans N ok Hswo b x rv Hb Hx Hrv E Hxrv)|].
        intros [|j'] Hj'; [exact Hxrv|]. apply Hfirst. lia.
    + destruct (IH bi b (S i) ri rv Hb Ht H) as (Hrv & Hcase). split; [exact Hrv|].
      destruct Hcase as [[-> ->] | (j & -> & Hj & Hn & Hbrv & Hfirst)]; [left; split; reflexivity|].
      right. exists (S j). cbn [length nth]. split; [lia|]. split; [lia|]. split; [exact Hn|].
      split; [exact Hbrv|]. intros [|j'] Hj'; [|apply Hfirst; lia].
      (* [x] was not taken over [b], and [b <! rv]: co-transitivity puts the skipped [x] below [rv] *)
      destruct (swo_cotrans N ok Hswo b x rv Hb Hx Hrv Hbrv) as [C | C]; [|exact C].
      rewrite C in E. discriminate.
Qed.

(** the reported position holds a maximal element and everything before it is strictly smaller *)
Theorem gargmax_first_max : forall (d : V) l i v, Forall ok l -> gargmax N l = Some (i, v) ->
  i < length l /\ v = nth i l d /\
  (forall j, j < length l -> v <! nth j l d = false) /\
  (forall j, j < i -> nth j l d <! v = true).
Proof.
  intros d l i v Hl H. destruct (gargmax_nth d l i v H) as [Hi Hv].
  split; [exact Hi|]. split; [exact Hv|]. split.
  - intros j Hj.
    exact (gargmax_ub (swo_irrefl N ok Hswo) (swo_trans N ok Hswo) l i v Hl H _ (nth_In l d Hj)).
  - destruct l as [|x t]; cbn [gargmax] in H; [discriminate|].
    inversion Hl as [|x' t' Hx Ht]; subst x' t'. inversion H as [H0].
    destruct (gargmax_from_first d t 0 x 1 i v Hx Ht H0) as (_ & [[-> _] | (j & -> & Hj & Hn & Hxv & Hfirst)]);
      [intros j Hj; lia|].
    intros [|j'] Hj'; cbn [nth]; [exact Hxv|]. apply Hfirst. lia.
Qed.

(** the same after reindexing: the list of the values of [f] on a list of candidates *)
Lemma gargmax_map_first_max : forall {A} (f : A -> V) (d : A) l i v,
  (forall x, In x l -> ok (f x)) -> gargmax N (map f l) = Some (i, v) ->
  i < length l /\ v = f (nth i l d) /\
  (forall x, In x l -> v <! f x = false) /\ (forall j, j < i -> f (nth j l d) <! v = true).
Proof.
  intros A f d l i v Hok H.
  assert (Hl : Forall ok (map f l)).
  { apply Forall_forall. intros y Hy. apply in_map_iff in Hy. destruct Hy as (x & <- & Hx). exact (Hok x Hx). }
  destruct (gargmax_first_max (f d) _ i v Hl H) as (Hi & Hv & Hle & Hlt).
  rewrite map_length in Hi, Hle. rewrite map_nth in Hv.
  split; [exact Hi|]. split; [exact Hv|]. split.
  - intros x Hx. destruct (In_nth _ _ d Hx) as (j & Hj & <-). rewrite <- (map_nth f). exact (Hle j Hj).
  - intros j Hj. rewrite <- (map_nth f). exact (Hlt j Hj).
Qed.

(** ... on a range of positions *)
Lemma gargmax_seq_first_max : forall (f : nat -> V) a len i v,
  (forall k, a <= k < a + len -> ok (f k)) -> gargmax N (map f (seq a len)) = Some (i, v) ->
  i < len /\ v = f (a + i) /\
  (forall k, a <= k < a + len -> v <! f k = false) /\ (forall k, a <= k < a + i -> f k <! v = true).
Proof.
  intros f a len i v Hok H.
  destruct (gargmax_map_first_max f 0 (seq a len) i v) as (Hi & Hv & Hle & Hlt); [|exact H|].
  { intros k Hk. apply in_seq in Hk. exact (Hok k Hk). }
  rewrite seq_length in Hi. rewrite seq_nth in Hv by exact Hi.
  split; [exact Hi|]. split; [exact Hv|]. split.
  - intros k Hk. apply Hle. apply in_seq. exact Hk.
  - intros k Hk. specialize (Hlt (k - a) ltac:(lia)). rewrite seq_nth in Hlt by lia.
    replace (a + (k - a)) with k in Hlt by lia. exact Hlt.
Qed.
End FirstMax.

(** the first minimum is the first maximum for the converse order *)
Definition converse (N : num) : num :=
  {| T := T N; zero := zero N; add := add N; neg := neg N;
     ltb := fun a b => ltb N b a; leb := fun a b => leb N b a |}.

Lemma swo_converse : forall N ok, swo N ok -> swo (converse N) ok.
Proof.
  intros N ok [H1 H2 H3]. constructor; cbn [ltb converse T].
  - exact H1.
  - intros x y z Hx Hy Hz A B. exact (H2 z y x Hz Hy Hx B A).
  - intros x y z Hx Hy Hz A B C D. exact (H3 z y x Hz Hy Hx C D A B).
Qed.

Lemma gargmin_first_min : forall N ok, swo N ok -> forall (d : T N) l i v,
  Forall ok l -> gargmin N l = Some (i, v) ->
  (i < length l)%nat /\ v = nth i l d /\
  (forall j, (j < length l)%nat -> ltb N (nth j l d) v = false) /\
  (forall j, (j < i)%nat -> ltb N v (nth j l d) = true).
Proof. intros N ok Hswo. exact (gargmax_first_max (converse N) ok (swo_converse N ok Hswo)). Qed.

Lemma swo_Z : swo Zn (fun _ => True).
Proof.
  constructor; cbn [ltb Zn T].
  - intros x _. apply Z.ltb_irrefl.
  - intros x y z _ _ _. rewrite !Z.ltb_lt. lia.
  - intros x y z _ _ _. rewrite !Z.ltb_ge. lia.
Qed.

Lemma thr_Z : forall thr : Z, 0 <= thr -> ltb Zn thr (zero Zn) = false.
Proof. intros thr H. cbn [ltb zero Zn]. apply Z.ltb_ge. exact H. Qed.

Lemma allZ_Forall : forall l : list Z, Forall (fun _ => True) l.
Proof. intros l. apply Forall_forall. intros x _. exact I. Qed.

Theorem argmax_spec : forall l i v,
  argmax l = Some (i, v) ->
  (i < length l)%nat /\ nth i l 0 = v /\
  (forall j, (j < length l)%nat -> nth j l 0 <= v) /\
  (forall j, (j < i)%nat -> nth j l 0 < v).
Proof.
  intros l i v H. rewrite <- gargmax_Z in H.
  destruct (gargmax_first_max Zn _ swo_Z 0 l i v (allZ_Forall l) H) as (Hi & Hv & Hle & Hlt).
  split; [exact Hi|]. split; [symmetry; exact Hv|]. split; intros j Hj.
  - apply Z.ltb_ge. exact (Hle j Hj).
  - apply Z.ltb_lt. exact (Hlt j Hj).
Qed.

Theorem argmax_none : forall l, argmax l = None <-> l = [].
Proof. intros l. rewrite <- gargmax_Z. exact (gargmax_none Zn l). Qed.

Lemma argmax_some : forall l, l <> [] -> exists i v, argmax l = Some (i, v).
Proof.
  intros l H. destruct (argmax l) as [[i v]|] eqn:E; [eauto|]. apply argmax_none in E. contradiction.
Qed.

Theorem argmin_spec : forall l i v,
  argmin l = Some (i, v) ->
  (i < length l)%nat /\ nth i l 0 = v /\
  (forall j, (j < length l)%nat -> nth j l 0 >= v) /\
  (forall j, (j < i)%nat -> nth j l 0 > v).
Proof.
  intros l i v H. rewrite <- gargmin_Z in H.
  destruct (gargmin_first_min Zn _ swo_Z 0 l i v (allZ_Forall l) H) as (Hi & Hv & Hle & Hlt).
  split; [exact Hi|]. split; [symmetry; exact Hv|]. split; intros j Hj.
  - apply Z.le_ge, Z.ltb_ge. exact (Hle j Hj).
  - apply Z.lt_gt, Z.ltb_lt. exact (Hlt j Hj).
Qed.

Theorem argmin_none : forall l, argmin l = None <-> l = [].
Proof. intros [|x t]; simpl; split; intro H; try reflexivity; discriminate. Qed.

Lemma argmin_some : forall l, l <> [] -> exists i v, argmin l = Some (i, v).
Proof.
  intros l H. destruct (argmin l) as [[i v]|] eqn:E; [eauto|]. apply argmin_none in E. contradiction.
Qed.

Lemma maxl_ge_default : forall l d, d <= maxl d l.
Proof.
  unfold maxl. induction l as [|x t IH]; intros d; simpl; [lia|].
  specialize (IH (Z.max d x)). lia.
Qed.
Lemma maxl_ge : forall l d x, In x l -> x <= maxl d l.
Proof.
  unfold maxl. induction l as [|y t IH]; intros d x H; simpl in *; [contradiction|].
  destruct H as [-> | H].
  - pose proof (maxl_ge_default t (Z.max d x)) as G. unfold maxl in G. lia.
  - apply IH; assumption.
Qed.
Lemma maxl_attained : forall l d, maxl d l = d \/ In (maxl d l) l.
Proof.
  unfold maxl. induction l as [|y t IH]; intros d; simpl; [left; reflexivity|].
  destruct (IH (Z.max d y)) as [E | I].
  - rewrite E. destruct (Z.max_spec d y) as [[_ ->] | [_ ->]]; auto.
  - right; right; assumption.
Qed.
Lemma minl_le_default : forall l d, minl d l <= d.
Proof.
  unfold minl. induction l as [|x t IH]; intros d; simpl; [lia|].
  specialize (IH (Z.min d x)). lia.
Qed.
Lemma minl_le : forall l d x, In x l -> minl d l <= x.
Proof.
  unfold minl. induction l as [|y t IH]; intros d x H; simpl in *; [contradiction|].
  destruct H as [-> | H].
  - pose proof (minl_le_default t (Z.min d x)) as G. unfold minl in G. lia.
  - apply IH; assumption.
Qed.
Lemma minl_attained : forall l d, minl d l = d \/ In (minl d l) l.
Proof.
  unfold minl. induction l as [|y t IH]; intros d; simpl; [left; reflexivity|].
  destruct (IH (Z.min d y)) as [E | I].
  - rewrite E. destruct (Z.min_spec d y) as [[_ ->] | [_ ->]]; auto.
  - right; right; assumption.
Qed.

Section InsSort.
Context {A : Type}.
Variable leb : A -> A -> bool.

Fixpoint ins (x : A) (l : list A) : list A :=
  match l with [] => [x] | y :: t => if leb x y then x :: l else y :: ins x t end.
Definition isort (l : list A) : list A := fold_right ins [] l.

(** the order produced: [x] stands before [y] only if [leb x y] or not [leb y x] *)
Definition ins_rel (x y : A) : Prop := leb x y = true \/ leb y x = false.

Lemma ins_perm : forall x l, Permutation (ins x l) (x :: l).
Proof.
  intros x. induction l as [|y t IH]; simpl.
  - apply Permutation_refl.
  - destruct (leb x y).
    + apply Permutation_refl.
    + eapply perm_trans; [apply perm_skip; exact IH | apply perm_swap].
Qed.

Lemma isort_perm : forall l, Permutation (isort l) l.
Proof.
  induction l as [|x t IH]; simpl; [constructor|].
  eapply perm_trans; [apply ins_perm|]. apply perm_skip. exact IH.
Qed.

Lemma ins_hdrel : forall a x l,
  ins_rel a x -> HdRel ins_rel a l -> HdRel ins_rel a (ins x l).
Proof.
  intros a x [|y t] Hax H; simpl.
  - constructor; assumption.
  - destruct (leb x y); constructor; [assumption|]. inversion H; assumption.
Qed.

Lemma ins_sorted : forall x l, Sorted ins_rel l -> Sorted ins_rel (ins x l).
Proof.
  intros x. induction l as [|y t IH]; intros H; simpl.
  - constructor; constructor.
  - destruct (leb x y) eqn:E.
    + constructor; [assumption|]. constructor. left; assumption.
    + inversion H as [|? ? Hs Hh]; subst. constructor; [apply IH; assumption|].
      apply ins_hdrel; [right; assumption | assumption].
Qed.

Lemma isort_sorted : forall l, Sorted ins_rel (isort l).
Proof.
  induction l as [|x t IH]; simpl; [constructor|]. apply ins_sorted. exact IH.
Qed.
End InsSort.

Lemma Sorted_nth : forall {A} (R : A -> A -> Prop) l d,
  Sorted R l -> forall i, (S i < length l)%nat -> R (nth i l d) (nth (S i) l d).
Proof.
  intros A R l d H. induction H as [|x l Hs IH Hh]; intros i Hi; simpl in Hi; [lia|].
  destruct i as [|i].
  - destruct l as [|y t]; simpl in *; [lia|]. inversion Hh; assumption.
  - change (R (nth i l d) (nth (S i) l d)). apply IH. lia.
Qed.

Lemma nth_Sorted : forall {A} (R : A -> A -> Prop) l d,
  (forall i, (S i < length l)%nat -> R (nth i l d) (nth (S i) l d)) -> Sorted R l.
Proof.
  intros A R l d. induction l as [|x t IH]; intros H; [constructor|].
  constructor.
  - apply IH. intros i Hi. apply (H (S i)). simpl. lia.
  - destruct t as [|y t']; constructor. apply (H 0%nat). simpl. lia.
Qed.

Lemma StronglySorted_FOP : forall {A} (R : A -> A -> Prop) l,
  StronglySorted R l -> ForallOrdPairs R l.
Proof. intros A R l H. induction H; constructor; assumption. Qed.

Lemma FOP_nth : forall {A} (R : A -> A -> Prop) l d,
  ForallOrdPairs R l ->
  forall a b, (a < b < length l)%nat -> R (nth a l d) (nth b l d).
Proof.
  intros A R l d H. induction H as [|x l HF HP IH]; intros a b Hab; simpl in *; [lia|].
  destruct b as [|b]; [lia|]. destruct a as [|a].
  - rewrite Forall_forall in HF. apply HF. apply nth_In. lia.
  - apply IH. lia.
Qed.

Lemma FOP_map : forall {A B} (f : A -> B) (R : B -> B -> Prop) l,
  ForallOrdPairs (fun x y => R (f x) (f y)) l -> ForallOrdPairs R (map f l).
Proof.
  intros A B f R l H. induction H as [|x l HF HP IH]; simpl; constructor; [|exact IH].
  rewrite Forall_forall in *. intros y Hy. apply in_map_iff in Hy.
  destruct Hy as (z & <- & Hz). apply HF; assumption.
Qed.

Lemma FOP_impl_Forall : forall {A} (R R' : A -> A -> Prop) (P : A -> Prop) l,
  ForallOrdPairs R l -> Forall P l ->
  (forall x y, P x -> P y -> R x y -> R' x y) -> ForallOrdPairs R' l.
Proof.
  intros A R R' P l H. induction H as [|x l HF HP IH]; intros HPl Himp; constructor.
  - inversion HPl as [|? ? Px Pl]; subst. rewrite Forall_forall in *.
    intros y Hy. apply Himp; auto.
  - inversion HPl; subst. apply IH; assumption.
Qed.

Lemma FOP_sym_In : forall {A} (R : A -> A -> Prop) l,
  ForallOrdPairs R l -> (forall x y, R x y -> R y x) ->
  (forall x, In x l -> ~ R x x) ->
  NoDup l /\ forall x y, In x l -> In y l -> x <> y -> R x y.
Proof.
  intros A R l H Hsym. induction H as [|x l HF HP IH]; intros Hirr.
  - split; [constructor|]. intros x y [].
  - destruct IH as [ND Hall]; [intros y Hy; apply Hirr; right; assumption|].
    rewrite Forall_forall in HF. split.
    + constructor; [|assumption]. intro Hin. apply (Hirr x); [left; reflexivity|].
      apply HF; assumption.
    + intros a b [<- | Ha] [<- | Hb] Hne.
      * contradiction.
      * apply HF; assumption.
      * apply Hsym. apply HF; assumption.
      * apply Hall; assumption.
Qed.

(** picks that are pairwise related by a symmetric irreflexive relation are so, consecutively, in
    any rearrangement (the sorted output of a detector) *)
Lemma FOP_perm_consecutive : forall {A} (R : A -> A -> Prop) (d : A) l l',
  ForallOrdPairs R l -> (forall x y, R x y -> R y x) -> (forall x, In x l -> ~ R x x) ->
  Permutation l' l -> forall i, (S i < length l')%nat -> R (nth i l' d) (nth (S i) l' d).
Proof.
  intros A R d l l' F Hsym Hirr P i Hi. destruct (FOP_sym_In R l F Hsym Hirr) as [ND Hall]. apply Hall.
  - apply (Permutation_in _ P), nth_In. lia.
  - apply (Permutation_in _ P), nth_In. exact Hi.
  - intro E. apply (Permutation_NoDup (Permutation_sym P)) in ND. rewrite (NoDup_nth _ d) in ND.
    specialize (ND i (S i) ltac:(lia) Hi E). lia.
Qed.

Print Assumptions gargmax_first_max.
Print Assumptions argmax_spec.
Print Assumptions argmax_none.
Print Assumptions argmin_spec.
Print Assumptions argmin_none.
Print Assumptions isort_perm.
Print Assumptions isort_sorted.
