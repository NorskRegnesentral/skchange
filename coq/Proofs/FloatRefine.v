(** The link between the executable primitive-float kernel [l2_cost_F]
    (Check/FloatKernelCheck.v, compared bit for bit with the library by the harness)
    and the Flocq model [l2_cost_float53] (Proofs/FloatError.v).

    [FR x] is the real value of a primitive float (0 for infinities and NaN).
      -  [FR_add] [FR_sub] [FR_mul] [FR_div]: when the computed result is finite
         ([PrimFloat.is_finite], a boolean test on the result itself), it is the
         binary64 (FLT) rounding of the exact result; [FR_of_natF]: n < 2^53 converts exactly.
      -  [rnd_binary64_is_rnd53]: FLT rounding = FLX rounding at 0 and from 2^-1022 upwards;
         [rnd_binary64_is_rnd53_plus] / [_minus]: for sums and differences of two binary64
         numbers with NO lower bound (a subnormal-range sum is exact).
         [FR_add53] [FR_sub53] [FR_mul53] [FR_div53]: the operations in the FLX model.
      -  [l2_trace_ok]: the boolean checker.  Products and quotients are accepted when an
         operand that forces an exact zero is zero, or when the computed result is STRICTLY
         above 2^-1022 in magnitude.  (Strictness is necessary: a real just below 2^-1022
         can round to 2^-1022 in binary64 and to something else with unbounded exponents;
         likewise a computed zero does not show that the exact product is zero.)
      -  [l2_cost_F_refines]:  l2_trace_ok l s e = true ->
                               FR (l2_cost_F l s e) = l2_cost_float53 (map FR l) s e.
      -  [l2_cost_F_vs_rss], [l2_cost_F_vs_optim_R], [l2_cost_F_tolerance]: the computed
         number against the exact residual sum of squares of the data.
      -  [demo_trace_ok] and friends: the checker accepts ordinary data and rejects an
         overflowing sum and an underflowing square. *)
From Coq Require Import Reals Lra Lia List Bool Floats.
From Flocq Require Import Core Plus_error BinarySingleNaN.
From Flocq Require IEEE754.PrimFloat.
From SK Require Import Gen.KernelsR Proofs.RealLib Proofs.CostKernels Proofs.FloatError Check.FloatKernelCheck.
Import ListNotations.
Module FP := Flocq.IEEE754.PrimFloat.

Local Open Scope R_scope.
Notation pfloat := PrimFloat.float (only parsing).
Local Instance prec53_gt_0 : Prec_gt_0 53 := eq_refl.

(** * Primitive floats as reals; one operation at a time *)

Definition FR (x : pfloat) : R := B2R (FP.Prim2B x).
Definition finF (x : pfloat) : bool := PrimFloat.is_finite x.

Lemma finF_B x : finF x = is_finite (FP.Prim2B x).
Proof. unfold finF. apply FP.is_finite_equiv. Qed.

Lemma rnd_binary64_fexp z :
  round radix2 (fexp prec emax) (round_mode mode_NE) z = rnd_binary64 z.
Proof. reflexivity. Qed.

Lemma inf_not_finite (b : binary_float prec emax) s :
  B2SF b = binary_overflow prec emax mode_NE s -> is_finite b = true -> False.
Proof.
  intros Hb Hf. rewrite <- is_finite_SF_B2SF, Hb in Hf. discriminate Hf.
Qed.

Lemma FR_format x : generic_format radix2 (FLT_exp (-1074) 53) (FR x).
Proof. unfold FR. exact (generic_format_B2R prec emax (FP.Prim2B x)). Qed.

(** Flocq's correctness statements of + - * / have this shape: without overflow the value is
    [v], otherwise ([Q]) the result is an overflow, which a finite result excludes *)
Lemma finite_result (b : bool) (r : binary_float prec emax) v (P Q : Prop) s :
  (if b then B2R r = v /\ P else Q) -> (Q -> B2SF r = binary_overflow prec emax mode_NE s) ->
  is_finite r = true -> B2R r = v.
Proof.
  intros H HQ Hf. destruct b; [exact (proj1 H)|]. exfalso. exact (inf_not_finite _ _ (HQ H) Hf).
Qed.

Theorem FR_add x y :
  finF x = true -> finF y = true -> finF (x + y) = true ->
  FR (x + y) = rnd_binary64 (FR x + FR y).
Proof.
  intros Hx Hy Hr. rewrite finF_B in Hx, Hy, Hr. unfold FR. rewrite FP.add_equiv in Hr |- *.
  exact (finite_result _ _ _ _ _ _ (Bplus_correct prec emax FP.Hprec FP.Hmax mode_NE _ _ Hx Hy)
           (@proj1 _ _) Hr).
Qed.

Theorem FR_sub x y :
  finF x = true -> finF y = true -> finF (x - y) = true ->
  FR (x - y) = rnd_binary64 (FR x - FR y).
Proof.
  intros Hx Hy Hr. rewrite finF_B in Hx, Hy, Hr. unfold FR. rewrite FP.sub_equiv in Hr |- *.
  exact (finite_result _ _ _ _ _ _ (Bminus_correct prec emax FP.Hprec FP.Hmax mode_NE _ _ Hx Hy)
           (@proj1 _ _) Hr).
Qed.

Theorem FR_mul x y :
  finF (x * y) = true ->
  FR (x * y) = rnd_binary64 (FR x * FR y).
Proof.
  intros Hr. rewrite finF_B in Hr. unfold FR. rewrite FP.mul_equiv in Hr |- *.
  exact (finite_result _ _ _ _ _ _
           (Bmult_correct prec emax FP.Hprec FP.Hmax mode_NE (FP.Prim2B x) (FP.Prim2B y))
           (fun H => H) Hr).
Qed.

Theorem FR_div x y :
  FR y <> 0 -> finF (x / y) = true ->
  FR (x / y) = rnd_binary64 (FR x / FR y).
Proof.
  intros Hy Hr. rewrite finF_B in Hr. unfold FR in *. rewrite FP.div_equiv in Hr |- *.
  exact (finite_result _ _ _ _ _ _
           (Bdiv_correct prec emax FP.Hprec FP.Hmax mode_NE (FP.Prim2B x) (FP.Prim2B y) Hy)
           (fun H => H) Hr).
Qed.

(** conversion of a small natural number: exact *)
Lemma IZR_small_format z :
  (Z.abs z < 2 ^ 53)%Z -> generic_format radix2 (FLT_exp (-1074) 53) (IZR z).
Proof.
  intros Hz. apply generic_format_FLT.
  apply (FLT_spec radix2 (-1074) 53 (IZR z) (Float radix2 z 0)).
  - unfold F2R. cbn [Fnum Fexp bpow]. ring.
  - cbn [Fnum]. exact Hz.
  - cbn [Fexp]. lia.
Qed.

Lemma of_natF_B n :
  (Z.of_nat n < 2 ^ 53)%Z ->
  B2R (FP.Prim2B (of_natF n)) = INR n /\ is_finite (FP.Prim2B (of_natF n)) = true.
Proof.
  intros Hn. unfold of_natF. rewrite FP.of_int63_equiv.
  assert (Hz : Uint63.to_Z (Uint63.of_Z (Z.of_nat n)) = Z.of_nat n).
  { rewrite Uint63.of_Z_spec. apply Z.mod_small. split; [lia|].
    apply Z.lt_trans with (1 := Hn). reflexivity. }
  rewrite Hz.
  pose proof (binary_normalize_correct prec emax FP.Hprec FP.Hmax mode_NE (Z.of_nat n) 0 false) as H.
  cbv zeta in H.
  assert (HF : F2R (Float radix2 (Z.of_nat n) 0) = IZR (Z.of_nat n)).
  { unfold F2R. cbn [Fnum Fexp bpow]. ring. }
  rewrite HF in H.
  assert (Hfmt : generic_format radix2 (fexp prec emax) (IZR (Z.of_nat n))).
  { apply IZR_small_format. lia. }
  rewrite (round_generic radix2 (fexp prec emax) (round_mode mode_NE) _ Hfmt) in H.
  rewrite Rlt_bool_true in H.
  - destruct H as [H1 [H2 _]]. split; [|exact H2]. rewrite H1. symmetry. apply INR_IZR_INZ.
  - rewrite <- abs_IZR. change (bpow radix2 emax) with (IZR (2 ^ 1024)).
    apply IZR_lt. apply Z.lt_trans with (2 ^ 53)%Z; [lia|reflexivity].
Qed.

Theorem FR_of_natF n : (Z.of_nat n < 2 ^ 53)%Z -> FR (of_natF n) = INR n.
Proof. intros Hn. exact (proj1 (of_natF_B n Hn)). Qed.

Lemma FR_of_natF_small n : (Z.of_nat n <= 2 ^ 30)%Z -> FR (of_natF n) = INR n.
Proof. intros Hn. apply FR_of_natF. apply Z.le_lt_trans with (1 := Hn). reflexivity. Qed.

Theorem finF_of_natF n : (Z.of_nat n < 2 ^ 53)%Z -> finF (of_natF n) = true.
Proof. intros Hn. rewrite finF_B. exact (proj2 (of_natF_B n Hn)). Qed.

(** * From binary64 rounding (FLT) to the unbounded-exponent model (FLX) *)

Theorem rnd_binary64_is_rnd53 z :
  z = 0 \/ bpow radix2 (-1022) <= Rabs z -> rnd_binary64 z = rnd53 z.
Proof.
  intros [Hz|Hz].
  - subst z. exact rnd53_is_binary64_zero.
  - apply rnd53_is_binary64_normal. exact Hz.
Qed.

(** a sum of two binary64 numbers: no lower bound is needed, a sum in the
    subnormal range is exact *)
Theorem rnd_binary64_is_rnd53_plus x y :
  generic_format radix2 (FLT_exp (-1074) 53) x ->
  generic_format radix2 (FLT_exp (-1074) 53) y ->
  rnd_binary64 (x + y) = rnd53 (x + y).
Proof.
  intros Hx Hy.
  destruct (Rle_lt_dec (bpow radix2 (-1022)) (Rabs (x + y))) as [Hbig|Hsmall].
  - apply rnd53_is_binary64_normal. exact Hbig.
  - assert (Hfmt : generic_format radix2 (FLT_exp (-1074) 53) (x + y)).
    { apply FLT_format_plus_small; [reflexivity|exact Hx|exact Hy|].
      apply Rle_trans with (bpow radix2 (-1022)); [lra|].
      apply bpow_le. lia. }
    unfold rnd_binary64, rnd53.
    rewrite (round_generic radix2 (FLT_exp (-1074) 53) ZnearestE _ Hfmt).
    rewrite (round_generic radix2 (FLX_exp 53) ZnearestE _ (generic_format_FLX_FLT _ _ _ _ Hfmt)).
    reflexivity.
Qed.

Theorem rnd_binary64_is_rnd53_minus x y :
  generic_format radix2 (FLT_exp (-1074) 53) x ->
  generic_format radix2 (FLT_exp (-1074) 53) y ->
  rnd_binary64 (x - y) = rnd53 (x - y).
Proof.
  intros Hx Hy. unfold Rminus. apply rnd_binary64_is_rnd53_plus; [exact Hx|].
  apply generic_format_opp. exact Hy.
Qed.

(** a rounded value strictly above 2^-1022 in magnitude comes from a real of
    magnitude at least 2^-1022 *)
Lemma rnd_binary64_big z :
  bpow radix2 (-1022) < Rabs (rnd_binary64 z) -> bpow radix2 (-1022) <= Rabs z.
Proof.
  intros Hr. destruct (Rle_lt_dec (bpow radix2 (-1022)) (Rabs z)) as [H|H]; [exact H|].
  exfalso.
  assert (Hfmt : generic_format radix2 (FLT_exp (-1074) 53) (bpow radix2 (-1022))).
  { apply generic_format_bpow. unfold FLT_exp. lia. }
  pose proof (abs_round_le_generic radix2 (FLT_exp (-1074) 53) ZnearestE z _ Hfmt (Rlt_le _ _ H)) as Hle.
  unfold rnd_binary64 in Hr. lra.
Qed.

(** the FLX-model forms of the four operations *)
Theorem FR_add53 x y :
  finF x = true -> finF y = true -> finF (x + y) = true ->
  FR (x + y) = rnd53 (FR x + FR y).
Proof.
  intros Hx Hy Hr. rewrite (FR_add x y Hx Hy Hr).
  apply rnd_binary64_is_rnd53_plus; apply FR_format.
Qed.

Theorem FR_sub53 x y :
  finF x = true -> finF y = true -> finF (x - y) = true ->
  FR (x - y) = rnd53 (FR x - FR y).
Proof.
  intros Hx Hy Hr. rewrite (FR_sub x y Hx Hy Hr).
  apply rnd_binary64_is_rnd53_minus; apply FR_format.
Qed.

(** * Boolean tests on computed values *)

(** the smallest positive normal number 2^-1022 *)
Definition tinyF : pfloat := 0x1p-1022%float.

Lemma FR_tinyF : FR tinyF = bpow radix2 (-1022).
Proof.
  unfold FR, FP.Prim2B. rewrite B2R_SF2B.
  replace (Prim2SF tinyF) with (S754_finite false 4503599627370496 (-1074)) by (vm_compute; reflexivity).
  unfold SF2R, F2R. cbn [cond_Zopp Fnum Fexp].
  change (IZR (Z.pos 4503599627370496)) with (bpow radix2 52).
  rewrite <- bpow_plus. reflexivity.
Qed.

Lemma finF_tinyF : finF tinyF = true.
Proof. vm_compute. reflexivity. Qed.

Lemma is_zero_FR x : is_zero x = true -> FR x = 0.
Proof.
  intros H. rewrite FP.is_zero_equiv in H. unfold FR.
  destruct (FP.Prim2B x); try discriminate H. reflexivity.
Qed.

(** magnitude strictly above 2^-1022 *)
Definition bigF (r : pfloat) : bool := PrimFloat.ltb tinyF (abs r).

Lemma bigF_FR r : finF r = true -> bigF r = true -> bpow radix2 (-1022) < Rabs (FR r).
Proof.
  intros Hf Hb. unfold bigF in Hb. rewrite FP.ltb_equiv in Hb.
  rewrite finF_B in Hf.
  rewrite Bltb_correct in Hb.
  - rewrite FP.abs_equiv, B2R_Babs in Hb. fold (FR tinyF) in Hb. rewrite FR_tinyF in Hb.
    destruct (Rlt_bool_spec (bpow radix2 (-1022)) (Rabs (B2R (FP.Prim2B r)))) as [Hlt|Hge];
      [exact Hlt|discriminate Hb].
  - rewrite <- finF_B. exact finF_tinyF.
  - rewrite FP.abs_equiv, is_finite_Babs. exact Hf.
Qed.

(** test of a product [r = x * y]: finite, and a factor is zero or the result is
    strictly above 2^-1022 in magnitude *)
Definition okP (x y r : pfloat) : bool :=
  finF r && (is_zero x || is_zero y || bigF r).
(** test of a quotient [r = x / y] *)
Definition okD (x r : pfloat) : bool :=
  finF r && (is_zero x || bigF r).

(** a finite result that is the binary64 rounding of [z] is also its FLX rounding when [z]
    is zero or the result is strictly above 2^-1022 in magnitude *)
Lemma FR_rnd53 r z :
  FR r = rnd_binary64 z -> finF r = true -> z = 0 \/ bigF r = true -> FR r = rnd53 z.
Proof.
  intros Hr Hf Hc. rewrite Hr. apply rnd_binary64_is_rnd53.
  destruct Hc as [Hz|Hb]; [left; exact Hz|right].
  apply rnd_binary64_big. rewrite <- Hr. exact (bigF_FR _ Hf Hb).
Qed.

Theorem FR_mul53 x y :
  okP x y (x * y) = true -> FR (x * y) = rnd53 (FR x * FR y).
Proof.
  intros H. unfold okP in H. apply andb_prop in H. destruct H as [Hf Hc].
  apply (FR_rnd53 _ _ (FR_mul x y Hf) Hf).
  apply orb_prop in Hc. destruct Hc as [Hc|Hb]; [left|right; exact Hb].
  apply orb_prop in Hc. destruct Hc as [Hz|Hz]; rewrite (is_zero_FR _ Hz); ring.
Qed.

Theorem FR_div53 x y :
  FR y <> 0 -> okD x (x / y) = true -> FR (x / y) = rnd53 (FR x / FR y).
Proof.
  intros Hy H. unfold okD in H. apply andb_prop in H. destruct H as [Hf Hc].
  apply (FR_rnd53 _ _ (FR_div x y Hy Hf) Hf).
  apply orb_prop in Hc. destruct Hc as [Hz|Hb]; [left|right; exact Hb].
  rewrite (is_zero_FR _ Hz). unfold Rdiv. ring.
Qed.

(** [good x r]: the primitive float [x] is finite and its real value is [r].  One rule per
    operation turns the tests of a trace checker into the refinement of the computation. *)
Definition good (x : pfloat) (r : R) : Prop := finF x = true /\ FR x = r.

Lemma good_add {x y rx ry} :
  good x rx -> good y ry -> finF (x + y) = true -> good (x + y) (rnd53 (rx + ry)).
Proof. intros [Fx <-] [Fy <-] Fr. exact (conj Fr (FR_add53 x y Fx Fy Fr)). Qed.

Lemma good_sub {x y rx ry} :
  good x rx -> good y ry -> finF (x - y) = true -> good (x - y) (rnd53 (rx - ry)).
Proof. intros [Fx <-] [Fy <-] Fr. exact (conj Fr (FR_sub53 x y Fx Fy Fr)). Qed.

Lemma good_mul {x y rx ry} :
  FR x = rx -> FR y = ry -> okP x y (x * y) = true -> good (x * y) (rnd53 (rx * ry)).
Proof. intros <- <- H. exact (conj (proj1 (andb_prop _ _ H)) (FR_mul53 x y H)). Qed.

Lemma good_div {x y rx ry} :
  FR x = rx -> FR y = ry -> ry <> 0 -> okD x (x / y) = true -> good (x / y) (rnd53 (rx / ry)).
Proof. intros <- <- Hy H. exact (conj (proj1 (andb_prop _ _ H)) (FR_div53 x y Hy H)). Qed.

(** * Sequential accumulation *)

Definition faccF (a : pfloat) (l : list pfloat) : pfloat :=
  fold_left (fun acc y => (acc + y)%float) l a.

(** every partial sum of the accumulation is finite *)
Fixpoint acc_ok (a : pfloat) (l : list pfloat) : bool :=
  match l with
  | [] => true
  | y :: t => finF (a + y) && acc_ok (a + y) t
  end.

Lemma fsumF_faccF l : fsumF l = faccF 0%float l.
Proof. reflexivity. Qed.

Lemma faccF_refines l : forall a,
  finF a = true -> forallb finF l = true -> acc_ok a l = true ->
  finF (faccF a l) = true /\ FR (faccF a l) = facc rnd53 (FR a) (map FR l).
Proof.
  induction l as [|y t IH]; intros a Ha Hl Hok.
  - split; [exact Ha|reflexivity].
  - cbn [forallb] in Hl. apply andb_true_iff in Hl. destruct Hl as [Hy Ht].
    cbn [acc_ok] in Hok. apply andb_true_iff in Hok. destruct Hok as [Hay Hok].
    destruct (IH (a + y)%float Hay Ht Hok) as [IH1 IH2].
    unfold faccF, facc in *. cbn [fold_left map].
    split; [exact IH1|]. rewrite IH2. rewrite (FR_add53 a y Ha Hy Hay). reflexivity.
Qed.

Lemma acc_ok_app l1 : forall a l2, acc_ok a (l1 ++ l2) = true -> acc_ok a l1 = true.
Proof.
  induction l1 as [|y t IH]; intros a l2 H; [reflexivity|].
  cbn [app acc_ok] in H |- *. apply andb_true_iff in H. destruct H as [H1 H2].
  rewrite H1. cbn [andb]. exact (IH _ _ H2).
Qed.

Lemma FR_zero : FR 0%float = 0.
Proof. apply is_zero_FR. vm_compute. reflexivity. Qed.

Lemma finF_zero : finF 0%float = true.
Proof. vm_compute. reflexivity. Qed.

Lemma firstn_split_le {A} (l : list A) i e :
  (i <= e)%nat -> firstn e l = firstn i l ++ skipn i (firstn e l).
Proof.
  intros Hie. rewrite <- (firstn_skipn i (firstn e l)) at 1.
  rewrite firstn_firstn. replace (Nat.min i e) with i by lia. reflexivity.
Qed.

(** one pass over the prefix of length [e] covers every shorter prefix *)
Lemma prefixF_refines l e i :
  (i <= e)%nat -> forallb finF (firstn e l) = true -> acc_ok 0%float (firstn e l) = true ->
  finF (prefixF l i) = true /\ FR (prefixF l i) = fprefix53 (map FR l) i.
Proof.
  intros Hie Hfin Hok. rewrite (firstn_split_le l i e Hie) in Hfin, Hok.
  rewrite forallb_app in Hfin. apply andb_true_iff in Hfin. destruct Hfin as [Hfin _].
  apply acc_ok_app in Hok.
  destruct (faccF_refines (firstn i l) 0%float finF_zero Hfin Hok) as [H1 H2].
  unfold prefixF. rewrite fsumF_faccF. split; [exact H1|].
  rewrite H2, FR_zero. unfold fprefix53, fprefix, fsum. rewrite firstn_map. reflexivity.
Qed.

(** the squares *)
Definition sqF (l : list pfloat) : list pfloat := map (fun x => (x * x)%float) l.
Definition sq_ok (x : pfloat) : bool := okP x x (x * x).

Lemma sqF_refines L :
  forallb sq_ok L = true ->
  forallb finF (sqF L) = true /\ map FR (sqF L) = fsq rnd53 (map FR L).
Proof.
  induction L as [|x t IH]; intros H; [split; reflexivity|].
  cbn [forallb] in H. apply andb_true_iff in H. destruct H as [Hx Ht].
  destruct (IH Ht) as [IH1 IH2]. unfold sqF, fsq in *. cbn [map forallb]. split.
  - rewrite IH1, andb_true_r. unfold sq_ok, okP in Hx.
    apply andb_true_iff in Hx. exact (proj1 Hx).
  - rewrite IH2. rewrite (FR_mul53 x x Hx). reflexivity.
Qed.

Lemma prefixF_sq_refines l e i :
  (i <= e)%nat -> forallb sq_ok (firstn e l) = true ->
  acc_ok 0%float (firstn e (sqF l)) = true ->
  finF (prefixF (sqF l) i) = true /\
  FR (prefixF (sqF l) i) = fprefix53 (fsq rnd53 (map FR l)) i.
Proof.
  intros Hie Hsq Hok.
  assert (Hfe : firstn e (sqF l) = sqF (firstn e l)) by (unfold sqF; apply firstn_map).
  destruct (sqF_refines _ Hsq) as [Hfin _]. rewrite <- Hfe in Hfin.
  destruct (prefixF_refines (sqF l) e i Hie Hfin Hok) as [H1 H2].
  split; [exact H1|]. rewrite H2.
  unfold fprefix53, fprefix. f_equal.
  assert (Hfi : firstn i (sqF l) = sqF (firstn i l)) by (unfold sqF; apply firstn_map).
  rewrite firstn_map, Hfi.
  unfold fsq at 1. rewrite firstn_map. fold (fsq rnd53 (firstn i (map FR l))).
  rewrite firstn_map.
  rewrite (firstn_split_le l i e Hie), forallb_app in Hsq.
  apply andb_true_iff in Hsq. destruct Hsq as [Hsq _].
  exact (proj2 (sqF_refines _ Hsq)).
Qed.

(** * The checker and the refinement theorem *)

(** [l2_trace_ok l s e] re-runs the computation of [l2_cost_F l s e] and tests
    every intermediate value:
      - s < e <= length l and e - s <= 2^30;
      - the inputs x_0 .. x_{e-1} are finite;
      - every square x_i * x_i (i < e) is finite, and x_i is zero or the square
        is above 2^-1022 in magnitude;
      - every partial sum of both accumulations up to e is finite;
      - the differences a = S1[e] - S1[s], b = S2[e] - S2[s] are finite;
      - a * a is finite and (a is zero or |a * a| > 2^-1022);
      - q = (a * a) / n is finite and (a * a is zero or |q| > 2^-1022);
      - the result b - q is finite. *)
Definition l2_trace_ok (l : list pfloat) (s e : nat) : bool :=
  let a := (prefixF l e - prefixF l s)%float in
  let b := (prefixF (sqF l) e - prefixF (sqF l) s)%float in
  let p := (a * a)%float in
  let q := (p / of_natF (e - s))%float in
  (s <? e)%nat && (e <=? length l)%nat && (Z.of_nat (e - s) <=? 2 ^ 30)%Z
  && forallb finF (firstn e l)
  && forallb sq_ok (firstn e l)
  && acc_ok 0%float (firstn e l)
  && acc_ok 0%float (firstn e (sqF l))
  && finF a && finF b && okP a a p && okD p q && finF (b - q).

Record l2_trace_spec (l : list pfloat) (s e : nat) : Prop := {
  ts_lt : (s < e)%nat;
  ts_len : (e <= length l)%nat;
  ts_n : (Z.of_nat (e - s) <= 2 ^ 30)%Z;
  ts_fin : forallb finF (firstn e l) = true;
  ts_sq : forallb sq_ok (firstn e l) = true;
  ts_acc1 : acc_ok 0%float (firstn e l) = true;
  ts_acc2 : acc_ok 0%float (firstn e (sqF l)) = true;
  ts_a : finF (prefixF l e - prefixF l s) = true;
  ts_b : finF (prefixF (sqF l) e - prefixF (sqF l) s) = true;
  ts_p : let a := (prefixF l e - prefixF l s)%float in okP a a (a * a) = true;
  ts_q : let a := (prefixF l e - prefixF l s)%float in
         okD (a * a) ((a * a) / of_natF (e - s)) = true;
  ts_r : let a := (prefixF l e - prefixF l s)%float in
         let b := (prefixF (sqF l) e - prefixF (sqF l) s)%float in
         finF (b - (a * a) / of_natF (e - s)) = true
}.

(** a checker is a conjunction of boolean tests and its specification record has one field per
    test, in the same order, with the comparisons of numbers as propositions *)
Ltac split_trace_ok :=
  let H := fresh in
  cbv zeta; intros H; repeat (apply andb_true_iff in H; destruct H as [H ?]);
  constructor; cbv zeta;
  first [assumption | apply Nat.ltb_lt; assumption | apply Nat.leb_le; assumption
        | apply Z.leb_le; assumption].

Lemma l2_trace_ok_spec l s e : l2_trace_ok l s e = true -> l2_trace_spec l s e.
Proof. unfold l2_trace_ok. split_trace_ok. Qed.

Theorem l2_cost_F_refines l s e :
  l2_trace_ok l s e = true ->
  FR (l2_cost_F l s e) = l2_cost_float53 (map FR l) s e.
Proof.
  intros Hok.
  destruct (l2_trace_ok_spec l s e Hok) as [Hlt Hlen Hn Hfin Hsq Hacc1 Hacc2 Ha Hb Hp Hq Hr].
  assert (Hse : (s <= e)%nat) by lia.
  pose proof (good_sub (prefixF_refines l e e (le_n e) Hfin Hacc1)
                       (prefixF_refines l e s Hse Hfin Hacc1) Ha) as Ga.
  pose proof (good_sub (prefixF_sq_refines l e e (le_n e) Hsq Hacc2)
                       (prefixF_sq_refines l e s Hse Hsq Hacc2) Hb) as Gb.
  pose proof (good_mul (proj2 Ga) (proj2 Ga) Hp) as Gp.
  pose proof (good_div (proj2 Gp) (FR_of_natF_small _ Hn) (not_0_INR (e - s) ltac:(lia)) Hq) as Gq.
  exact (proj2 (good_sub Gb Gq Hr)).
Qed.

(** * The computed number against the exact residual sum of squares *)

Lemma l2_trace_ok_bounds l s e :
  l2_trace_ok l s e = true -> (s < e <= length l)%nat.
Proof.
  intros Hok. apply l2_trace_ok_spec in Hok. destruct Hok. lia.
Qed.

Theorem l2_cost_F_vs_rss l s e :
  l2_trace_ok l s e = true -> INR e * u53 <= 1 / 100 ->
  Rabs (FR (l2_cost_F l s e) - rss (slice s e (map FR l)))
    <= (42 / 10 * INR e + 6) * u53 * l2_scale (map FR l) s e.
Proof.
  intros Hok Hsmall. rewrite (l2_cost_F_refines l s e Hok).
  apply l2_cost_float53_vs_rss; [|exact Hsmall].
  rewrite map_length. exact (l2_trace_ok_bounds l s e Hok).
Qed.

(** the same against the real-number kernel on exact prefix sums *)
Theorem l2_cost_F_vs_optim_R l s e :
  l2_trace_ok l s e = true -> INR e * u53 <= 1 / 100 ->
  Rabs (FR (l2_cost_F l s e)
        - l2_cost_optim_R (prefix (map FR l)) (prefix (sq (map FR l))) s e)
    <= (42 / 10 * INR e + 6) * u53 * l2_scale (map FR l) s e.
Proof.
  intros Hok Hsmall. rewrite (l2_cost_F_refines l s e Hok).
  apply l2_cost_float53_error; [|exact Hsmall].
  exact (proj1 (l2_trace_ok_bounds l s e Hok)).
Qed.

(** the tests' tolerance shape: at most two million samples in the prefix *)
Corollary l2_cost_F_tolerance l s e :
  l2_trace_ok l s e = true -> INR e <= 2000000 ->
  Rabs (FR (l2_cost_F l s e) - rss (slice s e (map FR l)))
    <= 1 / 1000000000 * l2_scale (map FR l) s e.
Proof.
  intros Hok He. rewrite (l2_cost_F_refines l s e Hok).
  pose proof (l2_trace_ok_bounds l s e Hok) as Hb.
  rewrite <- (l2_optim_is_rss (map FR l) s e) by (rewrite map_length; exact Hb).
  apply l2_cost_float53_tolerance; [exact (proj1 Hb)|exact He].
Qed.

(** * Non-vacuity *)

Definition demo_xs : list pfloat :=
  [1.5; 2.25; -0.75; 3; 10.125; 9.5; 11; 10.25]%float.

Example demo_trace_ok : l2_trace_ok demo_xs 1 7 = true.
Proof. vm_compute. reflexivity. Qed.

(** a zero input and a zero segment sum are accepted (the zero clauses of the tests) *)
Example demo_trace_ok_zero : l2_trace_ok [0; 1; -1; 0.5]%float 0 3 = true.
Proof. vm_compute. reflexivity. Qed.

(** the checker rejects an overflowing accumulation and an underflowing square *)
Example demo_trace_overflow : l2_trace_ok [0x1p1023; 0x1p1023; 1]%float 0 3 = false.
Proof. vm_compute. reflexivity. Qed.

Example demo_trace_underflow : l2_trace_ok [0x1p-600; 1; 2]%float 0 3 = false.
Proof. vm_compute. reflexivity. Qed.

Example demo_refines :
  FR (l2_cost_F demo_xs 1 7) = l2_cost_float53 (map FR demo_xs) 1 7.
Proof. apply l2_cost_F_refines. exact demo_trace_ok. Qed.

Example demo_value : l2_cost_F demo_xs 1 7 = 122.76302083333334%float.
Proof. vm_compute. reflexivity. Qed.

Print Assumptions FR_add.
Print Assumptions FR_sub.
Print Assumptions FR_mul.
Print Assumptions FR_div.
Print Assumptions FR_of_natF.
Print Assumptions rnd_binary64_is_rnd53.
Print Assumptions rnd_binary64_is_rnd53_plus.
Print Assumptions l2_cost_F_refines.
Print Assumptions l2_cost_F_vs_rss.
Print Assumptions demo_trace_ok.
