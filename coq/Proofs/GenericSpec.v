(** Specification theorems of the three greedy detectors for EVERY instance whose comparison is a
    strict weak order on the values that occur.

    Setting: [N : num] is any instance of Model/Generic.v, [ok : T N -> Prop] a set of admissible
    values (all of Z, all of R, the non-NaN binary64 numbers, ...) containing the zero of the instance,
    and [ltb N] is a strict weak order on [ok] ([swo N ok], Proofs/GenericRank.v).  The theorems
    G08_* / G07_* / G09_* are the theorems C08_* / C07_* / C09_* of Properties/ with [<], [<=] on score
    values replaced by [ltb N] and its negation; they hold for every score table whose entries, at
    the positions the detector reads, are admissible.

    The statements that need no law at all (scores, reversal, only the values at valid cuts matter)
    and the first-maximum property of the per-run and per-interval choices are in
    Proofs/GenericOrder.v.  The selection loops: for a threshold that the zero does not exceed, the
    loops of Model/Generic.v are the loops of Model/GenericAny.v (Proofs/AnyThreshold.v, Part III),
    whose specification holds for every threshold; only [G09_threshold_monotone], which allows
    thresholds of either sign, is proved on the loop of Model/Generic.v itself.  No law about [add], [neg] or [leb] is needed:
    the greedy detectors never use them. *)
From Coq Require Import List Lia Permutation Sorted.
From SK Require Import Lib.Base Model.Mw Model.Sbs Model.Capa Model.Cbs Model.Generic.
From SK Require Import Model.GenericAny.
From SK Require Import Proofs.ArgmaxLemmas Proofs.CbsProofs.
From SK Require Import Proofs.GenericRank Proofs.GenericOrder Proofs.AnyThreshold.
Import ListNotations.

Section NoLaw.
Variable N : num.

Theorem G09_no_inner_candidate : forall LS m s e,
  gbest_inner N LS m (s, e) = None <-> anomaly_intervals s e m = [].
Proof. exact (gbest_inner_none N). Qed.
End NoLaw.

Section Final.
Variable N : num.
Notation V := (T N).
Notation "x <! y" := (ltb N x y) (at level 70).
Variable ok : V -> Prop.
Hypothesis Hswo : swo N ok.
Hypothesis Hok0 : ok (zero N).

(** ---------------- C08: moving window ---------------- *)

(** the changepoints are exactly the first maxima of the maximal above-threshold runs of length
    >= min_detection_interval *)
Theorem G08_changepoints_are_run_peaks : forall scores thr mdi c, Forall ok scores -> ok thr ->
  (In c (gmw_cpts N scores thr mdi) <->
   exists a z, In (a, z) (where_runs (map (fun v => thr <! v) scores)) /\ (mdi <= z - a)%nat /\ (a <= c < z)%nat /\
     (forall i, (a <= i < z)%nat -> nthV N scores c <! nthV N scores i = false) /\
     (forall i, (a <= i < c)%nat -> nthV N scores i <! nthV N scores c = true)).
Proof using Hswo Hok0. intros scores thr mdi c Hs _. exact (gmw_cpts_spec N ok Hswo scores thr mdi c Hs). Qed.

Theorem G08_changepoints_sorted : forall scores thr mdi, Forall ok scores -> ok thr ->
  StronglySorted lt (gmw_cpts N scores thr mdi).
Proof using Hswo Hok0. intros scores thr mdi _ _. apply gmw_cpts_sorted_any. Qed.

Theorem G08_changepoints_above_threshold : forall scores thr mdi c, Forall ok scores -> ok thr ->
  In c (gmw_cpts N scores thr mdi) -> (c < length scores)%nat /\ thr <! nthV N scores c = true.
Proof using Hswo Hok0. intros scores thr mdi c _ _. apply gmw_cpts_above. Qed.

Definition mw_table_ok (CS : nat -> nat -> nat -> V) (b n : nat) : Prop :=
  forall t, (b <= t)%nat -> (t + b <= n)%nat -> ok (CS (t - b)%nat t (t + b)%nat).

Lemma mw_table_scores_ok : forall CS b n, mw_table_ok CS b n -> Forall ok (gmw_scores N CS b n).
Proof. intros CS b n H. apply (gmw_scores_ok N ok Hok0). exact H. Qed.

(** changepoints lie in [b, n-b] (C04) *)
Theorem G08_changepoints_in_range : forall CS b n thr mdi c, mw_table_ok CS b n -> ok thr ->
  thr <! zero N = false -> In c (snd (gmw N CS b n thr mdi)) -> (b <= c /\ c + b <= n)%nat.
Proof using Hswo Hok0. intros CS b n thr mdi c _ _. apply gmw_cpts_in_range. Qed.

(** the run as a whole: scores, peaks, order, range *)
Theorem G08_run : forall CS b n thr mdi scores cpts, mw_table_ok CS b n -> ok thr ->
  gmw N CS b n thr mdi = (scores, cpts) ->
  scores = gmw_scores N CS b n /\ Forall ok scores /\ StronglySorted lt cpts /\
  forall c, In c cpts <->
    exists a z, In (a, z) (where_runs (map (fun v => thr <! v) scores)) /\ (mdi <= z - a)%nat /\ (a <= c < z)%nat /\
      (forall i, (a <= i < z)%nat -> nthV N scores c <! nthV N scores i = false) /\
      (forall i, (a <= i < c)%nat -> nthV N scores i <! nthV N scores c = true).
Proof.
  intros CS b n thr mdi scores cpts Htab Hthr H. unfold gmw in H. inversion H; subst. clear H.
  pose proof (mw_table_scores_ok CS b n Htab) as Hs.
  split; [reflexivity|]. split; [exact Hs|]. split.
  - apply G08_changepoints_sorted; assumption.
  - intros c. apply G08_changepoints_are_run_peaks; assumption.
Qed.

(** ---------------- C07: seeded binary segmentation ---------------- *)

Section SbsRun.
Variables (CS : nat -> nat -> nat -> V) (m n : nat) (thr : V) (ivs : list (nat * nat)).
Hypothesis Htab : sbs_table_ok N ok CS m ivs.
Hypothesis Hokthr : ok thr.
Hypothesis Hthr : thr <! zero N = false.
Hypothesis Hm : (1 <= m)%nat.
Hypothesis Hivs : forall s e, In (s, e) ivs -> (s + 2 * m <= e <= n)%nat.

(** total on every admissible input (C14) *)
Theorem G07_total : exists r, gsbs N CS m thr ivs = Some r.
Proof using Hswo Hok0 Htab Hokthr Hthr Hm Hivs.
  rewrite <- (gsbs_any_agrees N ok Hswo Hok0 thr Hokthr Hthr CS m ivs Htab).
  exact (gsbs_any_total N CS m thr n ivs Hm Hivs).
Qed.

Variables (cpts : list nat) (am : list (nat * V)).
Hypothesis Hrun : gsbs N CS m thr ivs = Some (cpts, am).

Lemma sbs_run_any : gsbs_any N CS m thr ivs = Some (cpts, am).
Proof using Hswo Hok0 Htab Hokthr Hthr Hrun.
  rewrite (gsbs_any_agrees N ok Hswo Hok0 thr Hokthr Hthr CS m ivs Htab). exact Hrun.
Qed.

(** reported score and maximiser of every interval = max and FIRST argmax over admissible splits *)
Theorem G07_interval_scores : length am = length ivs /\
  forall i, (i < length ivs)%nat ->
    let '(s, e) := nth i ivs (0, 0)%nat in let '(k, v) := nth i am (0%nat, zero N) in
    (s + m <= k /\ k + m <= e)%nat /\ v = CS s k e /\
    forall k', (s + m <= k' /\ k' + m <= e)%nat ->
      v <! CS s k' e = false /\ ((k' < k)%nat -> CS s k' e <! v = true).
Proof using Hswo Hok0 Htab Hokthr Hthr Hm Hivs Hrun.
  destruct (gsbs_inv N _ _ _ _ _ _ Hrun) as (A & _). destruct (gamocs_inv N _ _ _ _ A) as [Hl Hn].
  split; [exact Hl|]. intros i Hi. specialize (Hn i (0, 0)%nat (0%nat, zero N) Hi).
  assert (Hin : In (nth i ivs (0, 0)%nat) ivs) by (apply nth_In; exact Hi).
  destruct (nth i ivs (0, 0)%nat) as [s e]. destruct (nth i am (0%nat, zero N)) as [k v].
  apply (gamoc_spec N ok Hswo CS m s e k v); [|exact Hn]. intros k'. apply (Htab s e k' Hin).
Qed.

(** every changepoint is the maximiser of an interval that contains it and scores above the threshold *)
Theorem G07_changepoints_supported : forall c, In c cpts ->
  exists i, (i < length ivs)%nat /\ fst (nth i am (0%nat, zero N)) = c /\
            thr <! snd (nth i am (0%nat, zero N)) = true /\ contains (nth i ivs (0, 0)%nat) c = true.
Proof using Hswo Hok0 Htab Hokthr Hthr Hm Hivs Hrun.
  exact (gsbs_any_supported N ok Hswo CS m n thr ivs Htab Hokthr Hm Hivs cpts am sbs_run_any).
Qed.

(** no above-threshold interval is left without a changepoint inside it *)
Theorem G07_no_interval_left : forall i, (i < length ivs)%nat -> thr <! snd (nth i am (0%nat, zero N)) = true ->
  exists c, In c cpts /\ contains (nth i ivs (0, 0)%nat) c = true.
Proof using Hswo Hok0 Htab Hokthr Hthr Hm Hivs Hrun.
  exact (gsbs_any_no_interval_left N ok Hswo CS m n thr ivs Htab Hokthr Hm Hivs cpts am sbs_run_any).
Qed.

(** changepoints are at least m apart and leave m samples at both ends (C04) *)
Theorem G07_changepoints_wellformed :
  (forall i, (S i < length cpts)%nat -> (nthN cpts i + m <= nthN cpts (S i))%nat) /\
  (forall c, In c cpts -> (m <= c /\ c + m <= n)%nat).
Proof using Hswo Hok0 Htab Hokthr Hthr Hm Hivs Hrun.
  destruct (gsbs_any_wellformed N CS m thr n ivs cpts am Hm Hivs sbs_run_any) as (H1 & H2 & _).
  split; [intros i Hi; apply H1; exact Hi | exact H2].
Qed.

(** raising the threshold can only remove changepoints *)
Theorem G07_threshold_monotone : forall thr' cpts' am', ok thr' -> thr' <! thr = false ->
  gsbs N CS m thr' ivs = Some (cpts', am') -> incl cpts' cpts.
Proof using Hswo Hok0 Htab Hokthr Hthr Hm Hivs Hrun.
  intros thr' cpts' am' Hok' Hle Hrun'.
  assert (Hthr' : thr' <! zero N = false).
  { destruct (thr' <! zero N) eqn:E; [|reflexivity].
    destruct (swo_cotrans N ok Hswo thr' thr (zero N) Hok' Hokthr Hok0 E); congruence. }
  rewrite <- (gsbs_any_agrees N ok Hswo Hok0 thr' Hok' Hthr' CS m ivs Htab) in Hrun'.
  exact (gsbs_any_threshold_monotone N ok Hswo CS m n thr ivs Htab Hokthr Hm Hivs cpts am sbs_run_any
           thr' cpts' am' Hok' Hle Hrun').
Qed.
End SbsRun.

(** ---------------- C09: circular binary segmentation ---------------- *)

(** reported score / inner interval of a candidate = max / a maximiser over its inner candidates *)
Theorem G09_interval_scores : forall LS m s e a z v,
  (forall a z, In (a, z) (anomaly_intervals s e m) -> ok (LS s a z e)) ->
  gbest_inner N LS m (s, e) = Some ((a, z), v) ->
  In (a, z) (anomaly_intervals s e m) /\ v = LS s a z e /\
  forall a' z', In (a', z') (anomaly_intervals s e m) -> v <! LS s a' z' e = false.
Proof using Hswo Hok0.
  intros LS m s e a z v Htab H.
  destruct (gbest_inner_first_max N ok Hswo LS m s e a z v Htab H) as (Hin & Hv & Hmax & _). auto.
Qed.

(** anomalies are sorted, pairwise disjoint, of length >= m, strictly inside the data (C04);
    they are the sorted picks of the greedy loop over the per-interval maximisers *)
Theorem G09_wellformed : forall LS m thr n ivs anoms am,
  cbs_table_ok N ok LS m ivs -> ok thr -> thr <! zero N = false -> (1 <= m)%nat ->
  (forall s e, In (s, e) ivs -> (e <= n)%nat) -> gcbs N LS m thr ivs = Some (anoms, am) ->
  (forall i, (S i < length anoms)%nat ->
      (fst (nthP anoms i) < fst (nthP anoms (S i)) /\ snd (nthP anoms i) <= fst (nthP anoms (S i)))%nat) /\
  (forall a z, In (a, z) anoms -> (1 <= a /\ a + m <= z <= n - 1)%nat) /\
  am = map (ginner_or_zero N LS m) ivs /\
  exists picks, ggreedy_anoms N (length ivs) thr ivs (map fst am) (map snd am) = Some picks /\
                anoms = sort_pairs picks /\ Permutation anoms picks.
Proof using Hswo Hok0.
  intros LS m thr n ivs anoms am Htab Hokthr Hthr Hm Hivs H.
  destruct (gcbs_inv N _ _ _ _ _ _ H) as (Ham & picks & G & Hs).
  rewrite <- (gcbs_any_agrees N ok Hswo Hok0 thr Hokthr Hthr LS m ivs Hm Htab) in H.
  destruct (gcbs_any_wellformed N LS m thr n ivs anoms am Hm Hivs H) as (W1 & W2 & _).
  split; [exact W1|]. split; [exact W2|]. split; [exact Ham|].
  exists picks. split; [exact G|]. split; [exact Hs|]. rewrite Hs. apply sort_pairs_perm.
Qed.

(** standing assumptions of the anomaly selection loop (CbsProofs.anoms_pre over [N]) *)
Definition ganoms_pre (thr : V) (ivs inner : list (nat * nat)) (scores : list V) (n : nat) : Prop :=
  length ivs = n /\ length inner = n /\ length scores = n /\ ltb N thr (zero N) = false /\
  (forall i, (i < n)%nat -> ltb N thr (nthV N scores i) = true -> overlaps (nthP inner i) (nthP ivs i) = true).

(** greedy characterisation of the selection loop, for any three parallel lists *)
Lemma ganoms_pre_idx : forall thr ivs inner sc n0 fuel picks, ok thr -> Forall ok sc ->
  ganoms_pre thr ivs inner sc n0 -> ggreedy_anoms N fuel thr ivs inner sc = Some picks ->
  exists idx, ogreedy N fuel thr (Kcbs ivs inner) (oabove N thr sc) = Some idx /\ picks = map (nthP inner) idx.
Proof using Hswo Hok0.
  intros thr ivs inner sc n0 fuel picks Hthr Hsc (H1 & _ & H3 & H4 & _) H.
  rewrite (ggreedy_anoms_ogreedy N ok Hswo Hok0 thr Hthr H4) in H by (try exact Hsc; lia).
  destruct (ogreedy N fuel thr (Kcbs ivs inner) (oabove N thr sc)) as [idx|]; [|discriminate].
  inversion H. exists idx. split; reflexivity.
Qed.

Theorem G09_picks_supported : forall thr ivs inner sc n0 fuel picks, ok thr -> Forall ok sc ->
  ganoms_pre thr ivs inner sc n0 -> ggreedy_anoms N fuel thr ivs inner sc = Some picks ->
  forall ab, In ab picks -> exists i, (i < n0)%nat /\ nthP inner i = ab /\ thr <! nthV N sc i = true.
Proof using Hswo Hok0.
  intros thr ivs inner sc n0 fuel picks Hthr Hsc Hpre H ab Hab.
  destruct (ganoms_pre_idx _ _ _ _ _ _ _ Hthr Hsc Hpre H) as (idx & G & ->).
  apply in_map_iff in Hab. destruct Hab as (i & <- & Hi).
  apply (ogreedy_supported N _ _ _ _ _ G) in Hi. apply oabove_alive in Hi. destruct Hi as [Hi E].
  destruct Hpre as (_ & _ & H3 & _). exists i. split; [lia|]. split; [reflexivity | exact E].
Qed.

Theorem G09_no_candidate_left : forall thr ivs inner sc n0 fuel picks, ok thr -> Forall ok sc ->
  ganoms_pre thr ivs inner sc n0 -> ggreedy_anoms N fuel thr ivs inner sc = Some picks ->
  forall i, (i < n0)%nat -> thr <! nthV N sc i = true -> exists ab, In ab picks /\ overlaps ab (nthP ivs i) = true.
Proof using Hswo Hok0.
  intros thr ivs inner sc n0 fuel picks Hthr Hsc Hpre H i Hi Hlt.
  destruct (ganoms_pre_idx _ _ _ _ _ _ _ Hthr Hsc Hpre H) as (idx & G & ->).
  destruct Hpre as (_ & _ & H3 & _).
  destruct (ogreedy_complete N _ _ _ _ _ G i (oabove_gabove N thr sc i ltac:(lia) Hlt)) as (i0 & Hin0 & HK).
  exists (nthP inner i0). split; [apply in_map; exact Hin0 | exact HK].
Qed.

(** the sequence of picks does not depend on the threshold; a higher one stops earlier.  No
    condition on the sign of the thresholds, so this one does not go through [ogreedy] (the agreement
    needs a threshold that zero does not exceed): it is an induction on the loop of Model/Generic.v *)
Theorem G09_threshold_monotone : forall thr thr' ivs inner sc fuel fuel' picks picks',
  ok thr -> ok thr' -> Forall ok sc -> length ivs = length sc -> thr' <! thr = false ->
  ggreedy_anoms N fuel thr ivs inner sc = Some picks -> ggreedy_anoms N fuel' thr' ivs inner sc = Some picks' ->
  incl picks' picks.
Proof using Hswo Hok0.
  intros thr thr' ivs inner sc fuel fuel' picks picks' Hthr Hthr' Hsc _ Hle. revert fuel sc picks picks' Hsc.
  induction fuel' as [|f' IH]; intros fuel sc picks picks' Hsc H H'; cbn [ggreedy_anoms] in H';
    destruct (existsb (fun v => thr' <! v) sc) eqn:E'; cbn [negb] in H';
    try (inversion H'; apply incl_nil_l); try discriminate.
  assert (E : existsb (fun v => thr <! v) sc = true).
  { apply existsb_exists in E'. destruct E' as (x & Hx & Hlt). apply existsb_exists. exists x. split; [exact Hx|].
    rewrite Forall_forall in Hsc.
    destruct (swo_cotrans N ok Hswo thr' thr x Hthr' Hthr (Hsc x Hx) Hlt); congruence. }
  destruct fuel as [|f]; cbn [ggreedy_anoms] in H; rewrite E in H; cbn [negb] in H; [discriminate|].
  destruct (gargmax N sc) as [[i v]|]; [|inversion H'; apply incl_nil_l].
  set (sc' := map _ (combine ivs sc)) in *.
  destruct (ggreedy_anoms N f thr ivs inner sc') as [r|] eqn:G; [|discriminate].
  destruct (ggreedy_anoms N f' thr' ivs inner sc') as [r'|] eqn:G'; [|discriminate].
  inversion H; inversion H'; subst picks picks'.
  pose proof (IH f sc' r r' (kill_ok N ok Hok0 _ ivs sc Hsc) G G') as Hincl.
  intros x [<- | Hx]; [left; reflexivity | right; apply Hincl; exact Hx].
Qed.

(** the standing assumptions of the selection loop hold for the table of a run: every candidate
    scoring above a non-negative threshold has an inner interval, which overlaps it *)
Theorem G09_run_pre : forall LS m thr ivs, cbs_table_ok N ok LS m ivs -> ok thr -> thr <! zero N = false ->
  let am := map (ginner_or_zero N LS m) ivs in
  Forall ok (map snd am) /\ ganoms_pre thr ivs (map fst am) (map snd am) (length ivs).
Proof.
  intros LS m thr ivs Htab Hokthr Hthr am.
  assert (Hsc : Forall ok (map snd am)) by (apply (gcbs_scores_ok N ok Hok0); exact Htab).
  split; [exact Hsc|].
  unfold ganoms_pre, am. rewrite !map_length.
  split; [reflexivity|]. split; [reflexivity|]. split; [reflexivity|]. split; [exact Hthr|].
  intros i Hi Hlt. unfold nthV, nthP in *.
  rewrite (nth_map_lt snd _ i ((0, 0)%nat, zero N)) in Hlt by (rewrite map_length; exact Hi).
  rewrite (nth_map_lt fst _ i ((0, 0)%nat, zero N)) by (rewrite map_length; exact Hi).
  rewrite (nth_map_lt (ginner_or_zero N LS m) ivs i (0, 0)%nat) in * by exact Hi.
  destruct (nth i ivs (0, 0)%nat) as [s e]. unfold ginner_or_zero in *.
  destruct (gbest_inner N LS m (s, e)) as [[[a z] v]|] eqn:B; cbn [fst snd] in *.
  - apply gbest_inner_inv in B. destruct B as [B _]. apply anomaly_intervals_spec in B.
    apply overlaps_iff. cbn [fst snd]. lia.
  - rewrite Hthr in Hlt. discriminate.
Qed.

(** total on every admissible input (C14) *)
Theorem G09_total : forall LS m thr ivs, cbs_table_ok N ok LS m ivs -> ok thr -> thr <! zero N = false ->
  exists r, gcbs N LS m thr ivs = Some r.
Proof using Hswo Hok0.
  intros LS m thr ivs Htab Hokthr Hthr. unfold gcbs. cbv zeta.
  destruct (G09_run_pre LS m thr ivs Htab Hokthr Hthr) as [Hsc (H1 & H2 & H3 & _ & Hov)].
  rewrite (ggreedy_anoms_ogreedy N ok Hswo Hok0 thr Hokthr Hthr) by (try exact Hsc; lia).
  destruct (ogreedy_terminates N thr (Kcbs ivs (map fst (map (ginner_or_zero N LS m) ivs))) (length ivs)
              (oabove N thr (map snd (map (ginner_or_zero N LS m) ivs)))) as (p & -> & _).
  - intros i Hi. apply oabove_alive in Hi. destruct Hi as [Hi E]. rewrite !map_length in Hi.
    apply Hov; [exact Hi | exact E].
  - set (osc := oabove N thr (map snd (map (ginner_or_zero N LS m) ivs))).
    pose proof (ocount_le_length N osc) as L.
    assert (Hl : length osc = length ivs) by (unfold osc, oabove; rewrite !map_length; reflexivity). lia.
  - cbn [option_map]. eauto.
Qed.

(** on the run itself: every reported anomaly is the inner interval of a candidate scoring above the
    threshold; no above-threshold candidate is left without an overlapping anomaly *)
Theorem G09_anomalies_supported_and_complete : forall LS m thr ivs anoms am,
  cbs_table_ok N ok LS m ivs -> ok thr -> thr <! zero N = false ->
  gcbs N LS m thr ivs = Some (anoms, am) ->
  (forall ab, In ab anoms -> exists i, (i < length ivs)%nat /\ fst (nth i am ((0, 0)%nat, zero N)) = ab /\
                                       thr <! snd (nth i am ((0, 0)%nat, zero N)) = true) /\
  (forall i, (i < length ivs)%nat -> thr <! snd (nth i am ((0, 0)%nat, zero N)) = true ->
             exists ab, In ab anoms /\ overlaps ab (nthP ivs i) = true).
Proof.
  intros LS m thr ivs anoms am Htab Hokthr Hthr H.
  destruct (gcbs_inv N _ _ _ _ _ _ H) as (Ham & picks & G & Hs).
  pose proof (G09_run_pre LS m thr ivs Htab Hokthr Hthr) as Hp. cbv zeta in Hp. rewrite <- Ham in Hp.
  destruct Hp as [Hsc Hpre]. pose proof (sort_pairs_perm picks) as P.
  assert (Efst : forall i, nthP (map fst am) i = fst (nth i am ((0, 0)%nat, zero N))).
  { intros i. unfold nthP. change (0, 0)%nat with (fst ((0, 0)%nat, zero N)) at 1. apply map_nth. }
  assert (Esnd : forall i, nthV N (map snd am) i = snd (nth i am ((0, 0)%nat, zero N))).
  { intros i. unfold nthV. change (zero N) with (snd ((0, 0)%nat, zero N)) at 1. apply map_nth. }
  split.
  - intros ab Hab. rewrite Hs in Hab. apply (Permutation_in _ P) in Hab.
    destruct (G09_picks_supported _ _ _ _ _ _ _ Hokthr Hsc Hpre G ab Hab) as (i & Hi & H1 & H2).
    exists i. rewrite <- Efst, <- Esnd. split; [exact Hi|]. split; assumption.
  - intros i Hi Hlt. rewrite <- Esnd in Hlt.
    destruct (G09_no_candidate_left _ _ _ _ _ _ _ Hokthr Hsc Hpre G i Hi Hlt) as (ab & Hab & Hov).
    exists ab. split; [|exact Hov]. rewrite Hs. apply (Permutation_in _ (Permutation_sym P)). exact Hab.
Qed.

End Final.

Print Assumptions G08_scores.
Print Assumptions G08_reversal.
Print Assumptions G08_only_valid_cuts_matter.
Print Assumptions G08_changepoints_are_run_peaks.
Print Assumptions G08_changepoints_sorted.
Print Assumptions G08_changepoints_above_threshold.
Print Assumptions G08_changepoints_in_range.
Print Assumptions G08_run.
Print Assumptions G07_total.
Print Assumptions G07_interval_scores.
Print Assumptions G07_changepoints_supported.
Print Assumptions G07_no_interval_left.
Print Assumptions G07_changepoints_wellformed.
Print Assumptions G07_threshold_monotone.
Print Assumptions G07_only_valid_cuts_matter.
Print Assumptions G09_interval_scores.
Print Assumptions G09_no_inner_candidate.
Print Assumptions G09_wellformed.
Print Assumptions G09_total.
Print Assumptions G09_picks_supported.
Print Assumptions G09_no_candidate_left.
Print Assumptions G09_threshold_monotone.
Print Assumptions G09_run_pre.
Print Assumptions G09_anomalies_supported_and_complete.
Print Assumptions G09_only_valid_cuts_matter.
