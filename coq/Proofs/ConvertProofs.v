(** The sparse <-> dense converters of Model/Convert.v: what label each position gets,
    what dense_to_sparse returns on arbitrary labels, and the round trips, for the
    change-detector, collective-anomaly and subset-anomaly converters.  The round trips
    go through a decomposition of the dense labels into constant blocks.  A collective
    dense_to_sparse that does not compare labels is shown to merge adjacent intervals. *)
From Coq Require Import List Lia Bool Arith Permutation Sorted.
From SK Require Import Lib.Base Model.Convert Proofs.ListFacts.
Import ListNotations.
Close Scope Z_scope.
Open Scope nat_scope.

(** * assign *)

Lemma assign_length : forall (A : Type) (l : list A) a b v,
  length (assign l a b v) = length l.
Proof. intros A l a b v. apply map_combine_seq_length. Qed.

Lemma nth_assign : forall (A : Type) (l : list A) a b v d i,
  i < length l ->
  nth i (assign l a b v) d = if (a <=? i) && (i <? b) then v else nth i l d.
Proof.
  intros A l a b v d i Hi. unfold assign.
  rewrite (nth_map_combine_seq _ _ _ l 0 i d d) by exact Hi. reflexivity.
Qed.

(** * Change detectors *)

Fixpoint incr_from (lo : nat) (cpts : list nat) (n : nat) : Prop :=
  match cpts with
  | [] => True
  | c :: t => lo < c /\ c < n /\ incr_from c t n
  end.
Definition cpts_ok (n : nat) (cpts : list nat) : Prop := incr_from 0 cpts n.

Lemma incr_from_In : forall cpts lo n c,
  incr_from lo cpts n -> In c cpts -> lo < c /\ c < n.
Proof.
  induction cpts as [|x t IH]; intros lo n c H Hin.
  - destruct Hin.
  - destruct H as [H1 [H2 H3]]. destruct Hin as [Heq | Hin].
    + subst. lia.
    + destruct (IH x n c H3 Hin). lia.
Qed.

Lemma incr_from_weaken : forall cpts lo lo' n,
  incr_from lo cpts n -> lo' <= lo -> incr_from lo' cpts n.
Proof.
  intros cpts lo lo' n H Hle. destruct cpts as [|x t].
  - exact I.
  - destruct H as [H1 [H2 H3]]. simpl. repeat split; try lia. exact H3.
Qed.

Lemma incr_from_filter_nil : forall cpts lo n i,
  incr_from lo cpts n -> i <= lo -> filter (fun c => c <=? i) cpts = [].
Proof.
  intros cpts lo n i H Hi. apply filter_all_false. intros c Hc.
  destruct (incr_from_In _ _ _ _ H Hc) as [H1 _]. apply Nat.leb_gt. lia.
Qed.

Lemma cd_fill_length : forall cpts l prev n k,
  length (cd_fill l prev cpts n k) = length l.
Proof.
  induction cpts as [|c t IH]; intros l prev n k; simpl.
  - apply assign_length.
  - rewrite IH. apply assign_length.
Qed.

Theorem cd_s2d_length : forall n cpts, length (cd_s2d n cpts) = n.
Proof.
  intros n cpts. unfold cd_s2d. rewrite cd_fill_length. apply repeat_length.
Qed.

Lemma cd_fill_nth : forall cpts l prev n k i,
  length l = n -> incr_from prev cpts n -> i < n ->
  nth i (cd_fill l prev cpts n k) 0 =
  if i <? prev then nth i l 0 else k + length (filter (fun c => c <=? i) cpts).
Proof.
  induction cpts as [|c t IH]; intros l prev n k i Hlen Hok Hi; cbn [cd_fill filter].
  - rewrite nth_assign by lia. destruct (Nat.ltb_spec i prev) as [Hlt | Hge].
    + rewrite range_test_false by lia. reflexivity.
    + rewrite (proj2 (range_test_iff prev n i)) by lia. cbn. lia.
  - destruct Hok as [H1 [H2 H3]].
    rewrite IH; [ | rewrite assign_length; exact Hlen | exact H3 | exact Hi ].
    rewrite nth_assign by lia. destruct (Nat.ltb_spec i prev) as [Hlt | Hge].
    + rewrite range_test_false, (proj2 (Nat.ltb_lt i c)) by lia. reflexivity.
    + destruct (Nat.lt_ge_cases i c) as [Hic | Hci].
      * rewrite (proj2 (range_test_iff prev c i)), (proj2 (Nat.ltb_lt i c)), (proj2 (Nat.leb_gt c i)),
          (incr_from_filter_nil t c n i H3) by lia. cbn. lia.
      * rewrite (proj2 (Nat.ltb_ge i c)), (proj2 (Nat.leb_le c i)) by lia. cbn [length]. lia.
Qed.

Theorem cd_s2d_label : forall n cpts i,
  cpts_ok n cpts -> i < n ->
  nth i (cd_s2d n cpts) 0 = length (filter (fun c => c <=? i) cpts).
Proof.
  intros n cpts i Hok Hi. unfold cd_s2d.
  rewrite cd_fill_nth; [ | apply repeat_length | exact Hok | exact Hi ].
  reflexivity.
Qed.

(** ** Block decomposition of the dense labels *)
Fixpoint cd_blocks (prev : nat) (cpts : list nat) (n k : nat) : list nat :=
  match cpts with
  | [] => repeat k (n - prev)
  | c :: t => repeat k (c - prev) ++ cd_blocks c t n (S k)
  end.

Lemma cd_map_blocks : forall cpts prev n k,
  incr_from prev cpts n -> prev <= n ->
  map (fun i => k + length (filter (fun c => c <=? i) cpts)) (seq prev (n - prev)) =
  cd_blocks prev cpts n k.
Proof.
  induction cpts as [|c t IH]; intros prev n k Hok Hle; cbn [cd_blocks].
  - apply map_seq_const. intros i _. cbn. lia.
  - destruct Hok as [H1 [H2 H3]]. rewrite (seq_split prev c n), map_app by lia. f_equal.
    + apply map_seq_const. intros i Hi. cbn [filter].
      rewrite (proj2 (Nat.leb_gt c i)), (incr_from_filter_nil t c n i H3) by lia. cbn. lia.
    + rewrite <- (IH c n (S k) H3) by lia. apply map_ext_in.
      intros i Hi. apply in_seq in Hi. cbn [filter].
      rewrite (proj2 (Nat.leb_le c i)) by lia. cbn [length]. lia.
Qed.

Lemma cd_s2d_blocks : forall n cpts, cpts_ok n cpts -> cd_s2d n cpts = cd_blocks 0 cpts n 0.
Proof.
  intros n cpts Hok. rewrite <- (cd_map_blocks cpts 0 n 0 Hok), Nat.sub_0_r by lia.
  apply nth_ext with (d := 0) (d' := 0).
  - rewrite cd_s2d_length, map_length, seq_length. reflexivity.
  - intros i Hi. rewrite cd_s2d_length in Hi.
    rewrite cd_s2d_label, nth_map_seq by assumption. reflexivity.
Qed.

Lemma cd_d2s_from_skip : forall m i k R,
  cd_d2s_from i k (repeat k m ++ R) = cd_d2s_from (i + m) k R.
Proof.
  induction m as [|m IH]; intros i k R.
  - simpl. rewrite Nat.add_0_r. reflexivity.
  - simpl. rewrite Nat.eqb_refl. rewrite IH. f_equal. lia.
Qed.

Lemma cd_d2s_from_head : forall R c k x,
  hd_error R = Some x -> x <> k -> cd_d2s_from c k R = c :: cd_d2s_from c x R.
Proof.
  intros R c k x Hhd Hne. destruct R as [|y R]; simpl in Hhd.
  - discriminate.
  - inversion Hhd; subst y. simpl.
    rewrite Nat.eqb_refl. apply Nat.eqb_neq in Hne. rewrite Hne. reflexivity.
Qed.

Lemma cd_blocks_hd : forall t c n k,
  incr_from c t n -> c < n -> hd_error (cd_blocks c t n k) = Some k.
Proof.
  intros t c n k Hok Hlt. destruct t as [|c' t]; simpl.
  - destruct (n - c) eqn:E; [lia | reflexivity].
  - destruct Hok as [H1 _]. destruct (c' - c) eqn:E; [lia | reflexivity].
Qed.

Lemma cd_d2s_from_blocks : forall cpts prev n k,
  incr_from prev cpts n -> cd_d2s_from prev k (cd_blocks prev cpts n k) = cpts.
Proof.
  induction cpts as [|c t IH]; intros prev n k Hok; simpl cd_blocks.
  - rewrite <- (app_nil_r (repeat k (n - prev))). rewrite cd_d2s_from_skip. reflexivity.
  - destruct Hok as [H1 [H2 H3]]. rewrite cd_d2s_from_skip.
    replace (prev + (c - prev)) with c by lia.
    rewrite (cd_d2s_from_head (cd_blocks c t n (S k)) c k (S k)).
    + rewrite IH by exact H3. reflexivity.
    + apply cd_blocks_hd; assumption.
    + lia.
Qed.

Lemma cd_d2s_eq : forall L, cd_d2s L = cd_d2s_from 0 (hd 0 L) L.
Proof.
  intros L. destruct L as [|x t]; simpl.
  - reflexivity.
  - rewrite Nat.eqb_refl. reflexivity.
Qed.

Theorem cd_roundtrip : forall n cpts, cpts_ok n cpts -> cd_d2s (cd_s2d n cpts) = cpts.
Proof.
  intros n cpts Hok. rewrite cd_s2d_blocks by exact Hok. rewrite cd_d2s_eq.
  assert (Hhd : hd 0 (cd_blocks 0 cpts n 0) = 0).
  { destruct cpts as [|c t]; simpl.
    - destruct (n - 0); reflexivity.
    - destruct Hok as [H1 _]. destruct (c - 0) eqn:E; [lia | reflexivity]. }
  rewrite Hhd. apply cd_d2s_from_blocks. exact Hok.
Qed.

(** ** Specification of cd_d2s on arbitrary label lists *)
Lemma cd_d2s_from_In : forall l i prev j,
  In j (cd_d2s_from i prev l) <->
  exists m, j = i + m /\ m < length l /\ nth (S m) (prev :: l) 0 <> nth m (prev :: l) 0.
Proof.
  induction l as [|x t IH]; intros i prev j.
  - simpl. split; [intros [] | intros [m [_ [H _]]]; lia].
  - simpl cd_d2s_from. destruct (Nat.eqb_spec x prev) as [Heq | Hne].
    + rewrite IH. split.
      * intros [m [H1 [H2 H3]]]. exists (S m). split; [lia|]. split; [simpl; lia|]. exact H3.
      * intros [m [H1 [H2 H3]]]. destruct m as [|m].
        -- simpl in H3. congruence.
        -- exists m. split; [lia|]. split; [simpl in H2; lia|]. exact H3.
    + simpl In. rewrite IH. split.
      * intros [Hj | [m [H1 [H2 H3]]]].
        -- exists 0. split; [lia|]. split; [simpl; lia|]. simpl. exact Hne.
        -- exists (S m). split; [lia|]. split; [simpl; lia|]. exact H3.
      * intros [m [H1 [H2 H3]]]. destruct m as [|m].
        -- left. lia.
        -- right. exists m. split; [lia|]. split; [simpl in H2; lia|]. exact H3.
Qed.

Theorem cd_d2s_spec : forall labels i,
  In i (cd_d2s labels) <->
  1 <= i < length labels /\ nth i labels 0 <> nth (i - 1) labels 0.
Proof.
  intros labels i. destruct labels as [|x t].
  - simpl. split; [intros [] | intros [H _]; lia].
  - unfold cd_d2s. rewrite cd_d2s_from_In. split.
    + intros [m [H1 [H2 H3]]]. subst i. split; [simpl; lia|].
      replace (1 + m - 1) with m by lia. exact H3.
    + intros [[H1 H2] H3]. exists (i - 1). split; [lia|]. split; [simpl in H2; lia|].
      replace (S (i - 1)) with i by lia. exact H3.
Qed.

Lemma cd_d2s_from_incr : forall l i prev lo,
  lo < i -> incr_from lo (cd_d2s_from i prev l) (i + length l).
Proof.
  induction l as [|x t IH]; intros i prev lo Hlo; simpl cd_d2s_from.
  - exact I.
  - simpl length. replace (i + S (length t)) with (S i + length t) by lia.
    destruct (x =? prev).
    + apply IH. lia.
    + simpl. split; [exact Hlo|]. split; [lia|]. apply IH. lia.
Qed.

Theorem cd_d2s_ok : forall labels, cpts_ok (length labels) (cd_d2s labels).
Proof.
  intros labels. destruct labels as [|x t].
  - exact I.
  - unfold cpts_ok, cd_d2s. simpl length.
    replace (S (length t)) with (1 + length t) by lia.
    apply cd_d2s_from_incr. lia.
Qed.

Lemma incr_from_sorted : forall cpts lo n, incr_from lo cpts n -> StronglySorted lt (lo :: cpts).
Proof.
  induction cpts as [|c t IH]; intros lo n H.
  - constructor; constructor.
  - destruct H as [H1 [H2 H3]]. pose proof (IH c n H3) as Hs.
    constructor.
    + exact Hs.
    + constructor; [exact H1|]. inversion Hs as [|? ? _ Hall]; subst.
      eapply Forall_impl; [|exact Hall]. intros a Ha. simpl in Ha. lia.
Qed.

Theorem cd_d2s_increasing : forall labels, StronglySorted lt (cd_d2s labels).
Proof.
  intros labels. pose proof (incr_from_sorted _ _ _ (cd_d2s_ok labels)) as H.
  inversion H; assumption.
Qed.

(** * Collective anomalies *)

Fixpoint ivs_from (lo : nat) (ivs : list (nat * nat)) (n : nat) : Prop :=
  match ivs with
  | [] => lo <= n
  | (s, e) :: t => lo <= s /\ s < e /\ e <= n /\ ivs_from e t n
  end.
Definition ivs_ok (n : nat) (ivs : list (nat * nat)) : Prop := ivs_from 0 ivs n.

Lemma ivs_from_le : forall ivs lo n, ivs_from lo ivs n -> lo <= n.
Proof.
  intros ivs lo n H. destruct ivs as [|[s e] t]; simpl in H; lia.
Qed.

Lemma ivs_from_In : forall ivs lo n s e,
  ivs_from lo ivs n -> In (s, e) ivs -> lo <= s /\ s < e /\ e <= n.
Proof.
  induction ivs as [|[s0 e0] t IH]; intros lo n s e H Hin.
  - destruct Hin.
  - destruct H as [H1 [H2 [H3 H4]]]. destruct Hin as [Heq | Hin].
    + inversion Heq; subst. lia.
    + destruct (IH e0 n s e H4 Hin). lia.
Qed.

Theorem ca_s2d_length : forall n ivs, length (ca_s2d n ivs) = n.
Proof.
  intros n ivs. unfold ca_s2d. rewrite map_length. apply seq_length.
Qed.

Lemma ca_s2d_nth : forall n ivs i, i < n -> nth i (ca_s2d n ivs) 0 = find_iv i ivs 1.
Proof.
  intros n ivs i Hi. unfold ca_s2d. rewrite nth_map_seq by exact Hi. reflexivity.
Qed.

(** the interval test of [find_iv] *)
Definition in_iv (i : nat) (se : nat * nat) : bool := (fst se <=? i) && (i <? snd se).

Lemma in_iv_iff : forall i s e, in_iv i (s, e) = true <-> s <= i < e.
Proof. intros i s e. apply (range_test_iff s e i). Qed.

Lemma in_iv_false : forall i s e, e <= i \/ i < s -> in_iv i (s, e) = false.
Proof. intros i s e H. apply (range_test_false s e i). lia. Qed.

(** in a sorted disjoint chain the intervals listed before one that starts at or
    below [i] end at or below [i] *)
Lemma ivs_from_earlier : forall ivs lo n k s e i,
  ivs_from lo ivs n -> nth_error ivs k = Some (s, e) -> s <= i ->
  forall j se, j < k -> nth_error ivs j = Some se -> in_iv i se = false.
Proof.
  induction ivs as [|[s0 e0] t IH]; intros lo n k s e i H Hk Hs j se Hj Hse.
  - destruct k; discriminate.
  - destruct H as [_ [_ [_ H4]]]. destruct k as [|k]; [lia|]. cbn [nth_error] in Hk.
    destruct j as [|j]; cbn [nth_error] in Hse.
    + inversion Hse. apply in_iv_false. left.
      pose proof (ivs_from_In _ _ _ _ _ H4 (nth_error_In _ _ Hk)). lia.
    + apply (IH e0 n k s e i H4 Hk Hs j se); [lia | exact Hse].
Qed.

Lemma ivs_from_later : forall ivs lo n i se,
  ivs_from lo ivs n -> i < lo -> In se ivs -> in_iv i se = false.
Proof.
  intros ivs lo n i [s e] H Hi Hin. apply in_iv_false. right.
  pose proof (ivs_from_In _ _ _ _ _ H Hin). lia.
Qed.

Lemma find_iv_first : forall i ivs k,
  find_iv i ivs k = match find_first (in_iv i) ivs with Some m => k + m | None => 0 end.
Proof.
  intros i. induction ivs as [|[s e] t IH]; intros k; cbn [find_iv find_first].
  - reflexivity.
  - change ((s <=? i) && (i <? e)) with (in_iv i (s, e)).
    destruct (in_iv i (s, e)); [lia|]. rewrite IH.
    destruct (find_first (in_iv i) t); cbn [option_map]; lia.
Qed.

Lemma find_iv_before : forall ivs lo n i k,
  ivs_from lo ivs n -> i < lo -> find_iv i ivs k = 0.
Proof.
  intros ivs lo n i k H Hi. rewrite find_iv_first, find_first_miss; [reflexivity|].
  intros se. apply (ivs_from_later ivs lo n i se H Hi).
Qed.

Theorem ca_s2d_label : forall n ivs i,
  ivs_ok n ivs -> i < n ->
  (forall k s e, nth_error ivs k = Some (s, e) -> s <= i < e ->
     nth i (ca_s2d n ivs) 0 = S k) /\
  ((forall s e, In (s, e) ivs -> ~ (s <= i < e)) -> nth i (ca_s2d n ivs) 0 = 0).
Proof.
  intros n ivs i Hok Hi. rewrite ca_s2d_nth, find_iv_first by exact Hi. split.
  - intros k s e Hnth Hin.
    rewrite (find_first_hit _ _ ivs k (s, e) Hnth); [reflexivity | apply in_iv_iff; exact Hin |].
    apply (ivs_from_earlier ivs 0 n k s e i Hok Hnth). lia.
  - intros H. rewrite find_first_miss; [reflexivity|].
    intros [s e] Hin. apply not_true_iff_false. intros Hc.
    apply in_iv_iff in Hc. exact (H s e Hin Hc).
Qed.

(** ** Block decomposition *)
Fixpoint ca_blocks (lo : nat) (ivs : list (nat * nat)) (n k : nat) : list nat :=
  match ivs with
  | [] => repeat 0 (n - lo)
  | (s, e) :: t => repeat 0 (s - lo) ++ repeat k (e - s) ++ ca_blocks e t n (S k)
  end.

Lemma ca_map_blocks : forall ivs lo n k,
  ivs_from lo ivs n ->
  map (fun i => find_iv i ivs k) (seq lo (n - lo)) = ca_blocks lo ivs n k.
Proof.
  induction ivs as [|[s e] t IH]; intros lo n k H.
  - apply map_seq_const. reflexivity.
  - pose proof H as [H1 [H2 [H3 H4]]]. cbn [ca_blocks].
    rewrite (seq_split lo s n), (seq_split s e n), !map_app by lia.
    f_equal; [ | f_equal ].
    + apply map_seq_const. intros i Hi.
      apply (find_iv_before _ s n); [split; [lia | tauto] | lia].
    + apply map_seq_const. intros i Hi. cbn [find_iv].
      rewrite (proj2 (range_test_iff s e i)) by lia. reflexivity.
    + rewrite <- (IH e n (S k) H4). apply map_ext_in.
      intros i Hi. apply in_seq in Hi. cbn [find_iv].
      rewrite range_test_false by lia. reflexivity.
Qed.

Lemma ca_s2d_blocks : forall n ivs, ivs_ok n ivs -> ca_s2d n ivs = ca_blocks 0 ivs n 1.
Proof.
  intros n ivs Hok. unfold ca_s2d. rewrite <- (ca_map_blocks ivs 0 n 1 Hok).
  rewrite Nat.sub_0_r. reflexivity.
Qed.

Lemma ca_runs_zeros : forall m i R,
  ca_runs i None (repeat 0 m ++ R) = ca_runs (i + m) None R.
Proof.
  induction m as [|m IH]; intros i R.
  - simpl. rewrite Nat.add_0_r. reflexivity.
  - simpl. rewrite IH. f_equal. lia.
Qed.

Lemma ca_runs_same : forall m i s k R,
  ca_runs i (Some (s, k)) (repeat k m ++ R) = ca_runs (i + m) (Some (s, k)) R.
Proof.
  induction m as [|m IH]; intros i s k R.
  - simpl. rewrite Nat.add_0_r. reflexivity.
  - simpl. rewrite Nat.eqb_refl. rewrite IH. f_equal. lia.
Qed.

Lemma ca_runs_open : forall s e k R,
  s < e -> 0 < k ->
  ca_runs s None (repeat k (e - s) ++ R) = ca_runs e (Some (s, k)) R.
Proof.
  intros s e k R Hse Hk. destruct (e - s) as [|m] eqn:E; [lia|].
  simpl. replace (0 <? k) with true by (symmetry; apply Nat.ltb_lt; lia).
  rewrite ca_runs_same. f_equal. lia.
Qed.

(** an open run ends where the next label differs from its own, whatever that label is *)
Lemma ca_runs_close : forall i s0 k0 l,
  hd_error l <> Some k0 ->
  ca_runs i (Some (s0, k0)) l = (s0, i) :: ca_runs i None l.
Proof.
  intros i s0 k0 [|x t] Hhd.
  - reflexivity.
  - cbn [ca_runs]. replace (x =? k0) with false.
    + destruct (0 <? x); reflexivity.
    + symmetry. apply Nat.eqb_neq. intros ->. apply Hhd. reflexivity.
Qed.

Lemma ca_blocks_hd : forall ivs lo n k x,
  ivs_from lo ivs n -> hd_error (ca_blocks lo ivs n k) = Some x -> x = 0 \/ x = k.
Proof.
  intros [|[s e] t] lo n k x H; cbn [ca_blocks].
  - destruct (n - lo); cbn; intros Hx; [discriminate | injection Hx as <-; left; reflexivity].
  - destruct H as [_ [Hse _]].
    destruct (s - lo); cbn; [|intros Hx; injection Hx as <-; left; reflexivity].
    destruct (e - s) eqn:E; [lia|]. cbn. intros Hx. injection Hx as <-. right. reflexivity.
Qed.

(** so the run opened for the block of label [k] closes at the block's end: what follows
    starts with [0] or [S k] *)
Lemma ca_runs_blocks : forall ivs lo n k,
  ivs_from lo ivs n -> 0 < k -> ca_runs lo None (ca_blocks lo ivs n k) = ivs.
Proof.
  induction ivs as [|[s e] t IH]; intros lo n k H Hk; cbn [ca_blocks].
  - rewrite <- (app_nil_r (repeat 0 (n - lo))), ca_runs_zeros. reflexivity.
  - destruct H as [H1 [H2 [H3 H4]]].
    rewrite ca_runs_zeros. replace (lo + (s - lo)) with s by lia.
    rewrite ca_runs_open by lia. rewrite ca_runs_close.
    + rewrite (IH e n (S k) H4) by lia. reflexivity.
    + intros Hhd. destruct (ca_blocks_hd _ _ _ _ _ H4 Hhd); lia.
Qed.

Theorem ca_roundtrip : forall n ivs, ivs_ok n ivs -> ca_d2s (ca_s2d n ivs) = ivs.
Proof.
  intros n ivs Hok. rewrite ca_s2d_blocks by exact Hok. unfold ca_d2s.
  apply (ca_runs_blocks ivs 0 n 1); [exact Hok | lia].
Qed.

(** ** ca_d2s on arbitrary labels returns a well-formed interval list *)
Lemma ca_runs_ok : forall l i cur lo,
  (match cur with None => lo <= i | Some (s, _) => lo <= s /\ s < i end) ->
  ivs_from lo (ca_runs i cur l) (i + length l).
Proof.
  induction l as [|x t IH]; intros i cur lo Hcur.
  - simpl. destruct cur as [[s lab]|]; simpl; lia.
  - simpl length. replace (i + S (length t)) with (S i + length t) by lia.
    simpl ca_runs. destruct cur as [[s lab]|].
    + destruct (x =? lab).
      * apply IH. lia.
      * destruct (0 <? x); simpl; (split; [lia|]; split; [lia|]; split; [lia|]); apply IH; lia.
    + destruct (0 <? x); apply IH; lia.
Qed.

Theorem ca_d2s_spec : forall labels, ivs_ok (length labels) (ca_d2s labels).
Proof.
  intros labels. unfold ivs_ok, ca_d2s.
  apply (ca_runs_ok labels 0 None 0). lia.
Qed.

(** ** ca_d2s returns exactly the maximal runs of one positive label *)
Definition run_ok (L : list nat) (s e : nat) : Prop :=
  s < e <= length L /\
  exists lab, 0 < lab /\ (forall m, s <= m < e -> nth m L 0 = lab) /\
              (s = 0 \/ nth (s - 1) L 0 <> lab) /\
              (e = length L \/ nth e L 0 <> lab).

Definition ca_state_ok (L : list nat) (i : nat) (cur : option (nat * nat)) : Prop :=
  match cur with
  | None => i = 0 \/ nth (i - 1) L 0 = 0
  | Some (s, lab) => s < i /\ 0 < lab /\ (forall m, s <= m < i -> nth m L 0 = lab) /\
                     (s = 0 \/ nth (s - 1) L 0 <> lab)
  end.

Lemma skipn_cons_inv : forall (L : list nat) i x t,
  skipn i L = x :: t -> i < length L /\ nth i L 0 = x /\ skipn (S i) L = t.
Proof.
  induction L as [|a L' IH]; intros i x t H.
  - destruct i; discriminate.
  - destruct i as [|i].
    + simpl in H. inversion H; subst. simpl. split; [lia|]. split; reflexivity.
    + simpl in H. destruct (IH i x t H) as [H1 [H2 H3]].
      split; [simpl; lia|]. split; [exact H2 | exact H3].
Qed.

Lemma ca_state_close : forall L i s0 lab,
  ca_state_ok L i (Some (s0, lab)) -> i <= length L -> i = length L \/ nth i L 0 <> lab ->
  run_ok L s0 i.
Proof.
  intros L i s0 lab [Hs0 [Hlab [Hall Hstart]]] Hi Hend.
  split; [lia|]. exists lab. repeat split; assumption.
Qed.

(** the state after reading position [i] when no run is continued *)
Lemma ca_state_fresh : forall L i,
  (0 < nth i L 0 -> i = 0 \/ nth (i - 1) L 0 <> nth i L 0) ->
  ca_state_ok L (S i) (if 0 <? nth i L 0 then Some (i, nth i L 0) else None).
Proof.
  intros L i Hprev. destruct (Nat.ltb_spec 0 (nth i L 0)) as [Hx | Hx].
  - split; [lia|]. split; [exact Hx|]. split; [|exact (Hprev Hx)].
    intros m Hm. replace m with i by lia. reflexivity.
  - right. replace (S i - 1) with i by lia. lia.
Qed.

Lemma ca_runs_run_ok : forall L l i cur,
  skipn i L = l -> ca_state_ok L i cur ->
  forall s e, In (s, e) (ca_runs i cur l) -> run_ok L s e.
Proof.
  intros L. induction l as [|x t IH]; intros i cur Hsk Hst s e Hin.
  - assert (Hlen : length L <= i).
    { pose proof (skipn_length i L) as Hl. rewrite Hsk in Hl. simpl in Hl. lia. }
    destruct cur as [[s0 lab]|]; simpl in Hin; [|destruct Hin].
    destruct Hin as [Heq | []]. inversion Heq; subst s0 e.
    assert (Hi : i <= length L).
    { destruct (Nat.le_gt_cases i (length L)) as [Hle | Hgt]; [exact Hle|].
      destruct Hst as [Hs0 [Hlab [Hall _]]]. pose proof (Hall (i - 1) ltac:(lia)) as Hv.
      rewrite nth_overflow in Hv by lia. lia. }
    apply (ca_state_close L i s lab Hst Hi). left. lia.
  - destruct (skipn_cons_inv L i x t Hsk) as [Hi [Hx Hsk']]. subst x.
    cbn [ca_runs] in Hin. destruct cur as [[s0 lab]|].
    + destruct (Nat.eqb_spec (nth i L 0) lab) as [Heq | Hne].
      * apply (IH (S i) (Some (s0, lab)) Hsk'); [|exact Hin].
        destruct Hst as [Hs0 [Hlab [Hall Hstart]]].
        split; [lia|]. split; [exact Hlab|]. split; [|exact Hstart].
        intros m Hm. destruct (Nat.eq_dec m i) as [-> | Hmi]; [exact Heq | apply Hall; lia].
      * assert (Hin' : In (s, e) ((s0, i) :: ca_runs (S i)
                  (if 0 <? nth i L 0 then Some (i, nth i L 0) else None) t))
          by (destruct (0 <? nth i L 0); exact Hin).
        destruct Hin' as [Heq | Hin'].
        -- inversion Heq; subst s0 e. apply (ca_state_close L i s lab Hst); [lia | right; exact Hne].
        -- eapply (IH (S i) _ Hsk'); [|exact Hin']. apply ca_state_fresh. intros _. right.
           destruct Hst as [Hs0 [_ [Hall _]]]. rewrite (Hall (i - 1)) by lia. auto.
    + apply (IH (S i) (if 0 <? nth i L 0 then Some (i, nth i L 0) else None) Hsk');
        [|destruct (0 <? nth i L 0); exact Hin].
      apply ca_state_fresh. intros Hx. destruct Hst as [Hz | Hz]; [left; exact Hz | right; lia].
Qed.

Theorem ca_d2s_runs : forall labels s e, In (s, e) (ca_d2s labels) -> run_ok labels s e.
Proof.
  intros labels s e Hin.
  apply (ca_runs_run_ok labels labels 0 None); [reflexivity | left; reflexivity | exact Hin].
Qed.

Lemma ca_runs_open_emitted : forall l i s lab,
  exists e, i <= e /\ In (s, e) (ca_runs i (Some (s, lab)) l).
Proof.
  induction l as [|x t IH]; intros i s lab.
  - exists i. split; [lia | left; reflexivity].
  - cbn [ca_runs]. destruct (x =? lab).
    + destruct (IH (S i) s lab) as [e [He Hin]]. exists e. split; [lia | exact Hin].
    + exists i. split; [lia|]. destruct (0 <? x); left; reflexivity.
Qed.

Lemma ca_runs_cover : forall l i cur m,
  (match cur with None => True | Some (s, _) => s <= i end) ->
  m < length l -> 0 < nth m l 0 ->
  exists s e, In (s, e) (ca_runs i cur l) /\ s <= i + m < e.
Proof.
  induction l as [|x t IH]; intros i cur m Hcur Hm Hpos.
  - simpl in Hm. lia.
  - cbn [ca_runs]. destruct m as [|m].
    + simpl in Hpos. replace (0 <? x) with true by (symmetry; apply Nat.ltb_lt; lia).
      destruct cur as [[s0 lab]|].
      * destruct (x =? lab).
        -- destruct (ca_runs_open_emitted t (S i) s0 lab) as [e [He Hin]].
           exists s0, e. split; [exact Hin | lia].
        -- destruct (ca_runs_open_emitted t (S i) i x) as [e [He Hin]].
           exists i, e. split; [right; exact Hin | lia].
      * destruct (ca_runs_open_emitted t (S i) i x) as [e [He Hin]].
        exists i, e. split; [exact Hin | lia].
    + simpl in Hm. simpl in Hpos.
      replace (i + S m) with (S i + m) by lia.
      destruct cur as [[s0 lab]|].
      * destruct (x =? lab).
        -- apply IH; [lia | lia | exact Hpos].
        -- destruct (0 <? x).
           ++ destruct (IH (S i) (Some (i, x)) m) as [s [e [Hin Hb]]]; [lia | lia | exact Hpos |].
              exists s, e. split; [right; exact Hin | exact Hb].
           ++ destruct (IH (S i) None m) as [s [e [Hin Hb]]]; [exact I | lia | exact Hpos |].
              exists s, e. split; [right; exact Hin | exact Hb].
      * destruct (0 <? x); apply IH; try lia; try exact I; exact Hpos.
Qed.

Theorem ca_d2s_cover : forall labels i,
  i < length labels -> 0 < nth i labels 0 ->
  exists s e, In (s, e) (ca_d2s labels) /\ s <= i < e.
Proof.
  intros labels i Hi Hpos.
  destruct (ca_runs_cover labels 0 None i I Hi Hpos) as [s [e [Hin Hb]]].
  exists s, e. split; [exact Hin | simpl in Hb; exact Hb].
Qed.

(** ** A dense_to_sparse that does not compare labels

    [ca_runs_nolabel] closes a run only on a zero (defect D12 of DESIGN.md,
    anomaly_detectors/base.py: runs split only where positions jump), so two adjacent
    anomalies come back as one. *)
Fixpoint ca_runs_nolabel (i : nat) (cur : option nat) (l : list nat) : list (nat * nat) :=
  match l with
  | [] => match cur with Some s => [(s, i)] | None => [] end
  | x :: t =>
    match cur with
    | None => if (0 <? x) then ca_runs_nolabel (S i) (Some i) t
              else ca_runs_nolabel (S i) None t
    | Some s => if (0 <? x) then ca_runs_nolabel (S i) cur t
                else (s, i) :: ca_runs_nolabel (S i) None t
    end
  end.
Definition ca_d2s_pinned (labels : list nat) : list (nat * nat) := ca_runs_nolabel 0 None labels.

Theorem ca_roundtrip_adjacent_refuted :
  exists n ivs, ivs_ok n ivs /\ ca_d2s_pinned (ca_s2d n ivs) <> ivs.
Proof.
  exists 4, [(0, 2); (2, 4)]. split.
  - unfold ivs_ok. simpl. repeat split; lia.
  - vm_compute. discriminate.
Qed.

(** * Subset anomalies *)

Notation iv_of := (fun a : anom3 => (fst (fst a), snd (fst a))).

Definition cols_ok (p : nat) (cols : list nat) : Prop :=
  cols <> [] /\ NoDup cols /\ Forall (fun j => j < p) cols.

Definition anoms_ok (n p : nat) (anoms : list anom3) : Prop :=
  ivs_ok n (map (fun a : anom3 => (fst (fst a), snd (fst a))) anoms) /\
  Forall (fun a : anom3 => cols_ok p (snd a)) anoms.

Lemma memb_In : forall j cols, memb j cols = true <-> In j cols.
Proof. intros j cols. apply existsb_eqb_In. Qed.

Definition pshape (n p : nat) (mat : list (list nat)) : Prop :=
  length mat = n /\ forall i, i < n -> length (nth i mat []) = p.

Lemma pshape_In : forall n p mat r, pshape n p mat -> In r mat -> length r = p.
Proof.
  intros n p mat r [Hlen Hrows] Hin.
  destruct (In_nth mat r [] Hin) as [i [Hi Heq]]. subst r. apply Hrows. lia.
Qed.

Lemma zeros_pshape : forall n p, pshape n p (repeat (repeat 0 p) n).
Proof.
  intros n p. split.
  - apply repeat_length.
  - intros i Hi. rewrite nth_repeat_lt by exact Hi. apply repeat_length.
Qed.

Lemma zeros_nth : forall n p i j,
  i < n -> j < p -> nth j (nth i (repeat (repeat 0 p) n) []) 0 = 0.
Proof. intros n p i j Hi Hj. rewrite !nth_repeat_lt by assumption. reflexivity. Qed.

Lemma sub_assign_length : forall mat a k, length (sub_assign mat a k) = length mat.
Proof. intros mat [[s e] cols] k. apply map_combine_seq_length. Qed.

Lemma sub_assign_nth : forall mat s e cols k i,
  i < length mat ->
  nth i (sub_assign mat (s, e, cols) k) [] =
  if (s <=? i) && (i <? e)
  then map (fun jc => if memb (fst jc) cols then k else snd jc)
           (combine (seq 0 (length (nth i mat []))) (nth i mat []))
  else nth i mat [].
Proof.
  intros mat s e cols k i Hi. unfold sub_assign.
  rewrite (nth_map_combine_seq _ _ _ mat 0 i [] []) by exact Hi. reflexivity.
Qed.

Lemma sub_assign_nth2 : forall mat s e cols k i j,
  i < length mat -> j < length (nth i mat []) ->
  nth j (nth i (sub_assign mat (s, e, cols) k) []) 0 =
  if (s <=? i) && (i <? e) && memb j cols then k else nth j (nth i mat []) 0.
Proof.
  intros mat s e cols k i j Hi Hj. rewrite sub_assign_nth by exact Hi.
  destruct ((s <=? i) && (i <? e)); cbn [andb]; [|reflexivity].
  rewrite (nth_map_combine_seq _ _ _ _ 0 j 0 0) by exact Hj. reflexivity.
Qed.

Lemma sub_assign_pshape : forall n p mat a k,
  pshape n p mat -> pshape n p (sub_assign mat a k).
Proof.
  intros n p mat [[s e] cols] k [Hlen Hrows]. split.
  - rewrite sub_assign_length. exact Hlen.
  - intros i Hi. rewrite sub_assign_nth by lia.
    destruct ((s <=? i) && (i <? e)).
    + rewrite map_combine_seq_length. apply Hrows. exact Hi.
    + apply Hrows. exact Hi.
Qed.

Lemma sub_fill_pshape : forall anoms n p mat k,
  pshape n p mat -> pshape n p (sub_fill mat anoms k).
Proof.
  induction anoms as [|a t IH]; intros n p mat k Hsh; simpl.
  - exact Hsh.
  - apply IH. apply sub_assign_pshape. exact Hsh.
Qed.

Lemma sub_s2d_pshape : forall n p anoms, pshape n p (sub_s2d n p anoms).
Proof.
  intros n p anoms. unfold sub_s2d. apply sub_fill_pshape. apply zeros_pshape.
Qed.

Theorem sub_s2d_shape : forall n p anoms,
  length (sub_s2d n p anoms) = n /\
  forall r, In r (sub_s2d n p anoms) -> length r = p.
Proof.
  intros n p anoms. pose proof (sub_s2d_pshape n p anoms) as Hsh. split.
  - destruct Hsh as [Hlen _]. exact Hlen.
  - intros r Hr. apply (pshape_In n p _ r Hsh Hr).
Qed.

Definition covers (i j : nat) (a : anom3) : bool := in_iv i (iv_of a) && memb j (snd a).

Lemma covers_iff : forall i j s e cols,
  covers i j (s, e, cols) = true <-> s <= i < e /\ In j cols.
Proof.
  intros i j s e cols. unfold covers. cbn [fst snd].
  rewrite andb_true_iff, in_iv_iff, memb_In. reflexivity.
Qed.

(** a cell holds the label of the first anomaly covering it; with sorted disjoint
    intervals later anomalies cannot overwrite it *)
Lemma sub_fill_nth : forall anoms mat n p lo k0 i j,
  pshape n p mat -> ivs_from lo (map iv_of anoms) n -> i < n -> j < p ->
  nth j (nth i (sub_fill mat anoms k0) []) 0 =
  match find_first (covers i j) anoms with
  | None => nth j (nth i mat []) 0
  | Some m => k0 + m
  end.
Proof.
  induction anoms as [|[[s e] cols] t IH]; intros mat n p lo k0 i j Hsh Hok Hi Hj.
  - reflexivity.
  - cbn [map fst snd] in Hok. destruct Hok as [H1 [H2 [H3 H4]]].
    cbn [sub_fill find_first].
    rewrite (IH (sub_assign mat (s, e, cols) k0) n p e (S k0) i j);
      [ | apply sub_assign_pshape; exact Hsh | exact H4 | exact Hi | exact Hj ].
    destruct Hsh as [Hlen Hrows].
    rewrite sub_assign_nth2; [| lia | rewrite (Hrows i Hi); exact Hj].
    change ((s <=? i) && (i <? e) && memb j cols) with (covers i j (s, e, cols)).
    destruct (covers i j (s, e, cols)) eqn:E.
    + apply covers_iff in E. rewrite find_first_miss; [lia|].
      intros a Ha. unfold covers.
      rewrite (ivs_from_later _ e n i (iv_of a) H4) by (lia || exact (in_map iv_of t a Ha)).
      reflexivity.
    + destruct (find_first (covers i j) t); cbn [option_map]; [lia | reflexivity].
Qed.

Lemma sub_s2d_nth : forall n p anoms i j,
  anoms_ok n p anoms -> i < n -> j < p ->
  nth j (nth i (sub_s2d n p anoms) []) 0 =
  match find_first (covers i j) anoms with None => 0 | Some m => S m end.
Proof.
  intros n p anoms i j [Hiv _] Hi Hj. unfold sub_s2d.
  rewrite (sub_fill_nth anoms _ n p 0 1 i j (zeros_pshape n p) Hiv Hi Hj).
  rewrite zeros_nth by assumption. reflexivity.
Qed.

Theorem sub_s2d_label : forall n p anoms i j,
  anoms_ok n p anoms -> i < n -> j < p ->
  (forall k s e cols, nth_error anoms k = Some (s, e, cols) -> s <= i < e -> In j cols ->
     nth j (nth i (sub_s2d n p anoms) []) 0 = S k) /\
  ((forall s e cols, In (s, e, cols) anoms -> ~ (s <= i < e /\ In j cols)) ->
     nth j (nth i (sub_s2d n p anoms) []) 0 = 0).
Proof.
  intros n p anoms i j Hok Hi Hj. rewrite sub_s2d_nth by assumption. split.
  - intros k s e cols Hnth Hin Hc. destruct Hok as [Hiv _].
    rewrite (find_first_hit _ _ anoms k (s, e, cols) Hnth);
      [reflexivity | apply covers_iff; split; assumption |].
    intros k' a Hk' Ha. unfold covers.
    rewrite (ivs_from_earlier _ 0 n k s e i Hiv (map_nth_error iv_of k anoms Hnth)
               ltac:(lia) k' (iv_of a) Hk' (map_nth_error iv_of k' anoms Ha)).
    reflexivity.
  - intros H. rewrite find_first_miss; [reflexivity|].
    intros [[s e] cols] Hin. apply not_true_iff_false. intros Hc.
    apply covers_iff in Hc. exact (H s e cols Hin Hc).
Qed.

(** ** Round trip for subset anomalies *)

Lemma sub_s2d_cell_iff : forall n p anoms i j k s e cols,
  anoms_ok n p anoms -> i < n -> j < p ->
  nth_error anoms k = Some (s, e, cols) ->
  (nth j (nth i (sub_s2d n p anoms) []) 0 = S k <-> s <= i < e /\ In j cols).
Proof.
  intros n p anoms i j k s e cols Hok Hi Hj Hnth. split.
  - intros Hv. rewrite sub_s2d_nth in Hv by assumption.
    destruct (find_first (covers i j) anoms) as [m|] eqn:E; [|discriminate].
    inversion Hv. subst m. destruct (find_first_some _ _ _ _ E) as [a [Ha Hc]].
    rewrite Hnth in Ha. inversion Ha. subst a. apply covers_iff. exact Hc.
  - intros [Hin Hc].
    destruct (sub_s2d_label n p anoms i j Hok Hi Hj) as [H _].
    apply (H k s e cols Hnth Hin Hc).
Qed.

Lemma sub_s2d_cell_le : forall n p anoms i j,
  anoms_ok n p anoms -> i < n -> j < p ->
  nth j (nth i (sub_s2d n p anoms) []) 0 <= length anoms.
Proof.
  intros n p anoms i j Hok Hi Hj. rewrite sub_s2d_nth by assumption.
  destruct (find_first (covers i j) anoms) as [m|] eqn:E; [|lia].
  destruct (find_first_some _ _ _ _ E) as [a [Ha _]].
  assert (m < length anoms) by (apply nth_error_Some; rewrite Ha; discriminate).
  lia.
Qed.

Lemma anoms_ok_nth : forall n p anoms k s e cols,
  anoms_ok n p anoms -> nth_error anoms k = Some (s, e, cols) ->
  s < e /\ e <= n /\ cols_ok p cols.
Proof.
  intros n p anoms k s e cols [Hiv Hcols] Hnth.
  pose proof (nth_error_In _ _ Hnth) as Hin.
  assert (Hin' : In (s, e) (map iv_of anoms)).
  { apply in_map_iff. exists (s, e, cols). split; [reflexivity | exact Hin]. }
  pose proof (ivs_from_In _ _ _ _ _ Hiv Hin') as Hb.
  rewrite Forall_forall in Hcols. pose proof (Hcols _ Hin) as Hc. simpl in Hc.
  split; [lia|]. split; [lia | exact Hc].
Qed.

(** every row of the [k]-th interval carries the label [S k], in the anomaly's first column *)
Lemma sub_s2d_row_label : forall n p anoms k s e cols i,
  anoms_ok n p anoms -> nth_error anoms k = Some (s, e, cols) -> s <= i < e ->
  exists j, j < p /\ nth j (nth i (sub_s2d n p anoms) []) 0 = S k.
Proof.
  intros n p anoms k s e cols i Hok Hnth Hi.
  destruct (anoms_ok_nth n p anoms k s e cols Hok Hnth) as [_ [Hen [Hne [_ Hall]]]].
  destruct cols as [|j0 cols']; [congruence|].
  assert (Hj0 : j0 < p) by (inversion Hall; assumption).
  exists j0. split; [exact Hj0|].
  apply (sub_s2d_cell_iff n p anoms i j0 k s e (j0 :: cols') Hok); try assumption; try lia.
  split; [exact Hi | left; reflexivity].
Qed.

Lemma sub_s2d_max_label : forall n p anoms,
  anoms_ok n p anoms -> max_label (sub_s2d n p anoms) = length anoms.
Proof.
  intros n p anoms Hok. pose proof (sub_s2d_pshape n p anoms) as Hsh.
  apply Nat.le_antisymm.
  - unfold max_label. apply fold_max_le. intros x Hx.
    apply in_map_iff in Hx. destruct Hx as [r [Hx Hr]]. subst x.
    apply fold_max_le. intros x Hx.
    destruct Hsh as [Hlen Hrows].
    destruct (In_nth _ r [] Hr) as [i [Hi Hri]]. subst r.
    destruct (In_nth _ x 0 Hx) as [j [Hj Hxj]]. subst x.
    rewrite Hlen in Hi. rewrite (Hrows i Hi) in Hj.
    apply sub_s2d_cell_le; assumption.
  - destruct (length anoms) as [|K] eqn:EK; [lia|].
    destruct (nth_error anoms K) as [[[s e] cols]|] eqn:Hnth.
    2:{ apply nth_error_None in Hnth. lia. }
    destruct (anoms_ok_nth n p anoms K s e cols Hok Hnth) as [Hse [Hen _]].
    destruct (sub_s2d_row_label n p anoms K s e cols s Hok Hnth) as [j0 [Hj0 Hcell]]; [lia|].
    destruct Hsh as [Hlen Hrows].
    rewrite <- Hcell. unfold max_label.
    apply Nat.le_trans with (fold_right Nat.max 0 (nth s (sub_s2d n p anoms) [])).
    + apply fold_max_ge. apply nth_In. rewrite Hrows by lia. exact Hj0.
    + apply fold_max_ge. apply in_map. apply nth_In. lia.
Qed.

Lemma rows_with_eq : forall mat k,
  rows_with mat k = filter (fun i => existsb (Nat.eqb k) (nth i mat [])) (seq 0 (length mat)).
Proof.
  intros mat k. unfold rows_with. rewrite (combine_seq_map _ [] mat 0).
  rewrite filter_map_comm, map_map. apply map_id.
Qed.

Lemma filter_range_seq : forall s e n,
  s <= e -> e <= n ->
  filter (fun i => (s <=? i) && (i <? e)) (seq 0 n) = seq s (e - s).
Proof.
  intros s e n Hse Hen.
  rewrite <- (Nat.sub_0_r n), (seq_split 0 s n), (seq_split s e n), Nat.sub_0_r, !filter_app by lia.
  rewrite (filter_all_false _ _ (seq 0 s)), (filter_all_true _ _ (seq s (e - s))),
    (filter_all_false _ _ (seq e (n - e))).
  - apply app_nil_r.
  - intros i Hi. apply in_seq in Hi. apply range_test_false. lia.
  - intros i Hi. apply in_seq in Hi. apply range_test_iff. lia.
  - intros i Hi. apply in_seq in Hi. apply range_test_false. lia.
Qed.

Lemma existsb_row_iff : forall (row : list nat) k,
  existsb (Nat.eqb k) row = true <-> exists j, j < length row /\ nth j row 0 = k.
Proof.
  intros row k. rewrite existsb_exists. split.
  - intros [x [Hin Heq]]. apply Nat.eqb_eq in Heq. subst x.
    destruct (In_nth _ _ 0 Hin) as [j [Hj Hx]]. exists j. split; assumption.
  - intros [j [Hj Hx]]. exists k. split; [|apply Nat.eqb_refl].
    rewrite <- Hx. apply nth_In. exact Hj.
Qed.

Lemma sub_rows_with : forall n p anoms k s e cols,
  anoms_ok n p anoms -> nth_error anoms k = Some (s, e, cols) ->
  rows_with (sub_s2d n p anoms) (S k) = seq s (e - s).
Proof.
  intros n p anoms k s e cols Hok Hnth.
  destruct (anoms_ok_nth n p anoms k s e cols Hok Hnth) as [Hse [Hen _]].
  destruct (sub_s2d_pshape n p anoms) as [Hlen Hrows].
  rewrite rows_with_eq, Hlen.
  rewrite <- (filter_range_seq s e n) by lia.
  apply filter_ext_in. intros i Hi. apply in_seq in Hi.
  apply eq_iff_eq_true. rewrite existsb_row_iff, (Hrows i), range_test_iff by lia. split.
  - intros [j [Hj Hv]].
    apply (sub_s2d_cell_iff n p anoms i j k s e cols Hok ltac:(lia) Hj Hnth) in Hv.
    exact (proj1 Hv).
  - exact (sub_s2d_row_label n p anoms k s e cols i Hok Hnth).
Qed.

Lemma sub_cols_with : forall n p anoms k s e cols,
  anoms_ok n p anoms -> nth_error anoms k = Some (s, e, cols) ->
  cols_with (sub_s2d n p anoms) p (S k) = filter (fun j => memb j cols) (seq 0 p).
Proof.
  intros n p anoms k s e cols Hok Hnth.
  destruct (anoms_ok_nth n p anoms k s e cols Hok Hnth) as [Hse [Hen _]].
  destruct (sub_s2d_pshape n p anoms) as [Hlen Hrows].
  unfold cols_with. apply filter_ext_in. intros j Hj. apply in_seq in Hj.
  apply eq_iff_eq_true. rewrite existsb_exists, memb_In. split.
  - intros [r [Hr Hv]]. apply Nat.eqb_eq in Hv.
    destruct (In_nth _ r [] Hr) as [i [Hi Hri]]. subst r. rewrite Hlen in Hi.
    apply (sub_s2d_cell_iff n p anoms i j k s e cols Hok) in Hv; try assumption; try lia.
    destruct Hv as [_ Hc]. exact Hc.
  - intros Hc. exists (nth s (sub_s2d n p anoms) []). split.
    + apply nth_In. lia.
    + apply Nat.eqb_eq.
      apply (sub_s2d_cell_iff n p anoms s j k s e cols Hok); try assumption; try lia.
      split; [lia | exact Hc].
Qed.

Lemma flat_map_seq_map : forall (A B : Type) (d : A) (g : A -> B) (f : nat -> list B)
                                (l : list A) o,
  (forall k, k < length l -> f (o + k) = [g (nth k l d)]) ->
  flat_map f (seq o (length l)) = map g l.
Proof.
  intros A B d g f l. induction l as [|x t IH]; intros o H.
  - reflexivity.
  - pose proof (H 0 ltac:(simpl; lia)) as H0. rewrite Nat.add_0_r in H0.
    cbn [length seq flat_map map]. rewrite H0. cbn [nth app]. f_equal.
    apply IH. intros k Hk. replace (S o + k) with (o + S k) by lia.
    rewrite H by (simpl; lia). reflexivity.
Qed.

Theorem sub_roundtrip : forall n p anoms,
  anoms_ok n p anoms ->
  sub_d2s p (sub_s2d n p anoms) =
  map (fun a : anom3 => (fst a, filter (fun j => memb j (snd a)) (seq 0 p))) anoms.
Proof.
  intros n p anoms Hok. unfold sub_d2s. rewrite sub_s2d_max_label by exact Hok.
  apply (flat_map_seq_map _ _ (0, 0, [])).
  intros k Hk. cbn [Nat.add].
  pose proof (nth_error_nth' anoms (0, 0, []) Hk) as Hnth.
  unfold anom3 in *. cbv beta.
  destruct (nth k anoms (0, 0, [])) as [[s e] cols].
  destruct (anoms_ok_nth n p anoms k s e cols Hok Hnth) as [Hse _].
  rewrite (sub_rows_with n p anoms k s e cols Hok Hnth).
  rewrite (sub_cols_with n p anoms k s e cols Hok Hnth).
  destruct (e - s) as [|m] eqn:E; [lia|].
  cbn [seq fst snd]. rewrite last_seq.
  replace (S (s + m)) with e by lia. reflexivity.
Qed.

Lemma cols_filter_permutation : forall p cols,
  NoDup cols -> Forall (fun j => j < p) cols ->
  Permutation (filter (fun j => memb j cols) (seq 0 p)) cols.
Proof.
  intros p cols Hnd Hall. apply NoDup_Permutation.
  - apply NoDup_filter. apply seq_NoDup.
  - exact Hnd.
  - intros j. rewrite filter_In, in_seq, memb_In. split.
    + intros [_ H]. exact H.
    + intros H. split; [|exact H]. rewrite Forall_forall in Hall.
      pose proof (Hall j H). lia.
Qed.

Lemma cols_filter_sorted : forall p cols,
  StronglySorted lt (filter (fun j => memb j cols) (seq 0 p)).
Proof.
  intros p cols. generalize 0 as o. induction p as [|p IH]; intros o.
  - constructor.
  - cbn [seq filter]. destruct (memb o cols).
    + constructor; [apply IH|]. apply Forall_forall. intros x Hx.
      apply filter_In in Hx. destruct Hx as [Hx _]. apply in_seq in Hx. lia.
    + apply IH.
Qed.

Lemma sorted_lt_ext : forall l1 l2 : list nat,
  StronglySorted lt l1 -> StronglySorted lt l2 ->
  (forall x, In x l1 <-> In x l2) -> l1 = l2.
Proof.
  induction l1 as [|x t1 IH]; intros l2 H1 H2 Hext.
  - destruct l2 as [|y t2]; [reflexivity|].
    exfalso. apply (proj2 (Hext y)). left. reflexivity.
  - destruct l2 as [|y t2].
    + exfalso. apply (proj1 (Hext x)). left. reflexivity.
    + inversion H1 as [|? ? Hs1 Hall1]; subst. inversion H2 as [|? ? Hs2 Hall2]; subst.
      rewrite Forall_forall in Hall1, Hall2.
      assert (Hxy : x = y).
      { destruct (proj1 (Hext x) (or_introl eq_refl)) as [Hy | Hy]; [symmetry; exact Hy|].
        destruct (proj2 (Hext y) (or_introl eq_refl)) as [Hx | Hx]; [exact Hx|].
        pose proof (Hall1 y Hx). pose proof (Hall2 x Hy). lia. }
      subst y. f_equal. apply IH; [exact Hs1 | exact Hs2 |].
      intros z. split; intros Hz.
      * destruct (proj1 (Hext z) (or_intror Hz)) as [Hzx | Hz']; [|exact Hz'].
        pose proof (Hall1 z Hz). lia.
      * destruct (proj2 (Hext z) (or_intror Hz)) as [Hzx | Hz']; [|exact Hz'].
        pose proof (Hall2 z Hz). lia.
Qed.

Lemma cols_filter_id : forall p cols,
  StronglySorted lt cols -> Forall (fun j => j < p) cols ->
  filter (fun j => memb j cols) (seq 0 p) = cols.
Proof.
  intros p cols Hs Hall. apply sorted_lt_ext.
  - apply cols_filter_sorted.
  - exact Hs.
  - intros j. rewrite filter_In, in_seq, memb_In. split.
    + intros [_ H]. exact H.
    + intros H. split; [|exact H]. rewrite Forall_forall in Hall.
      pose proof (Hall j H). lia.
Qed.

Theorem sub_roundtrip_sorted : forall n p anoms,
  anoms_ok n p anoms ->
  Forall (fun a : anom3 => StronglySorted lt (snd a)) anoms ->
  sub_d2s p (sub_s2d n p anoms) = anoms.
Proof.
  intros n p anoms Hok Hsorted. rewrite (sub_roundtrip n p anoms Hok).
  rewrite <- (map_id anoms) at 2. apply map_ext_in. intros [[s e] cols] Hin.
  destruct Hok as [_ Hcols]. rewrite Forall_forall in Hcols, Hsorted.
  pose proof (Hcols _ Hin) as [_ [_ Hall]]. pose proof (Hsorted _ Hin) as Hs.
  cbn [fst snd] in *. rewrite (cols_filter_id p cols Hs Hall). reflexivity.
Qed.

Print Assumptions cd_s2d_label.
Print Assumptions cd_roundtrip.
Print Assumptions cd_d2s_spec.
Print Assumptions cd_d2s_ok.
Print Assumptions ca_s2d_label.
Print Assumptions ca_roundtrip.
Print Assumptions ca_d2s_spec.
Print Assumptions ca_d2s_runs.
Print Assumptions ca_d2s_cover.
Print Assumptions ca_roundtrip_adjacent_refuted.
Print Assumptions sub_s2d_shape.
Print Assumptions sub_s2d_label.
Print Assumptions sub_roundtrip.
Print Assumptions cols_filter_permutation.
Print Assumptions sub_roundtrip_sorted.
