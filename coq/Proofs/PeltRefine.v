(** Refinement proof: the executable PELT model (Model/Pelt.v, a transcription of
    run_pelt + get_changepoints) against the unpruned optimal-partitioning recursion
    [F] of Proofs/PeltSpec.v.

    Index conventions.  [step s t] handles observation index [t] and computes the entry
    for the (exclusive) segment end [T = S t].  A state "at T" has [opt] of length
    [T + 1] (entries for ends 0..T) and [prev] of length [T] ([prev[e-1]] is the
    back-pointer of end [e]).  [init] is a state at [2m - 1]; [run n] folds [step] over
    t = 2m-1 .. n-1 and is a state at [n].

    What does not depend on the arithmetic (the shape of a step, the structural invariant,
    the back-pointer chains, the pruning queue) is taken from Proofs/PeltLoop.v through
    Proofs/GenericZ.v: the Z model is the generic loop at the instance [Zn]. *)
From Coq Require Import ZArith List Lia.
From SK Require Import Lib.Base Proofs.ListFacts Model.Pelt Model.Generic Proofs.PeltSpec Proofs.PeltLemmas
                       Proofs.PeltLoop Proofs.GenericZ.
Import ListNotations.
Open Scope Z_scope.

Lemma Zltb_trans x y z : (x <? y) = true -> (y <? z) = true -> (x <? z) = true.
Proof. rewrite !Z.ltb_lt. lia. Qed.

Section Refine.
Variable C : nat -> nat -> Z.
Variable pen : Z.
Variable m delay : nat.
Hypothesis m_pos : (1 <= m)%nat.

Notation stepM := (step C pen m delay).
Notation initM := (init C pen m).
Notation runM := (run C pen m delay).
Notation Fn := (F C pen m).
Notation candFn := (candF C pen m).
Notation VZ := (fun (a T : nat) (g : Z) => g + C a T + pen).
Notation WZ := (fun (_ : nat) (b : Z) => b + pen).

(** admissible last-segment starts for end [T] *)
Definition full (T a : nat) : Prop := a = 0%nat \/ (m <= a /\ a + m <= T)%nat.

(** * The Z model as an instance of the loop of Proofs/PeltLoop.v *)

Definition toG (s : st) : gst Zn := Build_gst Zn (opt s) (prev s) (starts s) (pending s).

Lemma step_kstep s t : st_rel (kstep Zn VZ WZ m delay (toG s) t) (stepM s t).
Proof.
  pose proof (gstep_Z C pen m delay (toG s) s t ltac:(repeat split)) as H.
  rewrite gstep_kstep in H. exact H.
Qed.

Lemma run_krun n : st_rel (krun Zn VZ WZ m delay (- pen) (C 0) n) (runM n).
Proof. pose proof (grun_Z C pen m delay n) as H. rewrite grun_krun in H. exact H. Qed.

Lemma run_S T : (2 * m - 1 <= T)%nat -> runM (S T) = stepM (runM T) T.
Proof.
  intros HT. unfold run. replace (S T - (2 * m - 1))%nat with (S (T - (2 * m - 1))) by lia.
  rewrite fold_left_seq_S. f_equal. lia.
Qed.

(** one step: the selected value [b] is the least candidate over the evaluated starts [R1],
    and the list [D] queued for pruning holds starts whose candidate exceeds [b + pen] *)
Lemma step_cases s t : exists i b D,
  let R1 := (starts s ++ [t - (m - 1)])%nat in
  let cv := fun a => nthZ (opt s) a + C a (S t) + pen in
  In (nthN R1 i) R1 /\ b = cv (nthN R1 i) /\ (forall a, In a R1 -> b <= cv a) /\
  (forall a, In a D -> In a R1 /\ cv a > b + pen) /\
  opt (stepM s t) = opt s ++ [b] /\ prev (stepM s t) = prev s ++ [nthN R1 i] /\
  starts (stepM s t) = removeall (fst (pop delay (pending s ++ [D]))) R1 /\
  pending (stepM s t) = snd (pop delay (pending s ++ [D])).
Proof.
  destruct (kstep_cases Zn VZ WZ m delay (toG s) t) as (i & b & Harg & Hin & Hb & Hstep).
  destruct (step_kstep s t) as (Ho & Hp & Hs & Hq). rewrite Hstep in Ho, Hp, Hs, Hq.
  exists i, b, (kdrop Zn VZ WZ m (toG s) t b). cbv zeta.
  split; [exact Hin|]. split; [exact Hb|]. split; [|split].
  - intros a Ha. apply Z.ltb_ge.
    exact (gargmin_min Zn Z.ltb_irrefl Zltb_trans _ i b Harg _ (in_map _ _ a Ha)).
  - intros a Ha. apply in_kdrop in Ha as [Ha Hc]. split; [exact Ha|].
    apply Z.leb_gt in Hc. apply Z.lt_gt. exact Hc.
  - repeat split; symmetry; assumption.
Qed.

(** * Structural invariant (arbitrary C, pen, delay) *)

Record SInv (T : nat) (s : st) : Prop := {
  si_len_opt : length (opt s) = S T;
  si_len_prev : length (prev s) = T;
  si_starts : forall a, In a (starts s) -> full T a;
  si_small : forall e, (e < m)%nat -> nthZ (opt s) e = - pen;
  si_bp : forall e, (m <= e <= T)%nat ->
      full e (nthN (prev s) (e - 1)) /\
      nthZ (opt s) e = nthZ (opt s) (nthN (prev s) (e - 1)) + C (nthN (prev s) (e - 1)) e + pen }.

Lemma init_opt_small e : (e < m)%nat -> nthZ (opt initM) e = - pen.
Proof. exact (kinit_opt_small Zn m (- pen) (C 0) e). Qed.

Lemma init_opt_mid e : (m <= e < 2 * m)%nat -> nthZ (opt initM) e = C 0 e.
Proof. exact (kinit_opt_mid Zn m (- pen) (C 0) e). Qed.

Lemma run_SInv n : (2 * m - 1 <= n)%nat -> SInv n (runM n).
Proof.
  intros Hn. destruct (run_krun n) as (Ho & Hp & Hs & _).
  destruct (krun_KInv Zn VZ WZ m delay (- pen) (C 0) m_pos n Hn) as [Hlo Hlp Hst _ _ Hbp Hsm Hvlo Hvhi].
  rewrite Ho, Hp, Hs in *. change (nthV Zn) with nthZ in *. constructor; auto.
  intros e He. split; [now apply Hbp|]. destruct (lt_dec e (2 * m)) as [Hlt|Hge].
  - destruct (Hvlo e ltac:(lia) ltac:(lia)) as [E0 Ee]. rewrite E0, Ee, (Hsm 0%nat) by lia. lia.
  - apply Hvhi. lia.
Qed.

(** * Back-pointer chains are admissible segmentations with the recorded cost *)

(** for every end [T] in [m, n] the chain from [T] is an admissible
    segmentation of [0, T) whose penalised cost is the recorded [opt[T]] *)
Lemma pelt_prefix n T : (2 * m <= n)%nat -> (m <= T <= n)%nat ->
  Adm m (changepoints (prev (runM n)) T) T /\
  pencost C pen (changepoints (prev (runM n)) T) T = nthZ (opt (runM n)) T.
Proof.
  intros Hn HT. pose proof (run_SInv n ltac:(lia)) as HS.
  apply (changepoints_chain m (prev (runM n)) n
           (fun cp e => pencost C pen cp e = nthZ (opt (runM n)) e) m_pos); [| | |exact HT].
  - intros e He. apply (si_bp n _ HS e He).
  - intros e He E0. destruct (si_bp n _ HS e He) as [_ Ho].
    rewrite Ho, E0, pencost_nil, (si_small n _ HS 0%nat) by lia. lia.
  - intros e cp He _ _ HP. destruct (si_bp n _ HS e He) as [_ Ho].
    rewrite pencost_snoc, HP, Ho. reflexivity.
Qed.

(** * Structure of the output (arbitrary C, pen, delay) *)
Section Main.
Variable n : nat.
Hypothesis n_big : (2 * m <= n)%nat.

Notation scores := (fst (pelt C pen m delay n)).
Notation cpts := (snd (pelt C pen m delay n)).

Lemma scores_nth t : (1 <= t)%nat -> nth (t - 1) scores 0 = nthZ (opt (runM n)) t.
Proof. apply nth_pred_tl. Qed.

Theorem pelt_scores_length : length scores = n.
Proof using m_pos n_big.
  unfold pelt. cbn [fst]. rewrite length_tl, (si_len_opt n _ (run_SInv n ltac:(lia))). lia.
Qed.

Theorem pelt_adm : Adm m cpts n.
Proof. unfold pelt. cbn [snd]. apply (pelt_prefix n n n_big). lia. Qed.

Theorem pelt_final_is_pencost : nth (n - 1) scores 0 = pencost C pen cpts n.
Proof.
  rewrite scores_nth by lia. unfold pelt. cbn [snd].
  symmetry. apply (pelt_prefix n n n_big). lia.
Qed.

Theorem pelt_scores_dummy : forall t, (1 <= t < m)%nat -> nth (t - 1) scores 0 = - pen.
Proof using m_pos n_big.
  intros t Ht. rewrite scores_nth by lia. apply (si_small n _ (run_SInv n ltac:(lia))). lia.
Qed.
End Main.

(** * Optimality: pruning never removes a start that can still be optimal *)
Section Optimal.
Hypothesis delay_ok : (m <= delay + 1)%nat.
Hypothesis split : forall s k e, (s + m <= k)%nat -> (k + m <= e)%nat -> C s k + C k e <= C s e.

(** [a] was found strictly worse than the optimum at end [tau] *)
Definition condemned (a tau : nat) : Prop :=
  full tau a /\ (m <= tau)%nat /\ Fn a + C a tau > Fn tau.

Record Inv (T : nat) (s : st) : Prop := {
  inv_opt : forall e, (e <= T)%nat -> nthZ (opt s) e = Fn e;
  inv_missing : forall a, full T a -> ~ In a (starts s) ->
      exists tau, (tau + m <= T + 1)%nat /\ condemned a tau;
  inv_pend_len : (length (pending s) <= delay)%nat;
  inv_pend : forall i D, nth_error (pending s) i = Some D ->
      forall a, In a D -> condemned a (T + 1 + i - length (pending s))%nat }.

(** the last three fields are the queue invariant of Proofs/PeltLoop.v for [condemned] *)
Lemma Inv_QInv T s : Inv T s <->
  (forall e, (e <= T)%nat -> nthZ (opt s) e = Fn e) /\
  QInv m delay (last_start m) condemned T (starts s) (pending s).
Proof.
  split.
  - intros [H1 H2 H3 H4]. split; [exact H1|]. constructor; assumption.
  - intros [H1 [H2 H3 H4]]. constructor; assumption.
Qed.

(** a condemned start is strictly worse than [tau] for every later admissible end *)
Lemma condemned_worse a tau T : condemned a tau -> (tau + m <= T)%nat -> candFn T a > Fn T.
Proof using m_pos delay_ok split.
  intros [Hf [Htau Hgt]] HT. unfold candF.
  assert (Hsp : C a tau + C tau T <= C a T).
  { apply split; [|lia]. destruct Hf as [->|[? ?]]; lia. }
  pose proof (F_le_start C pen m m_pos T tau ltac:(lia) (or_intror (conj Htau HT))) as Hle.
  unfold candF in Hle. lia.
Qed.

Lemma init_Inv : Inv (2 * m - 1) initM.
Proof.
  apply Inv_QInv. split; [|exact (QInv_init m delay m_pos condemned)].
  intros e He. destruct (lt_dec e m) as [Hlt|Hge].
  - rewrite init_opt_small, F_small by lia. reflexivity.
  - rewrite init_opt_mid, F_mid by lia. reflexivity.
Qed.

Theorem step_inv T s : (2 * m - 1 <= T)%nat -> SInv T s -> Inv T s -> Inv (S T) (stepM s T).
Proof using m_pos delay_ok split.
  intros HT HS HI. apply Inv_QInv in HI as [Hopt HQ].
  destruct (step_cases s T) as (i & b & D & Hin & Hb & Hmin & HD & Eo & _ & Es & Eq).
  cbv zeta in *. set (R1 := (starts s ++ [T - (m - 1)])%nat) in *.
  pose proof (starts1_ok m T (starts s) HT (si_starts T s HS)) as Hsub1. fold R1 in Hsub1.
  pose proof (si_len_opt T s HS) as Hlo.
  assert (Hcand : forall a, In a R1 -> nthZ (opt s) a + C a (S T) + pen = candFn (S T) a).
  { intros a Ha. unfold candF. rewrite Hopt; [reflexivity|].
    pose proof (last_start_lt m (S T) a m_pos ltac:(lia) (Hsub1 a Ha)). lia. }
  (* the selected value is F (S T): the optimal start is either evaluated, or was condemned
     long enough ago to be strictly worse *)
  assert (HbF : b = Fn (S T)).
  { apply Z.le_antisymm.
    - destruct (F_attained C pen m m_pos (S T) ltac:(lia)) as (a & Hfa & Ea).
      destruct (in_dec Nat.eq_dec a R1) as [Hin'|Hnin].
      + rewrite Ea, <- (Hcand a Hin'). now apply Hmin.
      + destruct (q_missing1 m delay m_pos condemned T _ _ HT HQ a Hfa Hnin) as (tau & Htau & Hc).
        pose proof (condemned_worse a tau (S T) Hc ltac:(lia)). lia.
    - rewrite Hb, (Hcand _ Hin). apply (F_le_start C pen m m_pos); [lia|now apply Hsub1]. }
  apply Inv_QInv. rewrite Eo, Es, Eq. split.
  - intros e He. unfold nthZ. destruct (Nat.eq_dec e (S T)) as [->|Hne].
    + rewrite <- Hlo at 1. rewrite nth_middle. exact HbF.
    + rewrite app_nth1 by lia. apply Hopt. lia.
  - apply (pqueue_step m delay m_pos condemned); auto.
    intros a Ha. destruct (HD a Ha) as [Hin' Hgt]. split; [now apply Hsub1|]. split; [lia|].
    rewrite (Hcand a Hin'), HbF in Hgt. unfold candF in Hgt. lia.
Qed.

Lemma run_Inv n : (2 * m - 1 <= n)%nat -> Inv n (runM n).
Proof.
  intros Hn. induction Hn as [|n Hn IH].
  - unfold run. rewrite Nat.sub_diag. apply init_Inv.
  - rewrite run_S by exact Hn. apply step_inv; [exact Hn|now apply run_SInv|exact IH].
Qed.

Section MainOpt.
Variable n : nat.
Hypothesis n_big : (2 * m <= n)%nat.

Notation scores := (fst (pelt C pen m delay n)).
Notation cpts := (snd (pelt C pen m delay n)).

(** every entry of [scores] (dummies included) equals the unpruned recursion *)
Theorem pelt_scores_optimal_all : forall t, (1 <= t <= n)%nat -> nth (t - 1) scores 0 = Fn t.
Proof.
  intros t Ht. rewrite (scores_nth n) by lia. apply (inv_opt n _ (run_Inv n ltac:(lia))). lia.
Qed.

Theorem pelt_optimal_nopen : forall c, Adm m c n -> pencost C pen cpts n <= pencost C pen c n.
Proof.
  intros c Hc. rewrite <- (pelt_final_is_pencost n n_big).
  rewrite pelt_scores_optimal_all by lia. now apply F_lower.
Qed.
End MainOpt.
End Optimal.
End Refine.

(** The hypothesis [0 <= pen] below is not used: the pruning test with split_cost = 0 is
    exactly "F a + C a tau > F tau", which is sound for any pen. *)

Theorem pelt_scores_optimal (C : nat -> nat -> Z) (pen : Z) (m delay n : nat) :
  (1 <= m)%nat -> (2 * m <= n)%nat -> 0 <= pen -> (m <= delay + 1)%nat ->
  (forall s k e, (s + m <= k)%nat -> (k + m <= e)%nat -> C s k + C k e <= C s e) ->
  forall t, (m <= t <= n)%nat -> nth (t - 1) (fst (pelt C pen m delay n)) 0 = F C pen m t.
Proof.
  intros Hm Hn _ Hd Hs t Ht. apply pelt_scores_optimal_all; auto. lia.
Qed.

Theorem pelt_optimal (C : nat -> nat -> Z) (pen : Z) (m delay n : nat) :
  (1 <= m)%nat -> (2 * m <= n)%nat -> 0 <= pen -> (m <= delay + 1)%nat ->
  (forall s k e, (s + m <= k)%nat -> (k + m <= e)%nat -> C s k + C k e <= C s e) ->
  forall c, Adm m c n ->
    pencost C pen (snd (pelt C pen m delay n)) n <= pencost C pen c n.
Proof.
  intros Hm Hn _ Hd Hs c Hc. apply pelt_optimal_nopen; auto.
Qed.

(** * The result only depends on the values of the cost *)

Lemma step_ext C1 C2 pen m delay : (forall s e, C1 s e = C2 s e) ->
  forall s t, step C1 pen m delay s t = step C2 pen m delay s t.
Proof.
  intros H s t. unfold step.
  assert (E : map (fun a => nthZ (opt s) a + C1 a (S t) + pen) (starts s ++ [(t - (m - 1))%nat])
            = map (fun a => nthZ (opt s) a + C2 a (S t) + pen) (starts s ++ [(t - (m - 1))%nat])).
  { apply map_ext. intros a. now rewrite H. }
  cbv zeta. rewrite E. reflexivity.
Qed.

Theorem pelt_ext C1 C2 pen m delay n : (forall s e, C1 s e = C2 s e) ->
  pelt C1 pen m delay n = pelt C2 pen m delay n.
Proof.
  intros H. unfold pelt, run.
  assert (Ei : init C1 pen m = init C2 pen m).
  { unfold init. f_equal. f_equal. apply map_ext. intros e. apply H. }
  rewrite Ei. rewrite (fold_left_ext _ _ _ (step_ext C1 C2 pen m delay H)). reflexivity.
Qed.

(** * A larger penalty never yields more changepoints *)

Lemma more_penalty_fewer_cpts (C : nat -> nat -> Z) (m n : nat) (pen1 pen2 : Z) (c1 c2 : list nat) :
  pen1 < pen2 -> Adm m c1 n -> Adm m c2 n ->
  (forall c, Adm m c n -> pencost C pen1 c1 n <= pencost C pen1 c n) ->
  (forall c, Adm m c n -> pencost C pen2 c2 n <= pencost C pen2 c n) ->
  (length c2 <= length c1)%nat.
Proof.
  intros Hlt A1 A2 O1 O2. specialize (O1 c2 A2). specialize (O2 c1 A1).
  unfold pencost in O1, O2. apply Nat2Z.inj_le.
  set (k1 := Z.of_nat (length c1)) in *. set (k2 := Z.of_nat (length c2)) in *.
  set (S1 := segcost C 0 c1 n) in *. set (S2 := segcost C 0 c2 n) in *.
  destruct (Z.le_gt_cases k2 k1) as [Hle|Hgt]; [exact Hle|exfalso].
  assert (Hpos : 0 < (pen2 - pen1) * (k2 - k1)) by (apply Z.mul_pos_pos; lia).
  lia.
Qed.

Theorem pelt_penalty_monotone (C : nat -> nat -> Z) (pen1 pen2 : Z) (m delay n : nat) :
  (1 <= m)%nat -> (2 * m <= n)%nat -> 0 <= pen1 < pen2 -> (m <= delay + 1)%nat ->
  (forall s k e, (s + m <= k)%nat -> (k + m <= e)%nat -> C s k + C k e <= C s e) ->
  (length (snd (pelt C pen2 m delay n)) <= length (snd (pelt C pen1 m delay n)))%nat.
Proof.
  intros Hm Hn Hp Hd Hs.
  apply (more_penalty_fewer_cpts C m n pen1 pen2); [lia| | | |].
  - now apply pelt_adm.
  - now apply pelt_adm.
  - intros c Hc. apply pelt_optimal; auto; lia.
  - intros c Hc. apply pelt_optimal; auto; lia.
Qed.

(** * Reversing the data leaves the optimal value unchanged *)

Definition Crev (C : nat -> nat -> Z) (n : nat) : nat -> nat -> Z :=
  fun s e => C (n - e)%nat (n - s)%nat.
Definition revc (n : nat) (c : list nat) : list nat := rev (map (fun x => (n - x)%nat) c).

Section Reverse.
Variable C : nat -> nat -> Z.
Variable pen : Z.
Variable m n : nat.
Hypothesis m_pos : (1 <= m)%nat.

Lemma revc_cons a l : revc n (a :: l) = revc n l ++ [(n - a)%nat].
Proof. reflexivity. Qed.

Lemma revc_length c : length (revc n c) = length c.
Proof. unfold revc. now rewrite rev_length, map_length. Qed.

Lemma admseg_in : forall c p T x, admseg m p c T -> In x c -> (p + m <= x /\ x + m <= T)%nat.
Proof.
  induction c as [|a l IH]; intros p T x H Hin; [destruct Hin|].
  cbn [admseg] in H. destruct H as [H1 H2].
  pose proof (admseg_ge m m_pos a l T H2) as Hge.
  destruct Hin as [<-|Hin]; [lia|]. destruct (IH a T x H2 Hin). lia.
Qed.

Lemma segcost_rev : forall c p T, admseg m p c T -> (T <= n)%nat ->
  segcost (Crev C n) (n - T) (revc n c) (n - p) = segcost C p c T.
Proof.
  induction c as [|a l IH]; intros p T H HT.
  - cbn [admseg] in H. cbn [revc map rev segcost]. unfold revc. cbn [map rev segcost].
    unfold Crev. f_equal; lia.
  - cbn [admseg] in H. destruct H as [H1 H2].
    pose proof (admseg_ge m m_pos a l T H2) as Hge.
    rewrite revc_cons, segcost_snoc, (IH a T H2 HT). cbn [segcost].
    unfold Crev. replace (n - (n - p))%nat with p by lia. replace (n - (n - a))%nat with a by lia.
    lia.
Qed.

Lemma admseg_rev : forall c p T, admseg m p c T -> (T <= n)%nat ->
  admseg m (n - T) (revc n c) (n - p).
Proof.
  induction c as [|a l IH]; intros p T H HT.
  - cbn [admseg] in H. unfold revc. cbn [map rev admseg]. lia.
  - cbn [admseg] in H. destruct H as [H1 H2].
    pose proof (admseg_ge m m_pos a l T H2) as Hge.
    rewrite revc_cons. apply admseg_snoc. split; [now apply IH|lia].
Qed.

Lemma revc_invol c : (forall x, In x c -> (x <= n)%nat) -> revc n (revc n c) = c.
Proof.
  intros H. unfold revc. rewrite map_rev, rev_involutive, map_map.
  rewrite <- (map_id c) at 2. apply map_ext_in. intros x Hx. specialize (H x Hx). lia.
Qed.

Lemma pencost_rev c : Adm m c n ->
  Adm m (revc n c) n /\ pencost (Crev C n) pen (revc n c) n = pencost C pen c n.
Proof.
  intros A. unfold Adm in *. split.
  - pose proof (admseg_rev c 0%nat n A (le_n n)) as H.
    now rewrite Nat.sub_diag, Nat.sub_0_r in H.
  - unfold pencost. rewrite revc_length.
    pose proof (segcost_rev c 0%nat n A (le_n n)) as H.
    rewrite Nat.sub_diag, Nat.sub_0_r in H. now rewrite H.
Qed.

Theorem F_reverse : F (Crev C n) pen m n = F C pen m n.
Proof.
  destruct (lt_dec n m) as [Hlt|Hge].
  - rewrite !F_small by assumption. reflexivity.
  - assert (Hmn : (m <= n)%nat) by lia. apply Z.le_antisymm.
    + destruct (F_upper C pen m m_pos n Hmn) as (c & A & P). rewrite <- P.
      destruct (pencost_rev c A) as [A' P']. rewrite <- P'. now apply F_lower.
    + destruct (F_upper (Crev C n) pen m m_pos n Hmn) as (c & A & P). rewrite <- P.
      destruct (pencost_rev c A) as [A' _].
      destruct (pencost_rev (revc n c) A') as [_ P''].
      rewrite revc_invol in P''.
      * rewrite P''. now apply F_lower.
      * intros x Hx. destruct (admseg_in c 0%nat n x A Hx). lia.
Qed.
End Reverse.

(** * Immediate pruning (delay = 0, what run_pelt did before its pruning decisions were made
      to wait m - 1 iterations) is NOT exact when m >= 2 *)

(** piecewise-constant-parameter table costs:
      C s e = min_{theta <= K} sum_{i in [s,e)} loss[i][theta]
    (rows beyond the table, and columns beyond a row, count 0) *)
Definition lossAt (loss : list (list Z)) (th i : nat) : Z := nth th (nth i loss []) 0.
Definition segsum (loss : list (list Z)) (th s e : nat) : Z :=
  sumZ (map (lossAt loss th) (seq s (e - s))).
Definition tcost (loss : list (list Z)) (K : nat) (s e : nat) : Z :=
  min1 (segsum loss 0 s e) (map (fun th => segsum loss th s e) (seq 1 K)).

Lemma segsum_split loss th s k e : (s <= k)%nat -> (k <= e)%nat ->
  segsum loss th s e = segsum loss th s k + segsum loss th k e.
Proof. apply sumZ_seq_split. Qed.

Lemma tcost_le loss K th s e : (th <= K)%nat -> tcost loss K s e <= segsum loss th s e.
Proof.
  intros H. unfold tcost. destruct th as [|th]; [apply min1_le_head|].
  apply min1_le_in. apply (in_map (fun th0 => segsum loss th0 s e)). apply in_seq. lia.
Qed.

Lemma tcost_attained loss K s e : exists th, (th <= K)%nat /\ tcost loss K s e = segsum loss th s e.
Proof.
  unfold tcost.
  destruct (min1_in (segsum loss 0 s e) (map (fun th => segsum loss th s e) (seq 1 K))) as [E|Hin].
  - exists 0%nat. split; [lia|exact E].
  - apply in_map_iff in Hin as (th & E & Hth). apply in_seq in Hth.
    exists th. split; [lia|]. now rewrite E.
Qed.

(** min of sums >= sum of mins: the split inequality holds for ALL s <= k <= e *)
Lemma tcost_split loss K s k e : (s <= k)%nat -> (k <= e)%nat ->
  tcost loss K s k + tcost loss K k e <= tcost loss K s e.
Proof.
  intros H1 H2. destruct (tcost_attained loss K s e) as (th & Hth & E).
  rewrite E, (segsum_split loss th s k e H1 H2).
  pose proof (tcost_le loss K th s k Hth). pose proof (tcost_le loss K th k e Hth). lia.
Qed.

(** the witness: two parameter values, five observations *)
Definition wloss : list (list Z) := [[3; 0]; [1; 0]; [0; 1]; [0; 2]; [3; 0]].

Lemma witness_values :
  nth 4 (fst (pelt (tcost wloss 1) 1 2 0 5)) 0 = 4 /\ F (tcost wloss 1) 1 2 5 = 3 /\
  nth 4 (fst (pelt (tcost wloss 1) 1 2 1 5)) 0 = 3.
Proof. vm_compute. repeat split. Qed.

Theorem pelt_immediate_pruning_refuted :
  exists (C : nat -> nat -> Z) (pen : Z) (m n : nat),
    (1 <= m)%nat /\ (2 * m <= n)%nat /\ 0 <= pen /\
    (forall s k e, (s + m <= k)%nat -> (k + m <= e)%nat -> C s k + C k e <= C s e) /\
    nth (n - 1) (fst (pelt C pen m 0 n)) 0 <> F C pen m n.
Proof.
  exists (tcost wloss 1), 1, 2%nat, 5%nat.
  split; [lia|]. split; [lia|]. split; [lia|]. split.
  - intros s k e H1 H2. apply tcost_split; lia.
  - destruct witness_values as (H1 & H2 & _).
    change (5 - 1)%nat with 4%nat. rewrite H1, H2. discriminate.
Qed.

Print Assumptions pelt_scores_length.
Print Assumptions pelt_adm.
Print Assumptions pelt_final_is_pencost.
Print Assumptions pelt_scores_optimal.
Print Assumptions pelt_scores_dummy.
Print Assumptions pelt_optimal.
Print Assumptions pelt_ext.
Print Assumptions pelt_penalty_monotone.
Print Assumptions F_reverse.
Print Assumptions pelt_immediate_pruning_refuted.
