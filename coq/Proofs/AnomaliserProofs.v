(** Machine-checked properties of the StatThresholdAnomaliser model
    (Model/Anomaliser.v): on the dense labels produced from a valid changepoint list
    the pandas-groupby pipeline reports exactly the flagged segments of the partition
    [0] + cpts + [n], each one as its own interval (adjacent flagged segments are
    never merged), and the output is a well-formed interval list. *)
From Coq Require Import ZArith List Lia.
From SK Require Import Model.Convert Model.Anomaliser.
From SK Require Import Proofs.ListFacts Proofs.ConvertProofs Proofs.GenerateProofs.
Import ListNotations.
Close Scope Z_scope.
Open Scope nat_scope.

(** * rows carrying a label, with an arbitrary position offset *)

Definition rows_from (o : nat) (labels : list nat) (k : nat) : list nat :=
  map fst (filter (fun il => snd il =? k) (combine (seq o (length labels)) labels)).

Lemma rows_of_from : forall labels k, rows_of labels k = rows_from 0 labels k.
Proof. reflexivity. Qed.

Lemma rows_from_nil : forall o k, rows_from o [] k = [].
Proof. reflexivity. Qed.

Lemma rows_from_cons : forall o x L k,
  rows_from o (x :: L) k =
  if x =? k then o :: rows_from (S o) L k else rows_from (S o) L k.
Proof.
  intros o x L k. unfold rows_from. simpl. destruct (x =? k); reflexivity.
Qed.

Lemma rows_from_app : forall A B o k,
  rows_from o (A ++ B) k = rows_from o A k ++ rows_from (o + length A) B k.
Proof.
  induction A as [|a A IH]; intros B o k.
  - rewrite rows_from_nil. cbn [app length]. rewrite Nat.add_0_r. reflexivity.
  - rewrite <- app_comm_cons. rewrite !rows_from_cons. rewrite IH.
    cbn [length]. replace (o + S (length A)) with (S o + length A) by lia.
    destruct (a =? k); reflexivity.
Qed.

Lemma rows_from_repeat_eq : forall m o k, rows_from o (repeat k m) k = seq o m.
Proof.
  induction m as [|m IH]; intros o k.
  - reflexivity.
  - cbn [repeat]. rewrite rows_from_cons, Nat.eqb_refl, IH. reflexivity.
Qed.

Lemma rows_from_none : forall L o k,
  (forall x, In x L -> x <> k) -> rows_from o L k = [].
Proof.
  induction L as [|x L IH]; intros o k H.
  - reflexivity.
  - rewrite rows_from_cons.
    replace (x =? k) with false
      by (symmetry; apply Nat.eqb_neq; apply H; left; reflexivity).
    apply IH. intros y Hy. apply H. right. exact Hy.
Qed.

(** * the block form of the dense labels *)

Lemma cd_blocks_ge : forall cpts prev n k x,
  In x (cd_blocks prev cpts n k) -> k <= x.
Proof.
  induction cpts as [|c t IH]; intros prev n k x Hin; cbn [cd_blocks] in Hin.
  - apply repeat_spec in Hin. lia.
  - apply in_app_or in Hin. destruct Hin as [Hin | Hin].
    + apply repeat_spec in Hin. lia.
    + apply IH in Hin. lia.
Qed.

Lemma rows_blocks : forall cpts prev n k,
  incr_from prev cpts n -> prev < n ->
  map (rows_from prev (cd_blocks prev cpts n k)) (seq k (S (length cpts))) =
  map seg_rows (segs_from prev cpts n).
Proof.
  induction cpts as [|c t IH]; intros prev n k Hok Hlt.
  - cbn [cd_blocks length seq map segs_from].
    rewrite rows_from_repeat_eq. reflexivity.
  - destruct Hok as [H1 [H2 H3]]. cbn [cd_blocks length segs_from map].
    change (seq k (S (S (length t)))) with (k :: seq (S k) (S (length t))).
    cbn [map]. f_equal.
    + rewrite rows_from_app, rows_from_repeat_eq.
      rewrite rows_from_none
        by (intros x Hx; apply cd_blocks_ge in Hx; lia).
      rewrite app_nil_r. reflexivity.
    + rewrite <- (IH c n (S k) H3 H2). apply map_ext_in.
      intros j Hj. apply in_seq in Hj. rewrite rows_from_app.
      rewrite rows_from_none
        by (intros x Hx; apply repeat_spec in Hx; lia).
      rewrite repeat_length. replace (prev + (c - prev)) with c by lia.
      reflexivity.
Qed.

Lemma cd_blocks_max : forall cpts prev n k,
  incr_from prev cpts n -> prev < n ->
  fold_right Nat.max 0 (cd_blocks prev cpts n k) = k + length cpts.
Proof.
  induction cpts as [|c t IH]; intros prev n k Hok Hlt; cbn [cd_blocks length].
  - rewrite fold_max_repeat by lia. lia.
  - destruct Hok as [H1 [H2 H3]].
    rewrite fold_max_app, fold_max_repeat by lia.
    rewrite (IH c n (S k) H3 H2). lia.
Qed.

(** * the segments form a partition of [0, n) *)

(** [segs_from] is [Generate.consecutive] under another name: length, cover and
    adjacency are taken from Proofs/GenerateProofs.v *)

Lemma segs_from_ivs : forall cpts prev n,
  incr_from prev cpts n -> prev < n -> ivs_from prev (segs_from prev cpts n) n.
Proof.
  induction cpts as [|c t IH]; intros prev n Hok Hlt; cbn [segs_from ivs_from].
  - lia.
  - destruct Hok as [H1 [H2 H3]].
    split; [lia|]. split; [lia|]. split; [lia|]. apply IH; assumption.
Qed.

Theorem segments_length : forall n cpts, length (segments n cpts) = S (length cpts).
Proof.
  intros n cpts. apply (consecutive_length cpts 0 n).
Qed.

Theorem segments_consecutive : forall n cpts k s1 e1 s2 e2,
  nth_error (segments n cpts) k = Some (s1, e1) ->
  nth_error (segments n cpts) (S k) = Some (s2, e2) ->
  e1 = s2.
Proof.
  intros n cpts k s1 e1 s2 e2 Ha Hb.
  exact (consecutive_adjacent cpts 0 n k s1 e1 s2 e2 Ha Hb).
Qed.

Theorem segments_partition : forall n cpts,
  cpts_ok n cpts -> 0 < n ->
  ivs_ok n (segments n cpts) /\
  (forall i, i < n -> exists s e, In (s, e) (segments n cpts) /\ s <= i < e).
Proof.
  intros n cpts Hok Hn. unfold segments, ivs_ok. split.
  - apply segs_from_ivs; assumption.
  - intros i Hi. destruct (consecutive_cover cpts n i Hi) as [k [s [e [Hk Hb]]]].
    exists s, e. split; [exact (nth_error_In _ _ Hk) | exact Hb].
Qed.

Lemma segments_In_bounds : forall n cpts s e,
  cpts_ok n cpts -> 0 < n -> In (s, e) (segments n cpts) -> s < e /\ e <= n.
Proof.
  intros n cpts s e Hok Hn Hin.
  destruct (segments_partition n cpts Hok Hn) as [Hivs _].
  destruct (ivs_from_In _ _ _ _ _ Hivs Hin) as [_ [H1 H2]]. lia.
Qed.

(** * groupby on the dense labels = the segments, in order *)

Theorem groups_of_dense : forall n cpts,
  cpts_ok n cpts -> 0 < n ->
  groups (cd_s2d n cpts) = map seg_rows (segments n cpts).
Proof.
  intros n cpts Hok Hn. unfold groups, segments.
  rewrite cd_s2d_blocks by exact Hok.
  rewrite (cd_blocks_max cpts 0 n 0 Hok Hn). cbn [Nat.add].
  change (rows_of (cd_blocks 0 cpts n 0)) with (rows_from 0 (cd_blocks 0 cpts n 0)).
  rewrite (rows_blocks cpts 0 n 0 Hok Hn).
  apply filter_all_true. intros g Hg.
  apply in_map_iff in Hg. destruct Hg as [[s e] [Hg Hin]]. subst g.
  destruct (segments_In_bounds n cpts s e Hok Hn Hin) as [Hse _].
  unfold seg_rows. cbn [fst snd]. rewrite seq_length.
  destruct (e - s) as [|m] eqn:E; [lia | reflexivity].
Qed.

(** * span of a segment's rows is the segment *)

Lemma span_seg_rows : forall s e, s < e -> span (seg_rows (s, e)) = (s, e).
Proof.
  intros s e Hse. unfold span, seg_rows. cbn [fst snd].
  destruct (e - s) as [|m] eqn:E; [lia|]. f_equal.
  - rewrite seq_S, last_last. lia.
Qed.

(** * filtering keeps an interval list well formed *)

Lemma ivs_from_weaken : forall ivs lo lo' n,
  ivs_from lo ivs n -> lo' <= lo -> ivs_from lo' ivs n.
Proof.
  intros ivs lo lo' n H Hle. destruct ivs as [|[s e] t]; cbn [ivs_from] in *.
  - lia.
  - destruct H as [H1 [H2 [H3 H4]]]. split; [lia|]. split; [lia|]. split; [lia|]. exact H4.
Qed.

Lemma ivs_from_filter : forall (f : nat * nat -> bool) ivs lo n,
  ivs_from lo ivs n -> ivs_from lo (filter f ivs) n.
Proof.
  intros f. induction ivs as [|[s e] t IH]; intros lo n H.
  - exact H.
  - cbn [ivs_from] in H. destruct H as [H1 [H2 [H3 H4]]].
    cbn [filter]. destruct (f (s, e)).
    + cbn [ivs_from]. split; [lia|]. split; [lia|]. split; [lia|]. apply IH. exact H4.
    + apply (ivs_from_weaken (filter f t) e lo n); [apply IH; exact H4 | lia].
Qed.

Section Results.
Variable stat : list nat -> Z.
Variables lo hi : Z.

Theorem anomalise_is_spec : forall n cpts,
  cpts_ok n cpts -> 0 < n ->
  anomalise stat lo hi n cpts = anomalise_spec stat lo hi n cpts.
Proof.
  intros n cpts Hok Hn. unfold anomalise, anomalise_labels, anomalise_spec.
  rewrite groups_of_dense by assumption.
  rewrite filter_map_comm, map_map.
  rewrite <- (map_id (filter (fun se => flagged stat lo hi (seg_rows se)) (segments n cpts))) at 2.
  apply map_ext_in. intros [s e] Hin. apply filter_In in Hin. destruct Hin as [Hin _].
  apply span_seg_rows.
  destruct (segments_In_bounds n cpts s e Hok Hn Hin) as [Hse _]. exact Hse.
Qed.

Theorem anomalise_iff : forall n cpts s e,
  cpts_ok n cpts -> 0 < n ->
  (In (s, e) (anomalise stat lo hi n cpts) <->
   In (s, e) (segments n cpts) /\ flagged stat lo hi (seq s (e - s)) = true).
Proof.
  intros n cpts s e Hok Hn. rewrite anomalise_is_spec by assumption.
  unfold anomalise_spec. rewrite filter_In. unfold seg_rows. cbn [fst snd].
  reflexivity.
Qed.

Theorem anomalise_ok : forall n cpts,
  cpts_ok n cpts -> 0 < n -> ivs_ok n (anomalise stat lo hi n cpts).
Proof.
  intros n cpts Hok Hn. rewrite anomalise_is_spec by assumption.
  unfold anomalise_spec, ivs_ok. apply ivs_from_filter.
  destruct (segments_partition n cpts Hok Hn) as [Hivs _]. exact Hivs.
Qed.

(** every reported interval is exactly ONE segment of the partition, never a union *)
Theorem anomalise_not_merged : forall n cpts,
  cpts_ok n cpts -> 0 < n ->
  forall s e, In (s, e) (anomalise stat lo hi n cpts) -> In (s, e) (segments n cpts).
Proof.
  intros n cpts Hok Hn s e Hin.
  apply (anomalise_iff n cpts s e Hok Hn) in Hin. destruct Hin as [Hin _]. exact Hin.
Qed.

Theorem anomalise_all_flagged : forall n cpts,
  cpts_ok n cpts -> 0 < n ->
  (forall se, In se (segments n cpts) -> flagged stat lo hi (seg_rows se) = true) ->
  anomalise stat lo hi n cpts = segments n cpts.
Proof.
  intros n cpts Hok Hn Hall. rewrite anomalise_is_spec by assumption.
  unfold anomalise_spec. apply filter_all_true. exact Hall.
Qed.

Theorem anomalise_length : forall n cpts,
  cpts_ok n cpts -> 0 < n ->
  length (anomalise stat lo hi n cpts) =
  length (filter (fun se => flagged stat lo hi (seg_rows se)) (segments n cpts)).
Proof.
  intros n cpts Hok Hn. rewrite anomalise_is_spec by assumption. reflexivity.
Qed.

End Results.

(** * Non-vacuity: two ADJACENT flagged segments are reported separately *)

Definition ex_stat (rows : list nat) : Z := Z.of_nat (hd 0 rows).

Example ex_cpts_ok : cpts_ok 6 [2; 4].
Proof. unfold cpts_ok. cbn [incr_from]. lia. Qed.

Example ex_segments : segments 6 [2; 4] = [(0, 2); (2, 4); (4, 6)].
Proof. vm_compute. reflexivity. Qed.

Example ex_flags :
  map (fun se => flagged ex_stat 3%Z 10%Z (seg_rows se)) (segments 6 [2; 4]) =
  [true; true; false].
Proof. vm_compute. reflexivity. Qed.

Example anomalise_adjacent_example :
  anomalise ex_stat 3%Z 10%Z 6 [2; 4] = [(0, 2); (2, 4)].
Proof. vm_compute. reflexivity. Qed.

Example anomalise_adjacent_not_merged :
  ~ In (0, 4) (anomalise ex_stat 3%Z 10%Z 6 [2; 4]).
Proof.
  rewrite anomalise_adjacent_example. intros [H | [H | []]]; discriminate.
Qed.

Print Assumptions groups_of_dense.
Print Assumptions anomalise_is_spec.
Print Assumptions anomalise_iff.
Print Assumptions segments_partition.
Print Assumptions segments_consecutive.
Print Assumptions segments_length.
Print Assumptions anomalise_ok.
Print Assumptions anomalise_not_merged.
Print Assumptions anomalise_all_flagged.
Print Assumptions anomalise_length.
Print Assumptions anomalise_adjacent_example.
Print Assumptions anomalise_adjacent_not_merged.
