(** C12 -- the scores respect the symmetries of the model.

    shift invariance      (x |-> x + c)   of the optimal-parameter costs and of CUSUM
    reversal              (x_i |-> x_{n-1-i}, interval [s,e) |-> [n-e,n-s))
    column permutation    (per-column outputs are permuted, their sum is unchanged)
    scale equivariance    (x |-> a * x)   of the Gaussian cost, invariance of its scores

    Architecture.  The generated kernels (Gen/KernelsR.v) are functions of prefix-sum
    functions; their normal forms ([*_form], Proofs/ScoreKernels.v) show that each depends
    on the interval [s, e) only through [e - s] and the differences of the prefix sums.
    On the prefix sums of a column [xs] these are the length, the sum and the sum of squares
    of [slice s e xs] (section "slice forms"), and shift, scaling and reversal act on those
    three numbers by closed formulas.  The generated definitions are never unfolded here. *)
From Coq Require Import Reals List Psatz Permutation.
From SK Require Import Gen.KernelsR Proofs.RealLib Proofs.ScoreKernels.
Import ListNotations.
Open Scope R_scope.

(** * Vocabulary *)

Definition P1 (xs : list R) : nat -> R := prefix xs.
Definition P2 (xs : list R) : nat -> R := prefix (sq xs).
Definition shift (c : R) (xs : list R) : list R := map (fun x => x + c) xs.
Definition scale (a : R) (xs : list R) : list R := map (fun x => a * x) xs.

(** list-level statistics (functions of length, sum, sum of squares only) *)
Definition uvar (l : list R) : R :=                       (* un-floored ML variance *)
  sumR (sq l) / INR (length l) - (sumR l / INR (length l)) ^ 2.
Definition varL (l : list R) : R := Rmax (uvar l) floor_var.
Definition l2L (l : list R) : R := sumR (sq l) - (sumR l) ^ 2 / INR (length l).
Definition gvarL (l : list R) : R :=
  INR (length l) * ln (2 * PI * varL l) + INR (length l).
Definition cusumL (la lb : list R) : R :=
  Rabs (sqrt (INR (length lb) / ((INR (length la) + INR (length lb)) * INR (length la))) * sumR la
        - sqrt (INR (length la) / ((INR (length la) + INR (length lb)) * INR (length lb))) * sumR lb).

(** un-floored variance of the slice [s,e) of a column *)
Definition uvar_se (xs : list R) (s e : nat) : R := uvar (slice s e xs).

(** generic scores built from an interval cost *)
Definition change_score (C : nat -> nat -> R) (s k e : nat) : R := C s e - C s k - C k e.
(** the same score as the adapter of Proofs/ScoreKernels.v *)
Lemma change_score_eq C s k e : change_score C s k e = ScoreKernels.change_score C s k e.
Proof. unfold change_score, ScoreKernels.change_score. ring. Qed.

(** local (4-point) anomaly score of a list cost [F], the pooled surroundings
    (before ++ after) being treated as one list *)
Definition local_listscore (F : list R -> R) (whole inner before after : list R) : R :=
  F whole - F inner - F (before ++ after).

(** * Basic list facts *)

Lemma shift_length c l : length (shift c l) = length l.
Proof. unfold shift. apply map_length. Qed.
Lemma scale_length a l : length (scale a l) = length l.
Proof. unfold scale. apply map_length. Qed.
Lemma sq_length l : length (sq l) = length l.
Proof. unfold sq. apply map_length. Qed.

Lemma sumR_shift c l : sumR (shift c l) = sumR l + INR (length l) * c.
Proof.
  unfold shift. induction l as [|x t IH]; [simpl; lra|].
  change (length (x :: t)) with (S (length t)). rewrite S_INR. cbn [map sumR]. rewrite IH. ring.
Qed.

Lemma sumR_sq_shift c l :
  sumR (sq (shift c l)) = sumR (sq l) + 2 * c * sumR l + INR (length l) * c ^ 2.
Proof.
  unfold shift, sq. induction l as [|x t IH]; [simpl; lra|].
  change (length (x :: t)) with (S (length t)). rewrite S_INR. cbn [map sumR]. rewrite IH. ring.
Qed.

Lemma sumR_scale a l : sumR (scale a l) = a * sumR l.
Proof. unfold scale. induction l as [|x t IH]; cbn [map sumR]; [lra | rewrite IH; ring]. Qed.

Lemma sumR_sq_scale a l : sumR (sq (scale a l)) = a ^ 2 * sumR (sq l).
Proof. unfold scale, sq. induction l as [|x t IH]; cbn [map sumR]; [lra | rewrite IH; ring]. Qed.

Lemma slice_shift c s e l : slice s e (shift c l) = shift c (slice s e l).
Proof. unfold shift. symmetry. apply map_slice. Qed.
Lemma slice_scale a s e l : slice s e (scale a l) = scale a (slice s e l).
Proof. unfold scale. symmetry. apply map_slice. Qed.

Lemma shift_app c l1 l2 : shift c (l1 ++ l2) = shift c l1 ++ shift c l2.
Proof. unfold shift. apply map_app. Qed.
Lemma scale_app a l1 l2 : scale a (l1 ++ l2) = scale a l1 ++ scale a l2.
Proof. unfold scale. apply map_app. Qed.

Lemma sumR_rev l : sumR (rev l) = sumR l.
Proof. induction l as [|x t IH]; [reflexivity|]. cbn [rev]. rewrite sumR_app, IH. simpl. lra. Qed.
Lemma sq_rev l : sq (rev l) = rev (sq l).
Proof. unfold sq. apply map_rev. Qed.
Lemma sumR_sq_rev l : sumR (sq (rev l)) = sumR (sq l).
Proof. rewrite sq_rev. apply sumR_rev. Qed.

Lemma slice_rev (xs : list R) s e :
  (s <= e <= length xs)%nat ->
  slice (length xs - e) (length xs - s) (rev xs) = rev (slice s e xs).
Proof.
  intros H. unfold slice.
  rewrite skipn_rev.
  replace (length xs - (length xs - e))%nat with e by lia.
  replace (length xs - s - (length xs - e))%nat with (e - s)%nat by lia.
  rewrite firstn_rev. f_equal.
  rewrite firstn_length. replace (Nat.min e (length xs) - (e - s))%nat with s by lia.
  apply skipn_firstn_comm.
Qed.

Lemma INR_len_pos (l : list R) : (0 < length l)%nat -> 0 < INR (length l).
Proof. intros H. apply lt_0_INR. exact H. Qed.

Lemma uvar_varR l : (0 < length l)%nat -> uvar l = varR l.
Proof.
  intros H. unfold uvar, varR. rewrite (rss_expand l H).
  pose proof (INR_len_pos l H) as Hn. field. lra.
Qed.

(** * Slice forms of the generated kernels *)

Section SliceForms.
Variable xs : list R.

Lemma V_slice s e : (s <= e <= length xs)%nat -> V (P1 xs) (P2 xs) s e = uvar (slice s e xs).
Proof.
  intros H. unfold V, P1, P2, uvar.
  rewrite prefix_sq_diff, prefix_diff, slice_length by lia. reflexivity.
Qed.

Lemma l2_optim_slice s e : (s < e <= length xs)%nat ->
  l2_cost_optim_R (P1 xs) (P2 xs) s e = l2L (slice s e xs).
Proof.
  intros H. unfold P1, P2, l2L.
  rewrite l2_optim_form, prefix_sq_diff, prefix_diff, slice_length by lia. reflexivity.
Qed.

Lemma var_slice s e : (s < e <= length xs)%nat ->
  var_from_sums_R (P1 xs) (P2 xs) s e = varL (slice s e xs).
Proof. intros H. rewrite var_from_sums_form, V_slice by lia. reflexivity. Qed.

Lemma gvar_optim_slice s e : (s < e <= length xs)%nat ->
  gaussian_var_cost_optim_R (P1 xs) (P2 xs) s e = gvarL (slice s e xs).
Proof.
  intros H. unfold gvarL, varL.
  rewrite gvar_optim_form, V_slice, slice_length by lia. reflexivity.
Qed.

Lemma cusum_slice s k e : (s < k < e)%nat -> (e <= length xs)%nat ->
  cusum_score_R (P1 xs) s k e = cusumL (slice s k xs) (slice k e xs).
Proof.
  intros H He. unfold cusumL, P1.
  rewrite cusum_form, !prefix_diff, !slice_length by lia. reflexivity.
Qed.

End SliceForms.

(** * Shift invariance *)

Lemma uvar_shift c l : (0 < length l)%nat -> uvar (shift c l) = uvar l.
Proof.
  intros H. pose proof (INR_len_pos l H) as Hn. unfold uvar.
  rewrite sumR_sq_shift, sumR_shift, shift_length. field. lra.
Qed.

Lemma l2L_shift c l : (0 < length l)%nat -> l2L (shift c l) = l2L l.
Proof.
  intros H. pose proof (INR_len_pos l H) as Hn. unfold l2L.
  rewrite sumR_sq_shift, sumR_shift, shift_length. field. lra.
Qed.

Lemma varL_shift c l : (0 < length l)%nat -> varL (shift c l) = varL l.
Proof. intros H. unfold varL. now rewrite uvar_shift. Qed.

Lemma gvarL_shift c l : (0 < length l)%nat -> gvarL (shift c l) = gvarL l.
Proof. intros H. unfold gvarL. now rewrite varL_shift, shift_length. Qed.

(** the two CUSUM weights, multiplied by the length of their own side, coincide:
    sqrt(nb/(n na)) * na = sqrt(na/(n nb)) * nb  ( = sqrt(na nb / n) ) *)
Lemma cusum_weights na nb : 0 < na -> 0 < nb ->
  sqrt (nb / ((na + nb) * na)) * na = sqrt (na / ((na + nb) * nb)) * nb.
Proof.
  intros Ha Hb.
  assert (Hq1 : 0 <= nb / ((na + nb) * na)).
  { apply Rlt_le, Rdiv_lt_0_compat; nra. }
  assert (Hq2 : 0 <= na / ((na + nb) * nb)).
  { apply Rlt_le, Rdiv_lt_0_compat; nra. }
  assert (E : forall q x, 0 <= q -> 0 <= x -> sqrt q * x = sqrt (q * (x * x))).
  { intros q x Hq Hx. rewrite sqrt_mult by nra. rewrite sqrt_square by lra. reflexivity. }
  rewrite (E _ na Hq1) by lra. rewrite (E _ nb Hq2) by lra.
  f_equal. field. nz.
Qed.

Lemma cusumL_shift c la lb : (0 < length la)%nat -> (0 < length lb)%nat ->
  cusumL (shift c la) (shift c lb) = cusumL la lb.
Proof.
  intros Ha Hb. pose proof (INR_len_pos la Ha) as Hna. pose proof (INR_len_pos lb Hb) as Hnb.
  unfold cusumL. rewrite !sumR_shift, !shift_length.
  pose proof (cusum_weights _ _ Hna Hnb) as Hw.
  set (wa := sqrt (INR (length lb) / _)) in *. set (wb := sqrt (INR (length la) / _)) in *.
  apply (f_equal Rabs).
  replace (wa * (sumR la + INR (length la) * c) - wb * (sumR lb + INR (length lb) * c))
    with (wa * sumR la - wb * sumR lb + c * (wa * INR (length la) - wb * INR (length lb))) by ring.
  rewrite Hw. ring.
Qed.

Section Shift.
Variables (c : R) (xs : list R).

Theorem l2_optim_shift s e : (s < e <= length xs)%nat ->
  l2_cost_optim_R (P1 (shift c xs)) (P2 (shift c xs)) s e = l2_cost_optim_R (P1 xs) (P2 xs) s e.
Proof.
  intros H. rewrite !l2_optim_slice by (rewrite ?shift_length; lia).
  rewrite slice_shift. apply l2L_shift. rewrite slice_length; lia.
Qed.

(** the un-floored variance of every slice is shift invariant *)
Theorem var_shift s e : (s < e <= length xs)%nat ->
  uvar_se (shift c xs) s e = uvar_se xs s e.
Proof.
  intros H. unfold uvar_se. rewrite slice_shift. apply uvar_shift. rewrite slice_length; lia.
Qed.

Theorem var_from_sums_shift s e : (s < e <= length xs)%nat ->
  var_from_sums_R (P1 (shift c xs)) (P2 (shift c xs)) s e = var_from_sums_R (P1 xs) (P2 xs) s e.
Proof.
  intros H. rewrite !var_slice by (rewrite ?shift_length; lia).
  rewrite slice_shift. apply varL_shift. rewrite slice_length; lia.
Qed.

Theorem gvar_optim_shift s e : (s < e <= length xs)%nat ->
  gaussian_var_cost_optim_R (P1 (shift c xs)) (P2 (shift c xs)) s e
  = gaussian_var_cost_optim_R (P1 xs) (P2 xs) s e.
Proof.
  intros H. rewrite !gvar_optim_slice by (rewrite ?shift_length; lia).
  rewrite slice_shift. apply gvarL_shift. rewrite slice_length; lia.
Qed.

Theorem cusum_shift s k e : (s < k < e)%nat -> (e <= length xs)%nat ->
  cusum_score_R (P1 (shift c xs)) s k e = cusum_score_R (P1 xs) s k e.
Proof.
  intros H He. rewrite !cusum_slice by (rewrite ?shift_length; lia).
  rewrite !slice_shift. apply cusumL_shift; rewrite slice_length; lia.
Qed.

(** the saving is NOT shift invariant in general (it is the baseline-mean-0 saving);
    it is only when the shift is applied to the baseline as well -- not stated. *)

End Shift.

(** any score that is a combination of costs over sub-intervals inherits the invariance *)
Lemma change_score_ext (C C' : nat -> nat -> R) n s k e :
  (forall a b, (a < b <= n)%nat -> C' a b = C a b) ->
  (s < k < e)%nat -> (e <= n)%nat ->
  change_score C' s k e = change_score C s k e.
Proof.
  intros HC H He. unfold change_score. rewrite !HC by lia. reflexivity.
Qed.

(** local anomaly score of any shift-invariant list cost *)
Lemma local_listscore_shift (F : list R -> R) c whole inner before after :
  (forall l, (0 < length l)%nat -> F (shift c l) = F l) ->
  (0 < length whole)%nat -> (0 < length inner)%nat -> (0 < length (before ++ after))%nat ->
  local_listscore F (shift c whole) (shift c inner) (shift c before) (shift c after)
  = local_listscore F whole inner before after.
Proof.
  intros HF Hw Hi Ho. unfold local_listscore. rewrite <- shift_app.
  now rewrite !HF by assumption.
Qed.

Corollary l2_local_score_shift c whole inner before after :
  (0 < length whole)%nat -> (0 < length inner)%nat -> (0 < length (before ++ after))%nat ->
  local_listscore l2L (shift c whole) (shift c inner) (shift c before) (shift c after)
  = local_listscore l2L whole inner before after.
Proof. apply local_listscore_shift. intros l Hl. now apply l2L_shift. Qed.

Corollary gvar_local_score_shift c whole inner before after :
  (0 < length whole)%nat -> (0 < length inner)%nat -> (0 < length (before ++ after))%nat ->
  local_listscore gvarL (shift c whole) (shift c inner) (shift c before) (shift c after)
  = local_listscore gvarL whole inner before after.
Proof. apply local_listscore_shift. intros l Hl. now apply gvarL_shift. Qed.

Corollary l2_change_score_shift c xs s k e : (s < k < e)%nat -> (e <= length xs)%nat ->
  change_score (l2_cost_optim_R (P1 (shift c xs)) (P2 (shift c xs))) s k e
  = change_score (l2_cost_optim_R (P1 xs) (P2 xs)) s k e.
Proof.
  intros H He. apply (change_score_ext _ _ (length xs)); try assumption.
  intros a b Hab. now apply l2_optim_shift.
Qed.

Corollary gvar_change_score_shift c xs s k e : (s < k < e)%nat -> (e <= length xs)%nat ->
  change_score (gaussian_var_cost_optim_R (P1 (shift c xs)) (P2 (shift c xs))) s k e
  = change_score (gaussian_var_cost_optim_R (P1 xs) (P2 xs)) s k e.
Proof.
  intros H He. apply (change_score_ext _ _ (length xs)); try assumption.
  intros a b Hab. now apply gvar_optim_shift.
Qed.

(** * Reversal *)

Lemma uvar_rev l : uvar (rev l) = uvar l.
Proof. unfold uvar. now rewrite sumR_sq_rev, sumR_rev, rev_length. Qed.
Lemma varL_rev l : varL (rev l) = varL l.
Proof. unfold varL. now rewrite uvar_rev. Qed.
Lemma l2L_rev l : l2L (rev l) = l2L l.
Proof. unfold l2L. now rewrite sumR_sq_rev, sumR_rev, rev_length. Qed.
Lemma gvarL_rev l : gvarL (rev l) = gvarL l.
Proof. unfold gvarL. now rewrite varL_rev, rev_length. Qed.

(** mirrored cut: the two sides swap, and |x - y| = |y - x| *)
Lemma cusumL_rev la lb : cusumL (rev lb) (rev la) = cusumL la lb.
Proof.
  unfold cusumL. rewrite !sumR_rev, !rev_length. rewrite Rabs_minus_sym.
  rewrite (Rplus_comm (INR (length lb)) (INR (length la))). reflexivity.
Qed.

Section Reversal.
Variable xs : list R.
Local Notation n := (length xs).

Lemma prefix_rev_diff (l : list R) s e : (s <= e <= length l)%nat ->
  prefix (rev l) (length l - s) - prefix (rev l) (length l - e) = prefix l e - prefix l s.
Proof.
  intros H. rewrite !prefix_diff, slice_rev, sumR_rev by lia. reflexivity.
Qed.

(** a kernel that reads the prefix sums only through the length, the sum and the sum of
    squares of the segment takes the same value at the mirrored segment of the reversed
    column; [g] is the kernel's normal form *)
Lemma kernel_rev (K : (nat -> R) -> (nat -> R) -> nat -> nat -> R) (g : R -> R -> R -> R) :
  (forall S1 S2 s e, (s < e)%nat -> K S1 S2 s e = g (INR (e - s)) (S1 e - S1 s) (S2 e - S2 s)) ->
  forall s e, (s < e <= n)%nat ->
  K (P1 (rev xs)) (P2 (rev xs)) (n - e)%nat (n - s)%nat = K (P1 xs) (P2 xs) s e.
Proof.
  intros HK s e H. rewrite !HK by lia. unfold P1, P2.
  rewrite (prefix_rev_diff xs), sq_rev by lia.
  rewrite <- (sq_length xs), (prefix_rev_diff (sq xs)) by (rewrite sq_length; lia).
  replace (length (sq xs) - s - (length (sq xs) - e))%nat with (e - s)%nat
    by (rewrite sq_length; lia).
  reflexivity.
Qed.

Theorem l2_optim_rev s e : (s < e <= n)%nat ->
  l2_cost_optim_R (P1 (rev xs)) (P2 (rev xs)) (n - e) (n - s) = l2_cost_optim_R (P1 xs) (P2 xs) s e.
Proof. exact (kernel_rev _ (fun N A Q => Q - A ^ 2 / N) l2_optim_form s e). Qed.

Theorem l2_fixed_rev mu s e : (s < e <= n)%nat ->
  l2_cost_fixed_R (P1 (rev xs)) (P2 (rev xs)) mu (n - e) (n - s)
  = l2_cost_fixed_R (P1 xs) (P2 xs) mu s e.
Proof.
  exact (kernel_rev _ (fun N A Q => Q - 2 * mu * A + N * mu ^ 2)
           (fun S1 S2 s e _ => l2_fixed_form S1 S2 mu s e) s e).
Qed.

Theorem var_from_sums_rev s e : (s < e <= n)%nat ->
  var_from_sums_R (P1 (rev xs)) (P2 (rev xs)) (n - e) (n - s) = var_from_sums_R (P1 xs) (P2 xs) s e.
Proof.
  exact (kernel_rev _ (fun N A Q => Rmax (Q / N - (A / N) ^ 2) floor_var) var_from_sums_form s e).
Qed.

Theorem gvar_optim_rev s e : (s < e <= n)%nat ->
  gaussian_var_cost_optim_R (P1 (rev xs)) (P2 (rev xs)) (n - e) (n - s)
  = gaussian_var_cost_optim_R (P1 xs) (P2 xs) s e.
Proof.
  exact (kernel_rev _ (fun N A Q => N * ln (2 * PI * Rmax (Q / N - (A / N) ^ 2) floor_var) + N)
           gvar_optim_form s e).
Qed.

Theorem gvar_fixed_rev mu v s e : (s < e <= n)%nat ->
  gaussian_var_cost_fixed_R (P1 (rev xs)) (P2 (rev xs)) mu v (n - e) (n - s)
  = gaussian_var_cost_fixed_R (P1 xs) (P2 xs) mu v s e.
Proof.
  exact (kernel_rev _ (fun N A Q => N * ln (2 * PI * v) + (Q - 2 * mu * A + N * mu ^ 2) / v)
           (fun S1 S2 s e _ => gvar_fixed_form S1 S2 mu v s e) s e).
Qed.

Theorem l2_saving_rev s e : (s < e <= n)%nat ->
  l2_saving_R (P1 (rev xs)) (n - e) (n - s) = l2_saving_R (P1 xs) s e.
Proof.
  exact (kernel_rev (fun S1 _ => l2_saving_R S1) (fun N A _ => A ^ 2 / N)
           (fun S1 _ => l2_saving_form S1) s e).
Qed.

Theorem cusum_rev s k e : (s < k < e)%nat -> (e <= n)%nat ->
  cusum_score_R (P1 (rev xs)) (n - e) (n - k) (n - s) = cusum_score_R (P1 xs) s k e.
Proof.
  intros H He. rewrite !cusum_slice by (rewrite ?rev_length; lia).
  rewrite !slice_rev by lia. apply cusumL_rev.
Qed.

(** for ANY interval cost that is mirror-symmetric, the change score of the mirrored
    cut (n-e, n-k, n-s) equals that of (s,k,e) *)
Theorem change_score_rev (C C' : nat -> nat -> R) s k e :
  (forall a b, (a < b <= n)%nat -> C' (n - b)%nat (n - a)%nat = C a b) ->
  (s < k < e)%nat -> (e <= n)%nat ->
  change_score C' (n - e) (n - k) (n - s) = change_score C s k e.
Proof.
  intros HC H He. unfold change_score. rewrite !HC by lia. ring.
Qed.

Corollary l2_change_score_rev s k e : (s < k < e)%nat -> (e <= n)%nat ->
  change_score (l2_cost_optim_R (P1 (rev xs)) (P2 (rev xs))) (n - e) (n - k) (n - s)
  = change_score (l2_cost_optim_R (P1 xs) (P2 xs)) s k e.
Proof. intros H He. apply change_score_rev; try assumption. intros a b Hab. now apply l2_optim_rev. Qed.

Corollary gvar_change_score_rev s k e : (s < k < e)%nat -> (e <= n)%nat ->
  change_score (gaussian_var_cost_optim_R (P1 (rev xs)) (P2 (rev xs))) (n - e) (n - k) (n - s)
  = change_score (gaussian_var_cost_optim_R (P1 xs) (P2 xs)) s k e.
Proof. intros H He. apply change_score_rev; try assumption. intros a b Hab. now apply gvar_optim_rev. Qed.

End Reversal.

(** * Column permutation *)

(** a per-column kernel evaluated on a p-column input, column by column *)
Definition per_column (kern : (nat -> R) -> (nat -> R) -> nat -> nat -> R)
           (cols : list (list R)) (s e : nat) : list R :=
  map (fun col => kern (P1 col) (P2 col) s e) cols.
Definition per_column_cut (kern : (nat -> R) -> nat -> nat -> nat -> R)
           (cols : list (list R)) (s k e : nat) : list R :=
  map (fun col => kern (P1 col) s k e) cols.

Theorem per_column_perm kern cols cols' s e :
  Permutation cols cols' -> Permutation (per_column kern cols s e) (per_column kern cols' s e).
Proof. intros H. unfold per_column. now apply Permutation_map. Qed.

Theorem per_column_cut_perm kern cols cols' s k e :
  Permutation cols cols' ->
  Permutation (per_column_cut kern cols s k e) (per_column_cut kern cols' s k e).
Proof. intros H. unfold per_column_cut. now apply Permutation_map. Qed.

(** the aggregated (summed over columns) score is invariant *)
Theorem aggregated_perm kern cols cols' s e :
  Permutation cols cols' -> sumR (per_column kern cols s e) = sumR (per_column kern cols' s e).
Proof. intros H. apply sumR_perm. now apply per_column_perm. Qed.

Theorem aggregated_cut_perm kern cols cols' s k e :
  Permutation cols cols' ->
  sumR (per_column_cut kern cols s k e) = sumR (per_column_cut kern cols' s k e).
Proof. intros H. apply sumR_perm. now apply per_column_cut_perm. Qed.

(** any function of the columns applied column-wise, in general *)
Theorem columnwise_perm {A} (f : A -> R) cols cols' :
  Permutation cols cols' ->
  Permutation (map f cols) (map f cols') /\ sumR (map f cols) = sumR (map f cols').
Proof. intros H. split; [|apply sumR_perm]; now apply Permutation_map. Qed.

(** * Scale *)

Lemma uvar_scale a l : (0 < length l)%nat -> uvar (scale a l) = a ^ 2 * uvar l.
Proof.
  intros H. pose proof (INR_len_pos l H) as Hn. unfold uvar.
  rewrite sumR_sq_scale, sumR_scale, scale_length. field. lra.
Qed.

Lemma l2L_scale a l : l2L (scale a l) = a ^ 2 * l2L l.
Proof.
  unfold l2L. rewrite sumR_sq_scale, sumR_scale, scale_length. unfold Rdiv. ring.
Qed.

Lemma ln_2PI_scale a v : a <> 0 -> 0 < v ->
  ln (2 * PI * (a ^ 2 * v)) = ln (2 * PI * v) + ln (a ^ 2).
Proof.
  intros Ha Hv. pose proof PI_RGT_0 as Hpi.
  assert (Ha2 : 0 < a ^ 2) by nra.
  replace (2 * PI * (a ^ 2 * v)) with ((2 * PI * v) * a ^ 2) by ring.
  apply ln_mult; nra.
Qed.

(** cost functional on lists, direct definition through [varR] *)
Definition gcost (l : list R) : R := INR (length l) * ln (2 * PI * varR l) + INR (length l).

Lemma varR_pos_nonempty l : 0 < varR l -> (0 < length l)%nat.
Proof.
  intros H. destruct l as [|x t]; [|simpl; lia].
  exfalso. unfold varR, rss, sse in H. simpl in H. unfold Rdiv in H. rewrite Rmult_0_l in H. lra.
Qed.

Lemma varR_scale a l : (0 < length l)%nat -> varR (scale a l) = a ^ 2 * varR l.
Proof.
  intros H. rewrite <- !uvar_varR by (rewrite ?scale_length; assumption).
  now apply uvar_scale.
Qed.

Lemma gcost_scale_nz a l : a <> 0 -> 0 < varR l ->
  gcost (scale a l) = gcost l + INR (length l) * ln (a ^ 2).
Proof.
  intros Ha Hv. pose proof (varR_pos_nonempty l Hv) as Hl. unfold gcost.
  rewrite varR_scale by assumption. rewrite scale_length.
  rewrite ln_2PI_scale by assumption. ring.
Qed.

Lemma gcost_shift c l : gcost (shift c l) = gcost l.
Proof.
  destruct l as [|x t]; [reflexivity|].
  assert (Hl : (0 < length (x :: t))%nat) by (simpl; lia).
  unfold gcost. rewrite <- !uvar_varR by (rewrite ?shift_length; assumption).
  now rewrite uvar_shift, shift_length.
Qed.

(** [gcost] of a slice is the generated Gaussian cost whenever the floor is inactive *)
Lemma gvarL_gcost l : (0 < length l)%nat -> floor_var <= uvar l -> gvarL l = gcost l.
Proof.
  intros Hl Hf. unfold gvarL, gcost, varL. rewrite (Rmax_left _ _ Hf).
  now rewrite uvar_varR.
Qed.

Lemma gvarL_scale a l : a <> 0 -> (0 < length l)%nat ->
  floor_var <= uvar l -> floor_var <= uvar (scale a l) ->
  gvarL (scale a l) = gvarL l + INR (length l) * ln (a ^ 2).
Proof.
  intros Ha Hl Hf Hf'. pose proof floor_var_pos.
  rewrite !gvarL_gcost by (rewrite ?scale_length; assumption).
  apply gcost_scale_nz; [exact Ha|]. rewrite <- uvar_varR by exact Hl. lra.
Qed.

Theorem gvar_optim_gcost xs s e : (s < e <= length xs)%nat -> floor_var <= uvar_se xs s e ->
  gaussian_var_cost_optim_R (P1 xs) (P2 xs) s e = gcost (slice s e xs).
Proof.
  intros H Hf. rewrite gvar_optim_slice by assumption. apply gvarL_gcost; [|exact Hf].
  rewrite slice_length; lia.
Qed.

(** local (4-point) anomaly score with the pooled surroundings treated as a list *)
Definition local_gcost (whole inner before after : list R) : R :=
  local_listscore gcost whole inner before after.

Theorem local_gcost_scale a whole inner before after :
  0 < a ->
  length whole = (length inner + length (before ++ after))%nat ->
  0 < varR whole -> 0 < varR inner -> 0 < varR (before ++ after) ->
  local_gcost (scale a whole) (scale a inner) (scale a before) (scale a after)
  = local_gcost whole inner before after.
Proof.
  intros Ha Hlen Hw Hi Ho. unfold local_gcost, local_listscore.
  rewrite <- scale_app. rewrite !gcost_scale_nz by (assumption || lra).
  rewrite Hlen, plus_INR. ring.
Qed.

Theorem local_gcost_shift c whole inner before after :
  local_gcost (shift c whole) (shift c inner) (shift c before) (shift c after)
  = local_gcost whole inner before after.
Proof. unfold local_gcost, local_listscore. rewrite <- shift_app. now rewrite !gcost_shift. Qed.

(** same statement on the slices of a column: whole = [s,e), inner = [i,j),
    before = [s,i), after = [j,e) *)
Corollary local_gcost_scale_slices a xs s i j e :
  0 < a -> (s <= i)%nat -> (i <= j)%nat -> (j <= e)%nat -> (e <= length xs)%nat ->
  0 < varR (slice s e xs) -> 0 < varR (slice i j xs) ->
  0 < varR (slice s i xs ++ slice j e xs) ->
  local_gcost (slice s e (scale a xs)) (slice i j (scale a xs))
              (slice s i (scale a xs)) (slice j e (scale a xs))
  = local_gcost (slice s e xs) (slice i j xs) (slice s i xs) (slice j e xs).
Proof.
  intros Ha H1 H2 H3 H4 Hw Hi Ho. rewrite !slice_scale.
  apply local_gcost_scale; try assumption.
  rewrite app_length, !slice_length by lia. lia.
Qed.

Section Scale.
Variables (a : R) (xs : list R).

(** the L2 cost is NOT scale invariant: it is homogeneous of degree 2 (any [a]) *)
Theorem l2_optim_scale s e : (s < e <= length xs)%nat ->
  l2_cost_optim_R (P1 (scale a xs)) (P2 (scale a xs)) s e
  = a ^ 2 * l2_cost_optim_R (P1 xs) (P2 xs) s e.
Proof.
  intros H. rewrite !l2_optim_slice by (rewrite ?scale_length; lia).
  rewrite slice_scale. apply l2L_scale.
Qed.

(** the un-floored variance is homogeneous of degree 2 *)
Theorem var_scale s e : (s < e <= length xs)%nat ->
  uvar_se (scale a xs) s e = a ^ 2 * uvar_se xs s e.
Proof.
  intros H. unfold uvar_se. rewrite slice_scale. apply uvar_scale. rewrite slice_length; lia.
Qed.

(** CUSUM is homogeneous of degree 1 (any [a]) *)
Theorem cusum_scale s k e : (s < k < e)%nat -> (e <= length xs)%nat ->
  cusum_score_R (P1 (scale a xs)) s k e = Rabs a * cusum_score_R (P1 xs) s k e.
Proof.
  intros H He. rewrite !cusum_slice by (rewrite ?scale_length; lia).
  rewrite !slice_scale. unfold cusumL. rewrite !sumR_scale, !scale_length.
  rewrite <- Rabs_mult. apply (f_equal Rabs). ring.
Qed.

Theorem gvar_optim_scale s e : 0 < a -> (s < e <= length xs)%nat ->
  floor_var <= uvar_se xs s e -> floor_var <= uvar_se (scale a xs) s e ->
  gaussian_var_cost_optim_R (P1 (scale a xs)) (P2 (scale a xs)) s e
  = gaussian_var_cost_optim_R (P1 xs) (P2 xs) s e + INR (e - s) * ln (a ^ 2).
Proof.
  intros Ha H Hf Hf'. unfold uvar_se in Hf, Hf'. rewrite slice_scale in Hf'.
  rewrite !gvar_optim_slice by (rewrite ?scale_length; lia).
  rewrite slice_scale.
  rewrite gvarL_scale; try assumption; try lra; try (rewrite slice_length; lia).
  rewrite slice_length by lia. reflexivity.
Qed.

(** the Gaussian change score is scale invariant: the n ln(a^2) terms cancel *)
Theorem gvar_change_score_scale s k e : 0 < a -> (s < k < e)%nat -> (e <= length xs)%nat ->
  floor_var <= uvar_se xs s e -> floor_var <= uvar_se (scale a xs) s e ->
  floor_var <= uvar_se xs s k -> floor_var <= uvar_se (scale a xs) s k ->
  floor_var <= uvar_se xs k e -> floor_var <= uvar_se (scale a xs) k e ->
  let C  := gaussian_var_cost_optim_R (P1 xs) (P2 xs) in
  let C' := gaussian_var_cost_optim_R (P1 (scale a xs)) (P2 (scale a xs)) in
  C' s e - (C' s k + C' k e) = C s e - (C s k + C k e).
Proof.
  intros Ha H He F1 F1' F2 F2' F3 F3' C C'. unfold C, C'.
  rewrite !gvar_optim_scale by (try assumption; lia).
  replace (e - s)%nat with ((k - s) + (e - k))%nat by lia. rewrite plus_INR. ring.
Qed.

Corollary gvar_change_score_scale' s k e : 0 < a -> (s < k < e)%nat -> (e <= length xs)%nat ->
  floor_var <= uvar_se xs s e -> floor_var <= uvar_se (scale a xs) s e ->
  floor_var <= uvar_se xs s k -> floor_var <= uvar_se (scale a xs) s k ->
  floor_var <= uvar_se xs k e -> floor_var <= uvar_se (scale a xs) k e ->
  change_score (gaussian_var_cost_optim_R (P1 (scale a xs)) (P2 (scale a xs))) s k e
  = change_score (gaussian_var_cost_optim_R (P1 xs) (P2 xs)) s k e.
Proof.
  intros Ha H He F1 F1' F2 F2' F3 F3'.
  pose proof (gvar_change_score_scale s k e Ha H He F1 F1' F2 F2' F3 F3') as G.
  cbv zeta in G. unfold change_score. lra.
Qed.

End Scale.

(** the floor condition for the scaled data follows from the one for the original
    data as soon as the scaling does not shrink:  1 <= a^2 *)
Lemma above_floor_scale a xs s e : (s < e <= length xs)%nat -> 1 <= a ^ 2 ->
  floor_var <= uvar_se xs s e -> floor_var <= uvar_se (scale a xs) s e.
Proof.
  intros H Ha Hf. rewrite var_scale by assumption. pose proof floor_var_pos. nra.
Qed.

(** NOTE on axioms.  In Coq 8.16.1 the standard-library function [ln] itself depends on
    [Classical_Prop.classic] (through [Rpower]/IVT), so every statement that mentions the
    generated Gaussian kernels inherits it from its STATEMENT, not from the proofs here
    (see the first two lines printed below).  The theorems about kernels without [ln]
    (L2, CUSUM, permutation) use only the axioms of the classical real numbers. *)
Print Assumptions ln.
Print Assumptions gaussian_var_cost_optim_R.
Print Assumptions l2_optim_shift.
Print Assumptions gvar_optim_shift.
Print Assumptions cusum_shift.
Print Assumptions gvar_change_score_scale.
Print Assumptions l2_optim_rev.
Print Assumptions cusum_rev.
Print Assumptions sumR_perm.
