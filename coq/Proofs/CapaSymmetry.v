(** Symmetry / extensionality of the executable CAPA model (Model/Capa.v): the decreasing
    sort depends only on the multiset, so [penalise] and [Pbest] ignore the order of the
    columns; [capa] depends on the savings only through the penalised savings Pc / Pp, so
    permuting the data columns leaves the detector output unchanged; on a tie-free row the
    affected columns are permuted accordingly, and with ties their savings still agree. *)
From Coq Require Import ZArith List Lia Permutation Sorted.
From SK Require Import Lib.Base Proofs.ListFacts Model.Capa Proofs.Penalise.
Import ListNotations.
Open Scope Z_scope.

(** ---------- a decreasing list is determined by its multiset ---------- *)

Lemma desc_inv x t : desc (x :: t) -> desc t /\ forall y, In y t -> y <= x.
Proof.
  unfold desc. intros HS. apply StronglySorted_inv in HS. destruct HS as [HS HF].
  split; [exact HS|]. rewrite Forall_forall in HF. exact HF.
Qed.

Lemma desc_head_max x t : desc (x :: t) -> forall y, In y (x :: t) -> y <= x.
Proof.
  intros HD y Hy. destruct (desc_inv x t HD) as [_ HF].
  destruct Hy as [Hy|Hy]; [lia|apply HF; exact Hy].
Qed.

Lemma desc_perm_eq : forall l l', desc l -> desc l' -> Permutation l l' -> l = l'.
Proof.
  induction l as [|x t IH]; intros l' HD HD' HP.
  - apply Permutation_nil in HP. symmetry; exact HP.
  - destruct l' as [|y t'].
    + apply Permutation_sym, Permutation_nil in HP. discriminate.
    + assert (Hxy : x <= y).
      { apply (desc_head_max y t' HD'). apply (Permutation_in _ HP). left; reflexivity. }
      assert (Hyx : y <= x).
      { apply (desc_head_max x t HD).
        apply (Permutation_in _ (Permutation_sym HP)). left; reflexivity. }
      assert (E : x = y) by lia. subst y.
      f_equal. apply IH.
      * apply (desc_inv x t HD).
      * apply (desc_inv x t' HD').
      * eapply Permutation_cons_inv; exact HP.
Qed.

Theorem sort_desc_unique : forall l l', Permutation l l' -> sort_desc l = sort_desc l'.
Proof.
  intros l l' HP. apply desc_perm_eq; [apply sort_desc_sorted|apply sort_desc_sorted|].
  eapply Permutation_trans; [apply sort_desc_perm|].
  eapply Permutation_trans; [exact HP|]. apply Permutation_sym, sort_desc_perm.
Qed.

(** the sort is the only decreasing rearrangement *)
Corollary sort_desc_char l s : desc s -> Permutation s l -> s = sort_desc l.
Proof.
  intros HD HP. apply desc_perm_eq; [exact HD|apply sort_desc_sorted|].
  eapply Permutation_trans; [exact HP|]. apply Permutation_sym, sort_desc_perm.
Qed.

(** ---------- Pbest and penalise ignore the order of the columns ---------- *)

Theorem Pbest_perm : forall sav sav' alpha betas,
  Permutation sav sav' -> Pbest sav alpha betas = Pbest sav' alpha betas.
Proof.
  intros sav sav' alpha betas HP. unfold Pbest.
  rewrite (sort_desc_unique sav sav' HP). reflexivity.
Qed.

Theorem penalise_perm : forall sav sav' alpha betas,
  Permutation sav sav' -> penalise sav alpha betas = penalise sav' alpha betas.
Proof.
  intros sav sav' alpha betas HP. unfold penalise.
  destruct (all_tiny betas).
  - rewrite (sumZ_perm sav sav' HP). reflexivity.
  - destruct (all_equal betas).
    + change (posum (hd 0 betas) sav - alpha = posum (hd 0 betas) sav' - alpha).
      rewrite (posum_perm (hd 0 betas) sav sav' HP). reflexivity.
    + rewrite (sort_desc_unique sav sav' HP). reflexivity.
Qed.

(** ---------- extensionality of the CAPA recursion ---------- *)

Section Ext.
Variables (Sc1 Sc2 : nat -> nat -> list Z) (Sp1 Sp2 : nat -> list Z).
Variables (ac : Z) (bc : list Z) (ap : Z) (bp : list Z) (m M delay : nat).
Hypothesis HPc : forall s e, Pc Sc1 ac bc s e = Pc Sc2 ac bc s e.
Hypothesis HPp : forall t, Pp Sp1 ap bp t = Pp Sp2 ap bp t.

Lemma step_P_ext (s : st) (t : nat) :
  step Sc1 Sp1 ac bc ap bp m M delay s t = step Sc2 Sp2 ac bc ap bp m M delay s t.
Proof.
  unfold step. cbv zeta.
  rewrite (map_ext (fun a => nthZ (opt s) a + Pc Sc1 ac bc a (S t))
                   (fun a => nthZ (opt s) a + Pc Sc2 ac bc a (S t)))
    by (intros a; rewrite HPc; reflexivity).
  rewrite HPp. reflexivity.
Qed.

Lemma fold_step_P_ext : forall (ts : list nat) (s : st),
  fold_left (step Sc1 Sp1 ac bc ap bp m M delay) ts s =
  fold_left (step Sc2 Sp2 ac bc ap bp m M delay) ts s.
Proof.
  induction ts as [|t ts IH]; intros s; cbn [fold_left]; [reflexivity|].
  rewrite step_P_ext. apply IH.
Qed.

Lemma run_P_ext (n : nat) :
  run Sc1 Sp1 ac bc ap bp m M delay n = run Sc2 Sp2 ac bc ap bp m M delay n.
Proof. unfold run. apply fold_step_P_ext. Qed.

(** the detector output depends on the savings only through Pc / Pp *)
Theorem capa_P_ext (n : nat) :
  capa Sc1 Sp1 ac bc ap bp m M delay n = capa Sc2 Sp2 ac bc ap bp m M delay n.
Proof. unfold capa. rewrite run_P_ext. reflexivity. Qed.
End Ext.

Theorem capa_ext : forall Sc1 Sc2 Sp1 Sp2 ac bc ap bp m M delay n,
  (forall s e, Sc1 s e = Sc2 s e) -> (forall t, Sp1 t = Sp2 t) ->
  capa Sc1 Sp1 ac bc ap bp m M delay n = capa Sc2 Sp2 ac bc ap bp m M delay n.
Proof.
  intros Sc1 Sc2 Sp1 Sp2 ac bc ap bp m M delay n HSc HSp.
  apply capa_P_ext.
  - intros s e. unfold Pc. rewrite HSc. reflexivity.
  - intros t. unfold Pp. rewrite HSp. reflexivity.
Qed.

Theorem run_column_perm : forall Sc1 Sc2 Sp1 Sp2 ac bc ap bp m M delay n,
  (forall s e, Permutation (Sc1 s e) (Sc2 s e)) -> (forall t, Permutation (Sp1 t) (Sp2 t)) ->
  run Sc1 Sp1 ac bc ap bp m M delay n = run Sc2 Sp2 ac bc ap bp m M delay n.
Proof.
  intros Sc1 Sc2 Sp1 Sp2 ac bc ap bp m M delay n HSc HSp.
  apply run_P_ext.
  - intros s e. unfold Pc. apply penalise_perm, HSc.
  - intros t. unfold Pp. apply penalise_perm, HSp.
Qed.

Theorem capa_column_perm : forall Sc1 Sc2 Sp1 Sp2 ac bc ap bp m M delay n,
  (forall s e, Permutation (Sc1 s e) (Sc2 s e)) -> (forall t, Permutation (Sp1 t) (Sp2 t)) ->
  capa Sc1 Sp1 ac bc ap bp m M delay n = capa Sc2 Sp2 ac bc ap bp m M delay n.
Proof.
  intros Sc1 Sc2 Sp1 Sp2 ac bc ap bp m M delay n HSc HSp.
  apply capa_P_ext.
  - intros s e. unfold Pc. apply penalise_perm, HSc.
  - intros t. unfold Pp. apply penalise_perm, HSp.
Qed.

(** the form with an explicit column permutation [sigma]: column j of the permuted
    data is column [sigma j] of the original *)
Definition permute_cols (sigma : list nat) (sav : list Z) : list Z :=
  map (fun j => nthZ sav (nth j sigma 0%nat)) (seq 0 (length sigma)).

Lemma permute_cols_map sigma sav : permute_cols sigma sav = map (nthZ sav) sigma.
Proof.
  unfold permute_cols.
  rewrite <- (map_map (fun j => nth j sigma 0%nat) (nthZ sav)).
  rewrite map_nth_seq. reflexivity.
Qed.

Lemma permute_cols_perm sigma sav :
  Permutation sigma (seq 0 (length sav)) -> Permutation (permute_cols sigma sav) sav.
Proof.
  intros HP. rewrite permute_cols_map.
  rewrite <- (map_nthZ_seq sav) at 2. apply Permutation_map. exact HP.
Qed.

Corollary capa_sigma_perm (p : nat) (sigma : list nat) :
  Permutation sigma (seq 0 p) ->
  forall Sc Sp ac bc ap bp m M delay n,
  (forall s e, length (Sc s e) = p) -> (forall t, length (Sp t) = p) ->
  capa (fun s e => permute_cols sigma (Sc s e)) (fun t => permute_cols sigma (Sp t))
       ac bc ap bp m M delay n
  = capa Sc Sp ac bc ap bp m M delay n.
Proof.
  intros HP Sc Sp ac bc ap bp m M delay n HLc HLp.
  apply capa_column_perm.
  - intros s e. apply permute_cols_perm. rewrite HLc. exact HP.
  - intros t. apply permute_cols_perm. rewrite HLp. exact HP.
Qed.

(** ---------- affected columns under a column permutation ---------- *)

Lemma map_inj_on {A B} (f : A -> B) : forall l1 l2 : list A,
  (forall x y, In x l1 -> In y l2 -> f x = f y -> x = y) ->
  map f l1 = map f l2 -> l1 = l2.
Proof.
  induction l1 as [|x t IH]; intros l2 Hinj HE; destruct l2 as [|y t2];
    cbn [map] in HE; try discriminate; [reflexivity|].
  inversion HE as [[Hxy Ht]]. f_equal.
  - apply Hinj; [left; reflexivity|left; reflexivity|exact Hxy].
  - apply IH; [|exact Ht].
    intros a b Ha Hb. apply Hinj; right; assumption.
Qed.

Lemma nthZ_inj sav i j : NoDup sav -> (i < length sav)%nat -> (j < length sav)%nat ->
  nthZ sav i = nthZ sav j -> i = j.
Proof.
  intros HN Hi Hj HE. unfold nthZ in HE.
  exact (proj1 (NoDup_nth sav 0) HN i j Hi Hj HE).
Qed.

(** tie-free row: the decreasing argsort is the unique decreasing ordering of the columns *)
Theorem argsort_desc_unique sav o :
  NoDup sav -> Permutation o (seq 0 (length sav)) -> desc (map (nthZ sav) o) ->
  o = argsort_desc sav.
Proof.
  intros HN HP HD. apply (map_inj_on (nthZ sav)).
  - intros x y Hx Hy. apply nthZ_inj; [exact HN| |].
    + apply (Permutation_in _ HP) in Hx. apply in_seq in Hx. lia.
    + apply argsort_desc_In. exact Hy.
  - rewrite argsort_desc_values. apply sort_desc_char; [exact HD|].
    rewrite <- (map_nthZ_seq sav) at 2. apply Permutation_map. exact HP.
Qed.

Section Affected.
Variables (p : nat) (sigma : list nat) (sav : list Z).
Hypothesis Hsigma : Permutation sigma (seq 0 p).
Hypothesis Hlen : length sav = p.

Let sg (j : nat) : nat := nth j sigma 0%nat.
Let sav' : list Z := map (fun j => nthZ sav (nth j sigma 0%nat)) (seq 0 p).

Lemma sigma_length : length sigma = p.
Proof. rewrite (Permutation_length Hsigma). apply seq_length. Qed.

Lemma sav'_permute : sav' = permute_cols sigma sav.
Proof. unfold sav', permute_cols. rewrite sigma_length. reflexivity. Qed.

Lemma sav'_length : length sav' = p.
Proof. unfold sav'. rewrite map_length, seq_length. reflexivity. Qed.

Lemma sav'_perm : Permutation sav' sav.
Proof. rewrite sav'_permute. apply permute_cols_perm. rewrite Hlen. exact Hsigma. Qed.

Lemma sav'_sort : sort_desc sav' = sort_desc sav.
Proof. apply sort_desc_unique, sav'_perm. Qed.

Lemma sg_lt j : (j < p)%nat -> (sg j < p)%nat.
Proof.
  intros Hj. unfold sg.
  assert (Hin : In (nth j sigma 0%nat) sigma) by (apply nth_In; rewrite sigma_length; exact Hj).
  apply (Permutation_in _ Hsigma) in Hin. apply in_seq in Hin. lia.
Qed.

Lemma sav'_nth j : (j < p)%nat -> nthZ sav' j = nthZ sav (sg j).
Proof.
  intros Hj. unfold sav', sg. unfold nthZ at 1.
  rewrite (nth_map_lt (fun j => nthZ sav (nth j sigma 0%nat)) _ _ 0%nat 0)
    by (rewrite seq_length; exact Hj).
  rewrite seq_nth by exact Hj. reflexivity.
Qed.

(** the values along [map sigma (argsort sav')] are the sorted savings *)
Lemma argsort_sigma_values :
  map (nthZ sav) (map sg (argsort_desc sav')) = sort_desc sav.
Proof.
  rewrite map_map. rewrite <- sav'_sort, <- argsort_desc_values.
  apply map_ext_in. intros j Hj. symmetry. apply sav'_nth.
  apply argsort_desc_In in Hj. rewrite sav'_length in Hj. exact Hj.
Qed.

Lemma argsort_sigma_In j : In j (map sg (argsort_desc sav')) -> (j < p)%nat.
Proof.
  intros Hj. apply in_map_iff in Hj. destruct Hj as (i & <- & Hi).
  apply sg_lt. apply argsort_desc_In in Hi. rewrite sav'_length in Hi. exact Hi.
Qed.

(** the argmax position is the same for both rows *)
Lemma affected_same_k alpha betas :
  argmax (pensav (sort_desc sav') alpha betas) = argmax (pensav (sort_desc sav) alpha betas).
Proof. rewrite sav'_sort. reflexivity. Qed.

(** ties allowed: the savings of the affected columns agree, in order *)
Theorem affected_perm_values alpha betas :
  map (nthZ sav') (affected sav' alpha betas) = map (nthZ sav) (affected sav alpha betas).
Proof.
  rewrite !affected_unfold, affected_same_k.
  destruct (argmax (pensav (sort_desc sav) alpha betas)) as [[k v]|]; [|reflexivity].
  rewrite <- !firstn_map, !argsort_desc_values, sav'_sort. reflexivity.
Qed.

Theorem affected_perm_length alpha betas :
  length (affected sav' alpha betas) = length (affected sav alpha betas).
Proof.
  rewrite <- (map_length (nthZ sav')), affected_perm_values, map_length. reflexivity.
Qed.

Hypothesis Hnodup : NoDup sav.

Theorem argsort_desc_sigma : map sg (argsort_desc sav') = argsort_desc sav.
Proof.
  apply (map_inj_on (nthZ sav)).
  - intros x y Hx Hy. apply nthZ_inj; [exact Hnodup| |].
    + rewrite Hlen. apply argsort_sigma_In. exact Hx.
    + apply argsort_desc_In. exact Hy.
  - rewrite argsort_sigma_values, argsort_desc_values. reflexivity.
Qed.

Theorem affected_perm alpha betas :
  map (fun j => nth j sigma 0%nat) (affected sav' alpha betas) = affected sav alpha betas.
Proof.
  change (map sg (affected sav' alpha betas) = affected sav alpha betas).
  rewrite !affected_unfold, affected_same_k.
  destruct (argmax (pensav (sort_desc sav) alpha betas)) as [[k v]|]; [|reflexivity].
  rewrite <- firstn_map, argsort_desc_sigma. reflexivity.
Qed.
End Affected.

Check affected_perm :
  forall (p : nat) (sigma : list nat) (sav : list Z),
    Permutation sigma (seq 0 p) -> length sav = p -> NoDup sav ->
    forall alpha betas,
      map (fun j => nth j sigma 0%nat)
          (affected (map (fun j => nthZ sav (nth j sigma 0%nat)) (seq 0 p)) alpha betas)
      = affected sav alpha betas.

Check affected_perm_values :
  forall (p : nat) (sigma : list nat) (sav : list Z),
    Permutation sigma (seq 0 p) -> length sav = p ->
    forall alpha betas,
      let sav' := map (fun j => nthZ sav (nth j sigma 0%nat)) (seq 0 p) in
      map (nthZ sav') (affected sav' alpha betas) = map (nthZ sav) (affected sav alpha betas).

(** ---------- non-vacuity ---------- *)

(** [penalise_perm]: all three branches of [penalise], p = 3, columns rotated *)
Example penalise_perm_tiny :
  penalise [3; 10; 7] 4 [0; 0; 0] = 16 /\ penalise [7; 3; 10] 4 [0; 0; 0] = 16.
Proof. split; vm_compute; reflexivity. Qed.

Example penalise_perm_equal :
  penalise [3; 10; 7] 4 [5; 5; 5] = 3 /\ penalise [7; 3; 10] 4 [5; 5; 5] = 3.
Proof. split; vm_compute; reflexivity. Qed.

Example penalise_perm_general :
  penalise [3; 10; 7] 4 [1; 5; 9] = 7 /\ penalise [7; 3; 10] 4 [1; 5; 9] = 7.
Proof. split; vm_compute; reflexivity. Qed.

Example penalise_perm_inst :
  penalise [3; 10; 7] 4 [1; 5; 9] = penalise [7; 3; 10] 4 [1; 5; 9].
Proof.
  apply penalise_perm.
  apply (Permutation_trans (perm_skip 3 (perm_swap 7 10 []))).
  apply (Permutation_trans (perm_swap 7 3 [10])). apply Permutation_refl.
Qed.

(** [capa_column_perm]: p = 2, n = 8; the saving of column c on [s,e) is the squared sum of x_c there *)
Definition ex_x0 : list Z := [0; 1; 0; 6; 7; 6; 0; 1].
Definition ex_x1 : list Z := [1; 0; 0; 0; 5; 0; 0; 0].
Definition seg_sum (x : list Z) (s e : nat) : Z := sumZ (firstn (e - s) (skipn s x)).
Definition ex_sav (x : list Z) (s e : nat) : Z := seg_sum x s e * seg_sum x s e.
Definition ex_Sc (s e : nat) : list Z := [ex_sav ex_x0 s e; ex_sav ex_x1 s e].
Definition ex_Sp (t : nat) : list Z := [ex_sav ex_x0 t (S t); ex_sav ex_x1 t (S t)].
Definition ex_Sc_sw (s e : nat) : list Z := [ex_sav ex_x1 s e; ex_sav ex_x0 s e].
Definition ex_Sp_sw (t : nat) : list Z := [ex_sav ex_x1 t (S t); ex_sav ex_x0 t (S t)].

Example capa_swap_run :
  capa ex_Sc ex_Sp 20 [3; 8] 30 [3; 8] 2 4 1 8 =
  capa ex_Sc_sw ex_Sp_sw 20 [3; 8] 30 [3; 8] 2 4 1 8.
Proof. vm_compute. reflexivity. Qed.

(** the run is not trivial: one collective anomaly [2,6) *)
Example capa_swap_value :
  capa ex_Sc ex_Sp 20 [3; 8] 30 [3; 8] 2 4 1 8 =
  ([0; 0; 0; 26; 190; 355; 355; 355], [(2, 6)]%nat, []).
Proof. vm_compute. reflexivity. Qed.

Example capa_swap_inst :
  capa ex_Sc ex_Sp 20 [3; 8] 30 [3; 8] 2 4 1 8 =
  capa ex_Sc_sw ex_Sp_sw 20 [3; 8] 30 [3; 8] 2 4 1 8.
Proof.
  apply capa_column_perm.
  - intros s e. apply perm_swap.
  - intros t. apply perm_swap.
Qed.

(** [affected_perm]: p = 3, sigma = [2;0;1], sav = [3;10;7], permuted row = [7;3;10] *)
Example affected_perm_run :
  map (fun j => nthZ [3; 10; 7] (nth j [2; 0; 1]%nat 0%nat)) (seq 0 3) = [7; 3; 10] /\
  affected [3; 10; 7] 4 [1; 5; 9] = [1; 2]%nat /\
  affected [7; 3; 10] 4 [1; 5; 9] = [2; 0]%nat /\
  map (fun j => nth j [2; 0; 1]%nat 0%nat) (affected [7; 3; 10] 4 [1; 5; 9]) = [1; 2]%nat.
Proof. repeat split; vm_compute; reflexivity. Qed.

Lemma ex_sigma_perm : Permutation [2; 0; 1]%nat (seq 0 3).
Proof.
  cbn [seq].
  apply (Permutation_trans (perm_swap 0 2 [1]))%nat.
  apply perm_skip. apply perm_swap.
Qed.

Lemma ex_sav_nodup : NoDup [3; 10; 7].
Proof.
  repeat constructor; cbn [In]; intros H;
    repeat (destruct H as [H|H]; [discriminate H|]); exact H.
Qed.

Example affected_perm_inst :
  map (fun j => nth j [2; 0; 1]%nat 0%nat)
      (affected (map (fun j => nthZ [3; 10; 7] (nth j [2; 0; 1]%nat 0%nat)) (seq 0 3)) 4 [1; 5; 9])
  = affected [3; 10; 7] 4 [1; 5; 9].
Proof.
  apply (affected_perm 3 [2; 0; 1]%nat [3; 10; 7] ex_sigma_perm eq_refl ex_sav_nodup).
Qed.

(** the tie-free hypothesis of [affected_perm] is needed: with a tie the model's argsort puts the
    larger column first, whichever data column that is *)
Example affected_perm_tie_fails :
  map (fun j => nth j [1; 0]%nat 0%nat)
      (affected (map (fun j => nthZ [5; 5] (nth j [1; 0]%nat 0%nat)) (seq 0 2)) 0 [1; 9])
  = [0]%nat /\
  affected [5; 5] 0 [1; 9] = [1]%nat.
Proof. split; vm_compute; reflexivity. Qed.

Print Assumptions sort_desc_unique.
Print Assumptions penalise_perm.
Print Assumptions Pbest_perm.
Print Assumptions capa_ext.
Print Assumptions capa_P_ext.
Print Assumptions capa_column_perm.
Print Assumptions capa_sigma_perm.
Print Assumptions argsort_desc_unique.
Print Assumptions affected_perm.
Print Assumptions affected_perm_values.
Print Assumptions affected_perm_length.
Print Assumptions capa_swap_inst.
Print Assumptions affected_perm_inst.
