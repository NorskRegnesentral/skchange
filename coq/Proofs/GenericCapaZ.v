(** The generic CAPA / MVCAPA (Model/GenericCapa.v) at the Z instance IS the Z model Model/Capa.v:
    every theorem about [capa] / [penalise] / [affected] is a theorem about the generic definitions.

    The "negligible beta" test is the argument [tiny]; two instantiations are covered:
      - [gtiny_le Zn 0]  (beta <= 0)  -- by computation the test [all_tiny] of the Z model;
      - [gtiny_lt Zn 1]  (beta <  1)  -- the shape of the code's test "beta < 1e-8"; on integers it is
                                          the same test ([Z.ltb b 1 = Z.leb b 0]).
    The derived maximum and equality test are not syntactically [Z.max] / [Z.eqb]: bridged by
    [gmax_Z] and [geqb_Z]. *)
From Coq Require Import ZArith List Lia.
From SK Require Import Lib.Base Model.Capa Model.Generic Model.GenericCapa Proofs.GenericZ Proofs.PeltLoop
                       Proofs.CapaSkeleton.
Import ListNotations.
Open Scope Z_scope.

(** ---- derived operations ---- *)
Lemma gsub_Z (x y : Z) : gsub Zn x y = x - y.
Proof. reflexivity. Qed.

Lemma gmax_Z (a b : Z) : gmax Zn a b = Z.max a b.
Proof.
  unfold gmax, Z.max. cbn [ltb Zn]. unfold Z.ltb. destruct (a ?= b); reflexivity.
Qed.

Lemma geqb_Z (a b : Z) : geqb Zn a b = (a =? b).
Proof.
  unfold geqb. cbn [ltb Zn].
  destruct (Z.ltb_spec a b) as [H1|H1]; destruct (Z.ltb_spec b a) as [H2|H2];
    destruct (Z.eqb_spec a b) as [H3|H3]; cbn; try reflexivity; lia.
Qed.

Lemma gtiny_le_Z (b : Z) : gtiny_le Zn 0 b = (b <=? 0).
Proof. reflexivity. Qed.

Lemma gtiny_lt_Z (b : Z) : gtiny_lt Zn 1 b = (b <=? 0).
Proof.
  unfold gtiny_lt. cbn [ltb Zn].
  destruct (Z.ltb_spec b 1) as [H1|H1]; destruct (Z.leb_spec b 0) as [H2|H2]; try reflexivity; lia.
Qed.

(** [gsum] is the left fold from the first element (NumPy's order); over Z it is [sumZ] (a right fold
    ending in 0) by associativity and commutativity of the addition. *)
Lemma fold_left_add_Z (t : list Z) (acc : Z) : fold_left (add Zn) t acc = acc + sumZ t.
Proof.
  revert acc. induction t as [|y t IH]; intros acc; cbn [fold_left sumZ].
  - lia.
  - rewrite IH. change (add Zn acc y) with (acc + y). lia.
Qed.

Lemma gsum_Z (l : list Z) : gsum Zn l = sumZ l.
Proof. destruct l as [|x t]; cbn [gsum sumZ]; [reflexivity|]. apply fold_left_add_Z. Qed.

(** ---- penalise_savings ---- *)
Lemma ginsert_desc_Z (x : Z) (l : list Z) : ginsert_desc Zn x l = insert_desc x l.
Proof.
  induction l as [|y t IH]; cbn [ginsert_desc insert_desc]; [reflexivity|].
  change (ltb Zn y x) with (y <? x). destruct (y <? x); [reflexivity|]. rewrite IH. reflexivity.
Qed.

Lemma gsort_desc_Z (l : list Z) : gsort_desc Zn l = sort_desc l.
Proof.
  induction l as [|x t IH]; cbn [gsort_desc sort_desc]; [reflexivity|].
  rewrite IH. apply ginsert_desc_Z.
Qed.

Lemma gcumsum_from_Z (l : list Z) : forall acc, gcumsum_from Zn acc l = cumsum_from acc l.
Proof.
  induction l as [|x t IH]; intros acc; cbn [gcumsum_from cumsum_from]; [reflexivity|].
  rewrite IH. reflexivity.
Qed.

Lemma gcumsum_Z (l : list Z) : gcumsum Zn l = cumsum l.
Proof. unfold gcumsum, cumsum. apply gcumsum_from_Z. Qed.

Lemma gsub_lists_Z (a b : list Z) : gsub_lists Zn a b = sub_lists a b.
Proof. reflexivity. Qed.

Lemma gall_tiny_Z (tiny : Z -> bool) (betas : list Z) : (forall b, tiny b = (b <=? 0)) -> gall_tiny Zn tiny betas = all_tiny betas.
Proof.
  intros Ht. unfold gall_tiny, all_tiny.
  induction betas as [|b t IH]; cbn [forallb]; [reflexivity|]. rewrite Ht, IH. reflexivity.
Qed.

Lemma forallb_geqb_Z (b0 : Z) (l : list Z) : forallb (fun b => geqb Zn b b0) l = forallb (fun b => b =? b0) l.
Proof.
  induction l as [|b t IH]; cbn [forallb]; [reflexivity|]. rewrite geqb_Z, IH. reflexivity.
Qed.

Lemma gall_equal_Z (betas : list Z) : gall_equal Zn betas = all_equal betas.
Proof.
  unfold gall_equal, all_equal. destruct betas as [|b0 t]; [reflexivity|]. apply forallb_geqb_Z.
Qed.

Lemma map_gmax_Z (c : Z) (sav : list Z) :
  map (fun s => gmax Zn (gsub Zn s c) (zero Zn)) sav = map (fun s => Z.max (s - c) 0) sav.
Proof. apply map_ext. intros s. rewrite gmax_Z. reflexivity. Qed.

Theorem gpenalise_Z_gen (tiny : Z -> bool) (sav : list Z) (alpha : Z) (betas : list Z) : (forall b, tiny b = (b <=? 0)) ->
  gpenalise Zn tiny sav alpha betas = penalise sav alpha betas.
Proof.
  intros Ht. unfold gpenalise, penalise.
  rewrite (gall_tiny_Z tiny betas Ht), gall_equal_Z.
  destruct (all_tiny betas).
  - rewrite gsum_Z. reflexivity.
  - destruct (all_equal betas).
    + rewrite gsum_Z. change (hd (zero Zn) betas) with (hd 0 betas). rewrite map_gmax_Z. reflexivity.
    + rewrite gargmax_Z, gsort_desc_Z, gsub_lists_Z, gcumsum_Z. reflexivity.
Qed.

Theorem gpenalise_Z (sav : list Z) (alpha : Z) (betas : list Z) :
  gpenalise Zn (gtiny_le Zn 0) sav alpha betas = penalise sav alpha betas.
Proof. apply gpenalise_Z_gen. exact gtiny_le_Z. Qed.

Theorem gpenalise_Z_lt (sav : list Z) (alpha : Z) (betas : list Z) :
  gpenalise Zn (gtiny_lt Zn 1) sav alpha betas = penalise sav alpha betas.
Proof. apply gpenalise_Z_gen. exact gtiny_lt_Z. Qed.

(** ---- find_affected_components ---- *)
Lemma ginsert_idx_Z (sav : list Z) j l : ginsert_idx Zn sav j l = insert_idx sav j l.
Proof.
  induction l as [|k t IH]; cbn [ginsert_idx insert_idx]; [reflexivity|].
  change (ltb Zn (nthV Zn sav k) (nthV Zn sav j)) with (nthZ sav k <? nthZ sav j).
  destruct (nthZ sav k <? nthZ sav j); [reflexivity|]. rewrite IH. reflexivity.
Qed.

Lemma gargsort_desc_Z (sav : list Z) : gargsort_desc Zn sav = argsort_desc sav.
Proof.
  unfold gargsort_desc, argsort_desc.
  change (@length (T Zn) sav) with (@length Z sav).
  induction (seq 0 (length sav)) as [|j t IH]; cbn [fold_right]; [reflexivity|].
  rewrite IH. apply ginsert_idx_Z.
Qed.

Theorem gaffected_Z (sav : list Z) (alpha : Z) (betas : list Z) : gaffected Zn sav alpha betas = affected sav alpha betas.
Proof.
  unfold gaffected, affected. cbv zeta.
  rewrite gargmax_Z, gargsort_desc_Z, gsub_lists_Z, gcumsum_Z. reflexivity.
Qed.

(** ---- run_base_capa ---- *)

(** the loop of Proofs/CapaSkeleton.v over Z, with any [Vc] / [Vp] / [Wk] that compute the exact
    sums, IS the loop of Model/Capa.v *)
Section Run.
Variable Sc : nat -> nat -> list Z.
Variable Sp : nat -> list Z.
Variables (ac : Z) (bc : list Z) (ap : Z) (bp : list Z).
Variables (m M delay : nat).
Variable Vc : nat -> nat -> Z -> Z.
Variable Vp : nat -> Z -> Z.
Variable Wk : nat -> nat -> Z -> Z.
Hypothesis HVc : forall a T g, Vc a T g = g + Pc Sc ac bc a T.
Hypothesis HVp : forall t g, Vp t g = g + Pp Sp ap bp t.
Hypothesis HWk : forall a T c, Wk a T c = c + (ac + sumZ bc).

Definition cst_rel (g : gcst Zn) (s : Capa.st) : Prop :=
  gcopt Zn g = Capa.opt s /\ gcastart Zn g = Capa.astart s /\
  gcstarts Zn g = Capa.starts s /\ gcpending Zn g = Capa.pending s.

Lemma cstep_Z g s t : cst_rel g s ->
  cst_rel (cstep Zn Vc Vp Wk m M delay g t) (Capa.step Sc Sp ac bc ap bp m M delay s t).
Proof.
  intros (Ho & Ha & Hs & Hq).
  unfold cstep, cchoose, clow, ccands, cstarts1, pop, ckeep, Capa.step.
  rewrite Ho, Ha, Hs, Hq. cbv zeta. rewrite gargmax_Z, HVp.
  rewrite (map_ext (fun a => Vc a (S t) (nthV Zn (Capa.opt s) a))
                   (fun a => nthZ (Capa.opt s) a + Pc Sc ac bc a (S t)))
    by (intros a; apply HVc).
  rewrite !nthV_Z. cbn [T ltb Zn].
  set (starts1 := if (m <=? S t)%nat then Capa.starts s ++ [(S t - m)%nat] else Capa.starts s).
  set (cands := map (fun a => nthZ (Capa.opt s) a + Pc Sc ac bc a (S t)) starts1).
  set (ot := nthZ (Capa.opt s) t). set (optp := ot + Pp Sp ap bp t).
  destruct (match argmax cands with
            | Some (i, oc) =>
                if ot <? oc
                then if oc <? optp then (Some t, optp) else (Some (nthN starts1 i), oc)
                else if ot <? optp then (Some t, optp) else (None, ot)
            | None => if ot <? optp then (Some t, optp) else (None, ot)
            end) as [choice best].
  rewrite (filter_ext (fun ac0 => Wk (fst ac0) (S t) (snd ac0) <? best)
                      (fun ac0 => snd ac0 + (ac + sumZ bc) <? best))
    by (intros ac0; now rewrite HWk).
  destruct (Nat.ltb delay _); unfold cst_rel; cbn; repeat split; reflexivity.
Qed.

Lemma crun_Z n :
  cst_rel (crun Zn Vc Vp Wk m M delay n) (Capa.run Sc Sp ac bc ap bp m M delay n).
Proof.
  unfold crun, Capa.run. apply fold_left_rel; [intros g s t; apply cstep_Z|repeat split].
Qed.

Theorem ccapa_Z n :
  ccapa Zn Vc Vp Wk m M delay n = capa Sc Sp ac bc ap bp m M delay n.
Proof.
  unfold ccapa, capa. cbv zeta. destruct (crun_Z n) as (Ho & Ha & _ & _).
  rewrite Ho, Ha. reflexivity.
Qed.
End Run.

Theorem gcapa_Z_gen (tiny : Z -> bool) Sc Sp ac bc ap bp m M delay n :
  (forall b, tiny b = (b <=? 0)) ->
  gcapa Zn tiny Sc Sp ac bc ap bp m M delay n = capa Sc Sp ac bc ap bp m M delay n.
Proof.
  intros Htiny. apply (ccapa_Z Sc Sp ac bc ap bp m M delay
    (fun a T g => add Zn g (gPc Zn tiny Sc ac bc a T)) (fun t g => add Zn g (gPp Zn tiny Sp ap bp t))
    (fun _ _ c => add Zn c (add Zn ac (gsum Zn bc)))).
  - intros a T g. unfold gPc, Pc. now rewrite gpenalise_Z_gen.
  - intros t g. unfold gPp, Pp. now rewrite gpenalise_Z_gen.
  - intros a T c. now rewrite gsum_Z.
Qed.

(** the two instantiations of the test *)
Theorem gcapa_Z (Sc : nat -> nat -> list Z) (Sp : nat -> list Z) (ac : Z) (bc : list Z) (ap : Z) (bp : list Z) m M delay n :
  gcapa Zn (gtiny_le Zn 0) Sc Sp ac bc ap bp m M delay n = capa Sc Sp ac bc ap bp m M delay n.
Proof. apply gcapa_Z_gen. exact gtiny_le_Z. Qed.

Theorem gcapa_Z_lt (Sc : nat -> nat -> list Z) (Sp : nat -> list Z) (ac : Z) (bc : list Z) (ap : Z) (bp : list Z) m M delay n :
  gcapa Zn (gtiny_lt Zn 1) Sc Sp ac bc ap bp m M delay n = capa Sc Sp ac bc ap bp m M delay n.
Proof. apply gcapa_Z_gen. exact gtiny_lt_Z. Qed.

Print Assumptions gpenalise_Z.
Print Assumptions gpenalise_Z_lt.
Print Assumptions gaffected_Z.
Print Assumptions gcapa_Z.
Print Assumptions gcapa_Z_lt.
