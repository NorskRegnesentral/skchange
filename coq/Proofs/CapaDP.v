(** The CAPA / MVCAPA dynamic programme over Z: the unpruned recursion [G] of
    Proofs/CapaSpec.v is the optimum over valid anomaly sets; the model [capa] is
    structurally correct for arbitrary savings, and optimal under sub-additivity with a
    pruning delay >= m - 1; with immediate pruning (delay = 0) it is not.

    [penalise] is never unfolded: the penalised savings [Pc Sc ac bc] and [Pp Sp ap bp] are
    used as opaque functions throughout.  The loop itself is analysed in
    Proofs/CapaSkeleton.v; the model is that loop over Z with exact sums ([capa_C]). *)
From Coq Require Import ZArith List Lia Bool.
From SK Require Import Lib.Base Model.Capa Proofs.CapaSpec Model.Generic Model.GenericCapa
                       Proofs.GenericCapaZ Proofs.ArgmaxLemmas Proofs.PeltLoop.
From SK Require Export Proofs.CapaSkeleton.
Import ListNotations.
Open Scope Z_scope.

Lemma app_nthZ_lt l r i : (i < length l)%nat -> nthZ (l ++ r) i = nthZ l i.
Proof. intros H. unfold nthZ. now apply app_nth1. Qed.
Lemma app_nthZ_last l x k : length l = k -> nthZ (l ++ [x]) k = x.
Proof.
  intros <-. unfold nthZ. rewrite app_nth2 by lia. now rewrite Nat.sub_diag.
Qed.

(** * Specification layer: the unpruned recursion G is the optimum *)
Section SpecFacts.
Variable pc : nat -> nat -> Z.
Variable pp : nat -> Z.
Variables m M : nat.

Notation G := (G pc pp m M).
Notation Gtab := (Gtab pc pp m M).
Notation Valid := (Valid m M).
Notation valid_from := (valid_from m M).
Notation value := (value pc pp).

Lemma coll_starts_lt T s : In s (coll_starts m M T) -> (s < T)%nat.
Proof. unfold coll_starts. rewrite filter_In, in_seq. lia. Qed.

Lemma Gtab_length t : length (Gtab t) = S t.
Proof.
  induction t as [|t IH]; cbn [CapaSpec.Gtab]; [reflexivity|].
  rewrite app_length, IH. apply Nat.add_1_r.
Qed.

Lemma Gtab_nth s t : (s <= t)%nat -> nthZ (Gtab t) s = G s.
Proof.
  induction t as [|t IH]; intros H.
  - now replace s with 0%nat by lia.
  - destruct (Nat.eq_dec s (S t)) as [->|Hn]; [reflexivity|].
    cbn [CapaSpec.Gtab]. rewrite app_nthZ_lt by (rewrite Gtab_length; lia).
    apply IH. lia.
Qed.

Lemma G_0 : G 0 = 0.
Proof. reflexivity. Qed.

Lemma G_S t :
  G (S t) = maxl (Z.max (G t) (G t + pp t))
                 (map (fun s => G s + pc s (S t)) (coll_starts m M (S t))).
Proof.
  unfold CapaSpec.G at 1. cbn [CapaSpec.Gtab].
  rewrite app_nthZ_last by apply Gtab_length.
  unfold gnext. replace (S t - 1)%nat with t by lia.
  rewrite Gtab_nth by lia. f_equal.
  apply map_ext_in. intros s Hs. apply coll_starts_lt in Hs.
  rewrite Gtab_nth by lia. reflexivity.
Qed.

Lemma G_step_id t : G t <= G (S t).
Proof. rewrite G_S. etransitivity; [|apply maxl_ge_default]. lia. Qed.

Lemma G_mono_le s t : (s <= t)%nat -> G s <= G t.
Proof.
  induction t as [|t IH]; intros H.
  - replace s with 0%nat by lia. lia.
  - destruct (Nat.eq_dec s (S t)) as [->|Hn]; [lia|].
    etransitivity; [apply IH; lia|apply G_step_id].
Qed.

Hypothesis Hm1 : (1 <= m)%nat.

Lemma in_coll_starts T s :
  In s (coll_starts m M T) <-> (s + m <= T /\ T <= s + M)%nat.
Proof.
  unfold coll_starts.
  rewrite filter_In, in_seq, andb_true_iff, Nat.leb_le, Nat.leb_le. lia.
Qed.

Lemma Gtab_S t : Gtab (S t) = Gtab t ++ [G (S t)].
Proof using Hm1.
  cbn [CapaSpec.Gtab]. f_equal. f_equal. unfold CapaSpec.G. cbn [CapaSpec.Gtab].
  now rewrite app_nthZ_last by apply Gtab_length.
Qed.

Lemma G_step_pt t : G t + pp t <= G (S t).
Proof. rewrite G_S. etransitivity; [|apply maxl_ge_default]. lia. Qed.
Lemma G_step_coll s e : (s + m <= e)%nat -> (e <= s + M)%nat -> G s + pc s e <= G e.
Proof.
  intros H1 H2. destruct e as [|e]; [lia|]. rewrite G_S. apply maxl_ge.
  apply (in_map (fun s => G s + pc s (S e))). apply in_coll_starts. lia.
Qed.

Lemma G_attained_step t :
  G (S t) = G t \/ G (S t) = G t + pp t \/
  exists s, (s + m <= S t)%nat /\ (S t <= s + M)%nat /\ G (S t) = G s + pc s (S t).
Proof.
  rewrite G_S.
  destruct (maxl_attained (map (fun s => G s + pc s (S t)) (coll_starts m M (S t)))
              (Z.max (G t) (G t + pp t))) as [H|H].
  - rewrite H. destruct (Z.max_spec (G t) (G t + pp t)) as [[_ E]|[_ E]]; rewrite E; auto.
  - right; right. apply in_map_iff in H as (s & E & Hs). apply in_coll_starts in Hs.
    exists s. split; [lia|]. split; [lia|]. now rewrite <- E.
Qed.

Theorem G_mono T : G T <= G (S T).
Proof using Hm1. apply G_step_id. Qed.

Theorem G_nonneg T : 0 <= G T.
Proof using Hm1. rewrite <- G_0. apply G_mono_le. lia. Qed.

(** anomaly lists: snoc view *)
Lemma value_snoc l a : value (l ++ [a]) = value l + a_val pc pp a.
Proof using. clear Hm1. unfold CapaSpec.value. rewrite map_app, sumZ_app. cbn. lia. Qed.

Lemma a_step a : a_ok m M a -> G (a_start a) + a_val pc pp a <= G (a_end a).
Proof.
  destruct a as [s e|t]; cbn.
  - intros [H1 H2]. now apply G_step_coll.
  - intros _. apply G_step_pt.
Qed.

Lemma G_upper_from l : forall lo T, valid_from lo l T -> G lo + value l <= G T.
Proof.
  induction l as [|a l IH]; intros lo T; cbn [CapaSpec.valid_from].
  - intros H. unfold CapaSpec.value. cbn. pose proof (G_mono_le lo T H). lia.
  - intros (H1 & H2 & H3). apply IH in H3. pose proof (a_step a H2) as Ha.
    pose proof (G_mono_le lo (a_start a) H1) as Hlo.
    unfold CapaSpec.value in *. cbn [map sumZ]. lia.
Qed.

(** no admissible anomaly set beats G *)
Theorem G_upper : forall T l, Valid l T -> value l <= G T.
Proof.
  intros T l H. apply G_upper_from in H. rewrite G_0 in H. lia.
Qed.

Theorem G_attained : forall T, exists l, Valid l T /\ value l = G T.
Proof.
  induction T as [T IH] using lt_wf_ind.
  destruct T as [|t].
  - exists []. split; [cbn; lia|reflexivity].
  - destruct (G_attained_step t) as [E|[E|(s & H1 & H2 & E)]].
    + destruct (IH t ltac:(lia)) as (l & V & P). exists l. split.
      * apply valid_from_weaken with (T := t); [exact V|lia].
      * now rewrite E.
    + destruct (IH t ltac:(lia)) as (l & V & P). exists (l ++ [Pt t]). split.
      * apply valid_from_snoc. cbn. split; [exact V|]. split; [exact I|lia].
      * rewrite value_snoc, E, P. reflexivity.
    + destruct (IH s ltac:(lia)) as (l & V & P). exists (l ++ [Coll s (S t)]). split.
      * apply valid_from_snoc. cbn. split; [exact V|]. split; [lia|lia].
      * rewrite value_snoc, E, P. reflexivity.
Qed.
End SpecFacts.


(** * Model layer *)
Section Model.
Variable Sc : nat -> nat -> list Z.
Variable Sp : nat -> list Z.
Variables (ac : Z) (bc : list Z) (ap : Z) (bp : list Z).
Variables (m M delay : nat).
Hypothesis Hm2 : (2 <= m)%nat.
Hypothesis HmM : (m <= M)%nat.

Notation PC := (Pc Sc ac bc).
Notation PP := (Pp Sp ap bp).
Notation K := (ac + sumZ bc).
Notation capaM := (capa Sc Sp ac bc ap bp m M delay).
Notation GG := (G PC PP m M).
Notation ValidM := (Valid m M).
Notation valueM := (value PC PP).
Notation VcZ := (fun (a T : nat) (g : Z) => g + PC a T).
Notation VpZ := (fun (t : nat) (g : Z) => g + PP t).
Notation WkZ := (fun (_ _ : nat) (c : Z) => c + K).
Notation runK := (crun Zn VcZ VpZ WkZ m M delay).
Notation Gk := (cG Zn VcZ VpZ WkZ m M delay).

Lemma capa_C n : capaM n = ccapa Zn VcZ VpZ WkZ m M delay n.
Proof using. symmetry. now apply ccapa_Z. Qed.

Lemma scores_nth n scores c p t : capaM n = (scores, c, p) -> (t < n)%nat ->
  nthZ scores t = Gk (S t).
Proof using. rewrite capa_C. apply (cscores_nth Zn). Qed.

(** the chain from any [e <= n] has value opt[e] *)
Lemma chain_value_Gk n fuel e : (e <= fuel)%nat -> (e <= n)%nat ->
  valueM (map to_anom (chain fuel (gcastart Zn (runK n)) e)) = Gk e.
Proof using Hm2 HmM.
  apply (crun_chain_value Zn VcZ VpZ WkZ m M delay Hm2 HmM valueM); [reflexivity| |];
    intros; apply value_snoc.
Qed.

Theorem capa_scores_length n scores c p : capaM n = (scores, c, p) -> length scores = n.
Proof using Hm2 HmM. rewrite capa_C. apply (ccapa_scores_length Zn). Qed.

Theorem capa_wellformed n scores c p : capaM n = (scores, c, p) ->
  ValidM (map to_anom (capa_predict false c p)) n.
Proof using Hm2 HmM. rewrite capa_C. now apply (ccapa_valid Zn). Qed.

Theorem capa_value_is_final_score n scores c p : capaM n = (scores, c, p) ->
  valueM (map to_anom (capa_predict false c p)) = nthZ (0 :: scores) n.
Proof using Hm2 HmM.
  intros Hc. destruct n as [|n].
  - rewrite capa_C in Hc. rewrite (ccapa_predict_chain Zn _ _ _ _ _ _ _ _ _ _ Hc). reflexivity.
  - change (nthZ (0 :: scores) (S n)) with (nthZ scores n).
    rewrite (scores_nth _ _ _ _ n Hc) by lia. rewrite capa_C in Hc.
    rewrite (ccapa_predict_chain Zn _ _ _ _ _ _ _ _ _ _ Hc). now apply chain_value_Gk.
Qed.

Theorem capa_ignore_points n scores c p : capaM n = (scores, c, p) ->
  capa_predict true c p = filter (fun se => negb (is_point se)) (capa_predict false c p).
Proof using. rewrite capa_C. apply (ccapa_ignore_points Zn). Qed.

Lemma Gk_mono t : Gk t <= Gk (S t).
Proof using Hm2 HmM.
  apply (cG_mono Zn VcZ VpZ WkZ m M delay Z.le Z.le_refl Z.le_trans).
  - intros x y H. apply Z.ltb_lt in H. lia.
  - intros x y H. now apply Z.ltb_ge in H.
Qed.

Theorem capa_scores_monotone n scores c p : capaM n = (scores, c, p) ->
  forall t, (S t < n)%nat -> nthZ scores t <= nthZ scores (S t).
Proof using Hm2 HmM.
  intros Hc t Ht. rewrite !(scores_nth n scores c p) by (try exact Hc; lia). apply Gk_mono.
Qed.

Lemma Gk_nonneg i : 0 <= Gk i.
Proof using Hm2 HmM.
  induction i as [|i IH]; [reflexivity|]. pose proof (Gk_mono i). lia.
Qed.

Theorem capa_scores_nonneg n scores c p : capaM n = (scores, c, p) ->
  forall t, (t < n)%nat -> 0 <= nthZ scores t.
Proof using Hm2 HmM.
  intros Hc t Ht. rewrite (scores_nth n scores c p) by assumption. apply Gk_nonneg.
Qed.

(** ** Optimality of the pruned programme *)
Hypothesis Hd : (m <= delay + 1)%nat.
Hypothesis Hsub : forall s k e, (s + m <= k)%nat -> (k + m <= e)%nat -> (e <= s + M)%nat ->
  PC s e <= PC s k + K + PC k e.

Lemma one_le_m : (1 <= m)%nat.
Proof using Hm2. clear - Hm2. lia. Qed.

(** start [a] was found too low at end [tau] *)
Definition condemned (a tau : nat) : Prop :=
  (a + m <= tau)%nat /\ GG a + PC a tau + K < GG tau.

(** a condemned start is strictly beaten at every later end it is still admissible for,
    provided the end is at least m beyond the condemning end *)
Lemma condemned_worse a tau T' :
  condemned a tau -> (tau + m <= T')%nat -> (T' <= a + M)%nat -> GG a + PC a T' < GG T'.
Proof using Hm2 HmM Hd Hsub.
  intros [H1 H2] H3 H4.
  pose proof (Hsub a tau T' H1 H3 H4) as Hs.
  assert (H5 : (T' <= tau + M)%nat) by lia.
  pose proof (G_step_coll PC PP m M one_le_m tau T' H3 H5) as Hg.
  lia.
Qed.

(** after [T] iterations the stored values are the optima of the prefixes, and every start
    that was dropped or is waiting to be dropped is condemned *)
Definition OInv (T : nat) (g : gcst Zn) : Prop :=
  (forall i, (i <= T)%nat -> Gk i = GG i) /\
  CQInv m M delay condemned T (gcstarts Zn g) (gcpending Zn g).

Lemma step_OInv t : OInv t (runK t) -> OInv (S t) (runK (S t)).
Proof using Hm2 HmM Hd Hsub.
  intros [Hopt Q]. pose proof (crun_CLInv Zn VcZ VpZ WkZ m M delay Hm2 HmM t) as W.
  pose proof (cG_S Zn VcZ VpZ WkZ m M delay t) as HGS.
  rewrite crun_S. set (g := runK t) in *.
  assert (Hg : forall j, (j <= t)%nat -> nthV Zn (gcopt Zn g) j = Gk j)
    by (intros j Hj; now apply (crun_opt_nth Zn)).
  pose proof (cchoose_max Zn VcZ VpZ m Z.le Z.le_refl Z.le_trans
                ltac:(intros x y H; apply Z.ltb_lt in H; lia)
                ltac:(intros x y H; now apply Z.ltb_ge in H) g t) as (Hb1 & Hb2 & Hb3).
  pose proof (CLInv_starts1 Zn VcZ VpZ m M HmM t g W) as Hrange.
  unfold cstep. destruct (cchoose Zn VcZ VpZ m g t) as [choice best] eqn:Ech.
  cbn [snd] in *. apply cchoose_ptr in Ech.
  rewrite Hg in Hb1, Hb2, Ech by lia.
  (* every current start contributes its candidate *)
  assert (Hb3' : forall a, In a (cstarts1 m (gcstarts Zn g) t) -> Gk a + PC a (S t) <= best).
  { intros a Ha. destruct (Hrange a Ha). apply Hb3.
    apply in_map_iff. exists a. split; [|exact Ha]. now rewrite Hg by lia. }
  (* an admissible start absent from the list is strictly beaten *)
  assert (Hmiss1 : forall a, (a + m <= S t)%nat -> (S t <= a + M)%nat ->
            ~ In a (cstarts1 m (gcstarts Zn g) t) -> GG a + PC a (S t) < GG (S t)).
  { intros a A1 A2 Hn.
    destruct (CQInv_starts1 m M delay condemned t _ _ Q a A1 A2 Hn) as (tau & Htau & Hc).
    apply (condemned_worse a tau); [exact Hc|lia|exact A2]. }
  (* the pruned maximum is the unpruned one *)
  assert (Hbest : best = GG (S t)).
  { apply Z.le_antisymm.
    - destruct choice as [a|].
      + destruct Ech as [[-> ->]|(i0 & Hi0 & Ea & ->)].
        * rewrite Hopt by lia. apply (G_step_pt PC PP m M one_le_m).
        * assert (Hin : In a (cstarts1 m (gcstarts Zn g) t)) by (subst a; now apply nth_In).
          destruct (Hrange a Hin) as [R1 R2].
          rewrite (ccands_nth Zn VcZ m g t i0 Hi0), <- Ea, Hg, Hopt by lia. now apply (G_step_coll PC PP m M one_le_m).
      + rewrite Ech, Hopt by lia. apply G_step_id.
    - destruct (G_attained_step PC PP m M one_le_m t) as [E|[E|(a & A1 & A2 & E)]].
      + rewrite E, <- Hopt by lia. exact Hb1.
      + rewrite E, <- Hopt by lia. exact Hb2.
      + destruct (in_dec Nat.eq_dec a (cstarts1 m (gcstarts Zn g) t)) as [Hin|Hn].
        * rewrite E, <- Hopt by lia. now apply Hb3'.
        * pose proof (Hmiss1 a A1 A2 Hn). lia. }
  split.
  - intros i Hi. destruct (Nat.eq_dec i (S t)) as [->|Hne]; [|apply Hopt; lia].
    now rewrite HGS.
  - destruct (pop delay (gcpending Zn g ++ [clow Zn VcZ WkZ m g t best])) as [now pend'] eqn:Epop.
    cbn [gcstarts gcpending].
    eapply cqueue_step; [exact Hd|exact Q| |exact Epop].
    (* starts recorded as too low at this end are condemned at S t *)
    intros a Ha. apply in_clow in Ha as [Hin Hc]. apply Z.ltb_lt in Hc.
    destruct (Hrange a Hin) as [R1 R2]. rewrite Hg, Hopt in Hc by lia. split; [lia|]. rewrite <- Hbest. exact Hc.
Qed.

Lemma run_OInv n : OInv n (runK n).
Proof using Hm2 HmM Hd Hsub.
  induction n as [|n IH]; [|now apply step_OInv].
  split; [intros i Hi; now replace i with 0%nat by lia|apply CQInv_init, one_le_m].
Qed.

Theorem capa_scores_optimal n scores c p : capaM n = (scores, c, p) ->
  forall t, (t < n)%nat -> nthZ scores t = GG (S t).
Proof using Hm2 HmM Hd Hsub.
  intros Hc t Ht. rewrite (scores_nth n scores c p) by assumption.
  apply (proj1 (run_OInv n)). lia.
Qed.

(** the predicted anomaly set attains the optimum G n *)
Corollary capa_value_optimal n scores c p : capaM n = (scores, c, p) ->
  valueM (map to_anom (capa_predict false c p)) = GG n.
Proof using Hm2 HmM Hd Hsub.
  intros Hc. rewrite capa_C in Hc.
  rewrite (ccapa_predict_chain Zn _ _ _ _ _ _ _ _ _ _ Hc), chain_value_Gk by lia.
  apply (proj1 (run_OInv n)). lia.
Qed.

Theorem capa_optimal n scores c p : capaM n = (scores, c, p) ->
  forall l, ValidM l n -> valueM l <= valueM (map to_anom (capa_predict false c p)).
Proof using Hm2 HmM Hd Hsub.
  intros Hc l Hl. rewrite (capa_value_optimal n scores c p Hc).
  now apply (G_upper PC PP m M one_le_m).
Qed.

End Model.

(** run_base_capa applies a pruning decision m - 1 iterations after it is taken *)
Corollary capa_scores_optimal_min_delay Sc Sp ac bc ap bp m M :
  (2 <= m)%nat -> (m <= M)%nat ->
  (forall s k e, (s + m <= k)%nat -> (k + m <= e)%nat -> (e <= s + M)%nat ->
     Pc Sc ac bc s e <= Pc Sc ac bc s k + (ac + sumZ bc) + Pc Sc ac bc k e) ->
  forall n scores c p, capa Sc Sp ac bc ap bp m M (m - 1) n = (scores, c, p) ->
  forall t, (t < n)%nat -> nthZ scores t = G (Pc Sc ac bc) (Pp Sp ap bp) m M (S t).
Proof.
  intros H2 HM Hs. apply capa_scores_optimal; [exact H2|exact HM|lia|exact Hs].
Qed.

(** * Immediate pruning (delay = 0, what run_base_capa did before its pruning decisions were
      made to wait m - 1 iterations) is not optimal *)

(** savings from a loss table: loss[i][theta], theta in 0..Q;
    saving of [s,e) = (sum of loss[.][0]) - min_theta (sum of loss[.][theta]).
    Rows beyond the table count as 0.  Sub-additive for every split. *)
Section LossSavings.
Variable loss : list (list Z).
Variable Q : nat.

Definition lossat (th i : nat) : Z := nth th (nth i loss []) 0.
Definition segsum (th s e : nat) : Z := sumZ (map (lossat th) (seq s (e - s))).
Fixpoint minover (f : nat -> Z) (q : nat) : Z :=
  match q with O => f 0%nat | S q' => Z.min (f (S q')) (minover f q') end.
Definition lsav (s e : nat) : Z := segsum 0 s e - minover (fun th => segsum th s e) Q.

Lemma segsum_split th s k e : (s <= k)%nat -> (k <= e)%nat ->
  segsum th s e = segsum th s k + segsum th k e.
Proof. apply sumZ_seq_split. Qed.

Lemma minover_superadd f g q :
  minover f q + minover g q <= minover (fun th => f th + g th) q.
Proof. induction q as [|q IH]; cbn [minover]; lia. Qed.

Lemma minover_ext f g q : (forall th, f th = g th) -> minover f q = minover g q.
Proof. intros H. induction q as [|q IH]; cbn [minover]; [apply H|]. now rewrite H, IH. Qed.

Lemma lsav_subadd s k e : (s <= k)%nat -> (k <= e)%nat -> lsav s e <= lsav s k + lsav k e.
Proof.
  intros H1 H2. unfold lsav. rewrite (segsum_split 0 s k e H1 H2).
  rewrite (minover_ext (fun th => segsum th s e)
                       (fun th => segsum th s k + segsum th k e))
    by (intros th; now apply segsum_split).
  pose proof (minover_superadd (fun th => segsum th s k) (fun th => segsum th k e) Q) as Hs.
  cbv beta in Hs. lia.
Qed.
End LossSavings.

Lemma penalise_single x a : penalise [x] a [0] = x - a.
Proof. unfold penalise. cbn. lia. Qed.

(** witness: one column, two parameter values, n = 4, m = 2, M = 4,
    collective penalty 1, point penalty 4.  Start 0 is found too low at end 3
    (0 + 1 < 2) and dropped at once, but [0,4) is the unique optimum at end 4 = 3 + 1 < 3 + m:
    pruned scores [0;2;2;2], optimum G = 0,2,2,3. *)
Definition wloss : list (list Z) := [[3;0];[1;1];[0;2];[3;0]].
Definition wSc (s e : nat) : list Z := [lsav wloss 1 s e].
Definition wSp (t : nat) : list Z := [lsav wloss 1 t (S t)].

Theorem capa_immediate_pruning_refuted :
  exists Sc Sp ac bc ap bp m M n,
    (2 <= m <= M)%nat /\
    (forall s k e, (s + m <= k)%nat -> (k + m <= e)%nat -> (e <= s + M)%nat ->
       Pc Sc ac bc s e <= Pc Sc ac bc s k + (ac + sumZ bc) + Pc Sc ac bc k e) /\
    exists t scores c p,
      (t < n)%nat /\ capa Sc Sp ac bc ap bp m M 0 n = (scores, c, p) /\
      nthZ scores t <> G (Pc Sc ac bc) (Pp Sp ap bp) m M (S t).
Proof.
  exists wSc, wSp, 1, [0], 4, [0], 2%nat, 4%nat, 4%nat.
  split; [lia|]. split.
  - intros s k e H1 H2 H3. unfold Pc, wSc. rewrite !penalise_single. cbn [sumZ].
    pose proof (lsav_subadd wloss 1 s k e ltac:(lia) ltac:(lia)). lia.
  - exists 3%nat. eexists. eexists. eexists.
    split; [lia|]. split; [vm_compute; reflexivity|].
    vm_compute. discriminate.
Qed.

(** the numbers: immediate pruning returns 2 at the last index, delay m - 1 = 1 returns
    the optimum 3 *)
Example witness_scores_delay0 :
  fst (fst (capa wSc wSp 1 [0] 4 [0] 2 4 0 4)) = [0; 2; 2; 2].
Proof. vm_compute. reflexivity. Qed.
Example witness_scores_delay1 :
  fst (fst (capa wSc wSp 1 [0] 4 [0] 2 4 1 4)) = [0; 2; 2; 3].
Proof. vm_compute. reflexivity. Qed.
Example witness_G :
  map (G (Pc wSc 1 [0]) (Pp wSp 4 [0]) 2 4) [1; 2; 3; 4]%nat = [0; 2; 2; 3].
Proof. vm_compute. reflexivity. Qed.

(** the same sub-additivity holds for every split of every interval, not only the
    ones the optimality theorem asks for *)
Lemma witness_subadditive_everywhere s k e : (s <= k)%nat -> (k <= e)%nat ->
  Pc wSc 1 [0] s e <= Pc wSc 1 [0] s k + (1 + sumZ [0]) + Pc wSc 1 [0] k e.
Proof.
  intros H1 H2. unfold Pc, wSc. rewrite !penalise_single. cbn [sumZ].
  pose proof (lsav_subadd wloss 1 s k e H1 H2). lia.
Qed.

Print Assumptions G_upper.
Print Assumptions G_attained.
Print Assumptions capa_wellformed.
Print Assumptions capa_value_is_final_score.
Print Assumptions capa_ignore_points.
Print Assumptions capa_scores_optimal.
Print Assumptions capa_optimal.
Print Assumptions capa_immediate_pruning_refuted.
