(** The BINARY64 run of CAPA / MVCAPA against the inexact-arithmetic theorem.

    [gcapa F64] (Model/GenericCapa.v at the primitive-float instance of Model/GenericF.v) is the
    definition the harness runs on the float savings of the real scorer and compares bit for bit with
    the real detectors.  Proofs/CapaApprox.v proves that the CAPA loop over R whose arithmetic steps
    are UNINTERPRETED functions [Vc], [Vp], [Wk] is near-optimal as soon as the values it realises are
    within eps of the exact sums.  This file links the two:

      1  [capa_trace_finite]: a boolean, vm_compute-able test -- every float the run stores or
         compares is finite (no NaN, no infinity);
      2  [gcapa_F64_is_capaA]: under that test the float run IS the run of [capaA] on the tables
         [Vct] / [Vpt] / [Wkt] of the real values of the floats it computed (same anomalies, scores
         mapped by [FR]).  The only other premise is [1 <= m]: with m = 0 the loop reads opt[t+1]
         before it is written (the default 0), which the final table does not record;
      3  [capa_F64_near_optimal], [capa_F64_final_close]: the anomalies returned by the float run
         are within 3 n eps of the optimum of the TRUE penalised savings, eps bounding the distance
         between each realised float sum and the exact sum;
      4  [capa_F64_near_optimal_bounds], [capa_F64_final_close_bounds]: eps = delta + u53 * Mag from
         the error delta of the penalised savings and one rounding of a binary64 addition;
      5  a concrete instance (n = 6, m = 2, M = 4, delay = 1) evaluated by vm_compute.

    The float penalised savings [gPc F64 ..] / [gPp F64 ..] are opaque floats: [gpenalise] is not
    modelled over R. *)
From Coq Require Import Reals Lra Lia List Bool Floats.
From SK Require Import Model.Capa Proofs.CapaSpec Proofs.CapaDP Model.CapaR Proofs.CapaReal
                       Model.CapaA Proofs.CapaApprox Model.Generic Model.GenericCapa Model.GenericF
                       Proofs.GenericR Proofs.GenericCapaR Proofs.FloatError Proofs.FloatRefine
                       Proofs.FloatRun.
Import ListNotations.
Local Open Scope R_scope.

Notation pfloat := PrimFloat.float (only parsing).

Lemma finF_zero : finF 0%float = true.
Proof. exact FloatRefine.finF_zero. Qed.

Lemma nthV_In (l : list pfloat) i : (i < length l)%nat -> In (nthV F64 l i) l.
Proof. intros H. unfold nthV. now apply nth_In. Qed.

Section CapaFloat.
Variable tiny : pfloat -> bool.
Variable Sc : nat -> nat -> list pfloat.
Variable Sp : nat -> list pfloat.
Variables (ac ap : pfloat) (bc bp : list pfloat).
Variables (m M delay n : nat).

Notation stepG := (gcstep F64 tiny Sc Sp ac bc ap bp m M delay).
Notation runG := (gcrun F64 tiny Sc Sp ac bc ap bp m M delay).
Notation capaG := (gcapa F64 tiny Sc Sp ac bc ap bp m M delay).

(** the final state of the float run, its table of stored values, the float prune constant and the
    float penalised savings *)
Definition gsF : gcst F64 := runG n.
Definition optF : list pfloat := gcopt F64 gsF.
Definition Kf : pfloat := (ac + gsum F64 bc)%float.
Definition PcF (a T : nat) : pfloat := gPc F64 tiny Sc ac bc a T.
Definition PpF (t : nat) : pfloat := gPp F64 tiny Sp ap bp t.

(** the three kinds of float sums of the loop, read off the final table *)
Definition candF (a T : nat) : pfloat := (nthV F64 optF a + PcF a T)%float.
Definition pointF (t : nat) : pfloat := (nthV F64 optF t + PpF t)%float.
Definition pruneF (a T : nat) : pfloat := (candF a T + Kf)%float.

(** REALISED tables: the real argument is ignored *)
Definition Vct (a T : nat) (_ : R) : R := FR (nthV F64 optF a + PcF a T)%float.
Definition Vpt (t : nat) (_ : R) : R := FR (nthV F64 optF t + PpF t)%float.
Definition Wkt (a T : nat) (_ : R) : R := FR ((nthV F64 optF a + PcF a T) + Kf)%float.

(** every float of the trace is finite *)
Definition capa_trace_finite : bool :=
  forallb finF optF && finF Kf &&
  forallb (fun T => forallb (fun a => finF (PcF a T) && finF (candF a T) && finF (pruneF a T))
                            (seq 0 T)) (seq 1 n) &&
  forallb (fun t => finF (PpF t) && finF (pointF t)) (seq 0 n).

Lemma trace_finite_spec : capa_trace_finite = true ->
  (forall x, In x optF -> finF x = true) /\ finF Kf = true /\
  (forall a T, (a < T <= n)%nat ->
     finF (PcF a T) = true /\ finF (candF a T) = true /\ finF (pruneF a T) = true) /\
  (forall t, (t < n)%nat -> finF (PpF t) = true /\ finF (pointF t) = true).
Proof.
  unfold capa_trace_finite. intros H.
  apply andb_true_iff in H as [H H4]. apply andb_true_iff in H as [H H3].
  apply andb_true_iff in H as [H1 H2].
  split; [|split; [exact H2|split]].
  - exact (proj1 (forallb_forall _ _) H1).
  - intros a T HaT. pose proof (forallb_triangle _ _ _ H3 a T ltac:(lia) ltac:(lia)) as Ha.
    apply andb_true_iff in Ha as [Ha Hc]. apply andb_true_iff in Ha as [Ha Hb]. auto.
  - intros t Ht. exact (proj1 (andb_true_iff _ _) (forallb_seq _ _ _ H4 t ltac:(lia))).
Qed.


(** the float run is the loop of Proofs/CapaSkeleton.v with binary64 sums ([gcapa_C]); [FR] maps it
    to the loop over R on the realised tables ([crun_map]), since on finite floats [FR] preserves the
    comparisons and each realised table holds the [FR] of the float sum *)
Notation VcF := (fun (a T : nat) (g : pfloat) => (g + PcF a T)%float).
Notation VpF := (fun (t : nat) (g : pfloat) => (g + PpF t)%float).
Notation WkF := (fun (_ _ : nat) (c : pfloat) => (c + Kf)%float).
Notation runK := (crun F64 VcF VpF WkF m M delay).

Lemma len_optF : length optF = S n.
Proof. exact (crun_len_opt F64 VcF VpF WkF m M delay n). Qed.

(** the table is 0 followed by the reported scores *)
Lemma optF_scores scoresF c p : capaG n = (scoresF, c, p) -> optF = 0%float :: scoresF.
Proof.
  intros HG. apply (ccapa_eq F64 VcF VpF WkF m M delay) in HG as [-> _].
  change optF with (gcopt F64 (runK n)).
  pose proof (crun_opt_nth F64 VcF VpF WkF m M delay n 0 (Nat.le_0_l n)) as H0.
  pose proof len_optF as Hl. change optF with (gcopt F64 (runK n)) in Hl.
  destruct (gcopt F64 (runK n)) as [|x o]; [discriminate Hl|].
  cbn [tl]. f_equal. exact H0.
Qed.

(** stored values are never overwritten *)
Lemma runK_optF k i : (i <= k <= n)%nat -> nthV F64 (gcopt F64 (runK k)) i = nthV F64 optF i.
Proof.
  intros H. change optF with (gcopt F64 (runK n)). now rewrite !crun_opt_nth by lia.
Qed.

Lemma FR_ltb (x y : pfloat) : finF x = true -> finF y = true ->
  ltb Rn (FR x) (FR y) = ltb F64 x y.
Proof. intros Hx Hy. symmetry. now apply F_ltb_FR. Qed.

Section Sim.
Hypothesis Hm1 : (1 <= m)%nat.
Hypothesis Hfin : capa_trace_finite = true.

Lemma sim_ok t : (t < n)%nat ->
  step_ok F64 Rn FR (fun x => finF x = true) VcF Vct VpF Vpt WkF Wkt m (runK t) t.
Proof.
  intros Ht. destruct (trace_finite_spec Hfin) as (Ho & _ & Hc & Hp).
  unfold step_ok. cbv zeta. rewrite (runK_optF t t) by lia.
  split; [apply Ho, nthV_In; rewrite len_optF; lia|].
  split; [exact (proj2 (Hp t Ht))|]. split; [reflexivity|].
  intros a Ha.
  pose proof (cstarts1_le m _ t a (crun_starts F64 VcF VpF WkF m M delay t) Ha).
  rewrite (runK_optF t a) by lia.
  destruct (Hc a (S t) ltac:(lia)) as (_ & H2 & H3).
  split; [exact H2|]. split; [reflexivity|]. split; [exact H3|reflexivity].
Qed.

Lemma sim_run : crun Rn Vct Vpt Wkt m M delay n = gcmap F64 Rn FR (runK n).
Proof. exact (crun_map F64 Rn FR _ FR_zero FR_ltb _ _ _ _ _ _ m M delay n sim_ok). Qed.

Lemma optC_runA_FR : optC (runA Vct Vpt Wkt m M delay n) = map FR optF.
Proof.
  destruct (crun_A Vct Vct Vpt Vpt Wkt Wkt m M delay (fun _ _ _ => eq_refl) (fun _ _ => eq_refl)
              (fun _ _ _ => eq_refl) n) as (<- & _).
  now rewrite sim_run.
Qed.

(** the float run IS the run of the inexact model on the tables of its realised values *)
Theorem gcapa_F64_is_capaA_sec scoresF c p :
  capaG n = (scoresF, c, p) ->
  capaA Vct Vpt Wkt m M delay n = (map FR scoresF, c, p).
Proof.
  intros HG. rewrite capaA_C.
  rewrite (ccapa_map F64 Rn FR _ FR_zero FR_ltb VcF _ VpF _ WkF _ m M delay n sim_ok).
  change (ccapa F64 VcF VpF WkF m M delay n) with (capaG n). now rewrite HG.
Qed.

Lemma Grun_FR a : Grun Vct Vpt Wkt m M delay n a = FR (nthV F64 optF a).
Proof. unfold Grun. rewrite optC_runA_FR. apply nthR_map_FR. Qed.
End Sim.

Theorem gcapa_F64_is_capaA scoresF c p :
  (1 <= m)%nat -> capa_trace_finite = true ->
  capaG n = (scoresF, c, p) ->
  capaA Vct Vpt Wkt m M delay n = (map FR scoresF, c, p).
Proof. intros Hm1 Hfin. now apply gcapa_F64_is_capaA_sec. Qed.

Section Main.
Variable pc : nat -> nat -> R.    (* TRUE penalised saving of the collective anomaly [s,e) *)
Variable pp : nat -> R.           (* TRUE penalised saving of the point anomaly at t *)
Variable K : R.                   (* TRUE prune constant alpha + sum beta *)

Theorem capa_F64_near_optimal (eps : R) scoresF c p :
  (2 <= m)%nat -> (m <= M)%nat -> (m <= delay + 1)%nat -> 0 <= eps ->
  (forall s k e, (s + m <= k)%nat -> (k + m <= e)%nat -> (e <= s + M)%nat ->
     pc s e <= pc s k + K + pc k e) ->
  capa_trace_finite = true ->
  (forall a T, (a < T <= n)%nat ->
     Rabs (FR (nthV F64 optF a + PcF a T)%float - (FR (nthV F64 optF a) + pc a T)) <= eps) ->
  (forall t, (t < n)%nat ->
     Rabs (FR (nthV F64 optF t + PpF t)%float - (FR (nthV F64 optF t) + pp t)) <= eps) ->
  (forall a T, (a < T <= n)%nat ->
     Rabs (FR ((nthV F64 optF a + PcF a T) + Kf)%float
           - (FR (nthV F64 optF a + PcF a T)%float + K)) <= eps) ->
  capaG n = (scoresF, c, p) ->
  forall l, Valid m M l n ->
    totalR pc pp l <= totalR pc pp (map to_anom (capa_predict false c p)) + 3 * INR n * eps.
Proof.
  intros Hm2 HmM Hd Heps Hsub Hfin HVc HVp HWk HG.
  assert (Hm1 : (1 <= m)%nat) by lia.
  pose proof (gcapa_F64_is_capaA scoresF c p Hm1 Hfin HG) as HA.
  (* the stored values of the inexact run are the [FR] of the stored floats ([Grun_FR]) and
     the realised tables ignore their real argument, so the error hypotheses on the
     realised values are the hypotheses on the floats *)
  apply (capaA_near_optimal_run Vct Vpt Wkt m M delay pc pp K eps n (map FR scoresF) c p);
    try assumption;
    intros; rewrite ?(Grun_FR Hm1 Hfin); unfold Vct, Vpt, Wkt; auto.
Qed.

(** the last score the float run reports is within n eps of the true total saving of the anomalies
    it reports *)
Theorem capa_F64_final_close (eps : R) scoresF c p :
  (2 <= m)%nat -> (m <= M)%nat -> 0 <= eps ->
  capa_trace_finite = true ->
  (forall a T, (a < T <= n)%nat ->
     Rabs (FR (nthV F64 optF a + PcF a T)%float - (FR (nthV F64 optF a) + pc a T)) <= eps) ->
  (forall t, (t < n)%nat ->
     Rabs (FR (nthV F64 optF t + PpF t)%float - (FR (nthV F64 optF t) + pp t)) <= eps) ->
  capaG n = (scoresF, c, p) -> (1 <= n)%nat ->
  Rabs (FR (nthV F64 scoresF (n - 1)) - totalR pc pp (map to_anom (capa_predict false c p)))
    <= INR n * eps.
Proof.
  intros Hm2 HmM Heps Hfin HVc HVp HG Hn.
  assert (Hm1 : (1 <= m)%nat) by lia.
  pose proof (gcapa_F64_is_capaA scoresF c p Hm1 Hfin HG) as HA.
  rewrite <- nthR_map_FR.
  (* as in [capa_F64_near_optimal] *)
  apply (capaA_final_close_run Vct Vpt Wkt m M delay pc pp eps n (map FR scoresF) c p);
    try assumption;
    intros; rewrite ?(Grun_FR Hm1 Hfin); unfold Vct, Vpt, Wkt; auto.
Qed.

Section Bounds.
Variables (delta Mag : R).
Hypothesis Hfin : capa_trace_finite = true.
Hypothesis Hpc : forall a T, (a < T <= n)%nat -> Rabs (FR (PcF a T) - pc a T) <= delta.
Hypothesis Hpp : forall t, (t < n)%nat -> Rabs (FR (PpF t) - pp t) <= delta.
Hypothesis HK : Rabs (FR Kf - K) <= delta.
Hypothesis HMc : forall a T, (a < T <= n)%nat -> Rabs (FR (nthV F64 optF a) + FR (PcF a T)) <= Mag.
Hypothesis HMp : forall t, (t < n)%nat -> Rabs (FR (nthV F64 optF t) + FR (PpF t)) <= Mag.
Hypothesis HMk : forall a T, (a < T <= n)%nat ->
  Rabs (FR (nthV F64 optF a + PcF a T)%float + FR Kf) <= Mag.
Hypothesis HMag : 0 <= Mag.

Lemma eps_bounds_nonneg : 0 <= delta + u53 * Mag.
Proof.
  pose proof (Rabs_pos (FR Kf - K)). pose proof u53_nonneg.
  assert (0 <= u53 * Mag) by (apply Rmult_le_pos; assumption). lra.
Qed.

Lemma eps_bounds_cand a T : (a < T <= n)%nat ->
  Rabs (FR (nthV F64 optF a + PcF a T)%float - (FR (nthV F64 optF a) + pc a T)) <= delta + u53 * Mag.
Proof.
  intros HT. destruct (trace_finite_spec Hfin) as (Ho & _ & H & _).
  destruct (H a T HT) as (H1 & H2 & _).
  apply add_error; auto.
  apply Ho. apply nthV_In. rewrite len_optF. lia.
Qed.

Lemma eps_bounds_point t : (t < n)%nat ->
  Rabs (FR (nthV F64 optF t + PpF t)%float - (FR (nthV F64 optF t) + pp t)) <= delta + u53 * Mag.
Proof.
  intros Ht. destruct (trace_finite_spec Hfin) as (Ho & _ & _ & H).
  destruct (H t Ht) as (H1 & H2).
  apply add_error; auto.
  apply Ho. apply nthV_In. rewrite len_optF. lia.
Qed.

Lemma eps_bounds_prune a T : (a < T <= n)%nat ->
  Rabs (FR ((nthV F64 optF a + PcF a T) + Kf)%float - (FR (nthV F64 optF a + PcF a T)%float + K))
    <= delta + u53 * Mag.
Proof.
  intros HT. destruct (trace_finite_spec Hfin) as (_ & Hk & H & _).
  destruct (H a T HT) as (_ & H2 & H3).
  apply add_error; auto.
Qed.

Theorem capa_F64_near_optimal_bounds scoresF c p :
  (2 <= m)%nat -> (m <= M)%nat -> (m <= delay + 1)%nat ->
  (forall s k e, (s + m <= k)%nat -> (k + m <= e)%nat -> (e <= s + M)%nat ->
     pc s e <= pc s k + K + pc k e) ->
  capaG n = (scoresF, c, p) ->
  forall l, Valid m M l n ->
    totalR pc pp l
    <= totalR pc pp (map to_anom (capa_predict false c p)) + 3 * INR n * (delta + u53 * Mag).
Proof.
  intros Hm2 HmM Hd Hsub HG.
  apply (capa_F64_near_optimal (delta + u53 * Mag) scoresF c p); try assumption.
  - exact eps_bounds_nonneg.
  - exact eps_bounds_cand.
  - exact eps_bounds_point.
  - exact eps_bounds_prune.
Qed.

Theorem capa_F64_final_close_bounds scoresF c p :
  (2 <= m)%nat -> (m <= M)%nat ->
  capaG n = (scoresF, c, p) -> (1 <= n)%nat ->
  Rabs (FR (nthV F64 scoresF (n - 1)) - totalR pc pp (map to_anom (capa_predict false c p)))
    <= INR n * (delta + u53 * Mag).
Proof.
  intros Hm2 HmM HG Hn.
  apply (capa_F64_final_close (delta + u53 * Mag) scoresF c p); try assumption.
  - exact eps_bounds_nonneg.
  - exact eps_bounds_cand.
  - exact eps_bounds_point.
Qed.
End Bounds.
End Main.
End CapaFloat.


(** six observations (0.1, 5.2, 0.2, 0.3, 4, 4.1 rounded to binary64), one column; the saving of a
    segment is the float sum of squares, accumulated left to right; the real "negligible beta" test
    [beta < 1e-8] (1e-8 rounded to binary64); alpha_c = 8, beta_c = 1.25, alpha_p = 4, beta_p = 2 *)
Definition ex_x : list pfloat :=
  [0x1.999999999999ap-4; 0x1.4cccccccccccdp+2; 0x1.999999999999ap-3; 0x1.3333333333333p-2; 4;
   0x1.0666666666666p+2]%float.
Definition ex_tiny : pfloat -> bool := fun b => PrimFloat.ltb b 0x1.5798ee2308c3ap-27%float.
Definition ex_sumsq (l : list pfloat) : pfloat := fold_left (fun acc y => acc + y * y)%float l 0%float.
Definition ex_Sc (a T : nat) : list pfloat := [ex_sumsq (firstn (T - a) (skipn a ex_x))].
Definition ex_Sp (t : nat) : list pfloat := [ex_sumsq (firstn 1 (skipn t ex_x))].
Definition ex_ac : pfloat := 8%float.
Definition ex_bc : list pfloat := [1.25%float].
Definition ex_ap : pfloat := 4%float.
Definition ex_bp : list pfloat := [2%float].

(** the scores are NOT the exact real sums: 21.04 is reported as 21.040000000000003 *)
Definition ex_scores : list pfloat :=
  [0; 0x1.50a3d70a3d70bp+4; 0x1.50a3d70a3d70bp+4; 0x1.50a3d70a3d70bp+4; 0x1.0f5c28f5c28f6p+5;
   0x1.65d70a3d70a3ep+5]%float.

Example ex_gcapa :
  gcapa F64 ex_tiny ex_Sc ex_Sp ex_ac ex_bc ex_ap ex_bp 2 4 1 6
  = (ex_scores, [(2, 6)]%nat, [(1, 2)]%nat).
Proof. vm_compute. reflexivity. Qed.

Example ex_trace_finite :
  capa_trace_finite ex_tiny ex_Sc ex_Sp ex_ac ex_ap ex_bc ex_bp 2 4 1 6 = true.
Proof.
  (* every [candF a T] would run the loop again: the table is read off [ex_gcapa] instead *)
  unfold capa_trace_finite, pruneF, candF, pointF. rewrite (optF_scores _ _ _ _ _ _ _ _ _ _ _ _ _ _ ex_gcapa).
  vm_compute. reflexivity.
Qed.

(** the checker rejects an overflowing prune constant (alpha + beta = +infinity) *)
Example ex_trace_overflow :
  capa_trace_finite ex_tiny ex_Sc ex_Sp 0x1.fffffffffffffp+1023%float ex_ap
                    [0x1.fffffffffffffp+1023%float] ex_bp 2 4 1 6 = false.
Proof.
  destruct (capa_trace_finite _ _ _ _ _ _ _ _ _ _ _) eqn:E; [|reflexivity].
  apply trace_finite_spec in E as (_ & Hk & _). discriminate Hk.
Qed.

(** the simulation theorem on this instance: the inexact real model, run on the tables of the real
    values of the floats, returns the anomalies of the float run and the real values of its scores *)
Example ex_simulation :
  capaA (Vct ex_tiny ex_Sc ex_Sp ex_ac ex_ap ex_bc ex_bp 2 4 1 6)
        (Vpt ex_tiny ex_Sc ex_Sp ex_ac ex_ap ex_bc ex_bp 2 4 1 6)
        (Wkt ex_tiny ex_Sc ex_Sp ex_ac ex_ap ex_bc ex_bp 2 4 1 6) 2 4 1 6
  = (map FR ex_scores, [(2, 6)]%nat, [(1, 2)]%nat).
Proof.
  apply gcapa_F64_is_capaA; [lia|exact ex_trace_finite|exact ex_gcapa].
Qed.

(** ... and the main theorem on this instance, for ANY true savings within eps of the float sums *)
Example ex_near_optimal (pc : nat -> nat -> R) (pp : nat -> R) (K eps : R) :
  0 <= eps ->
  (forall s k e, (s + 2 <= k)%nat -> (k + 2 <= e)%nat -> (e <= s + 4)%nat ->
     pc s e <= pc s k + K + pc k e) ->
  let oF := optF ex_tiny ex_Sc ex_Sp ex_ac ex_ap ex_bc ex_bp 2 4 1 6 in
  let kF := Kf ex_ac ex_bc in
  (forall a T, (a < T <= 6)%nat ->
     Rabs (FR (nthV F64 oF a + PcF ex_tiny ex_Sc ex_ac ex_bc a T)%float
           - (FR (nthV F64 oF a) + pc a T)) <= eps) ->
  (forall t, (t < 6)%nat ->
     Rabs (FR (nthV F64 oF t + PpF ex_tiny ex_Sp ex_ap ex_bp t)%float
           - (FR (nthV F64 oF t) + pp t)) <= eps) ->
  (forall a T, (a < T <= 6)%nat ->
     Rabs (FR ((nthV F64 oF a + PcF ex_tiny ex_Sc ex_ac ex_bc a T) + kF)%float
           - (FR (nthV F64 oF a + PcF ex_tiny ex_Sc ex_ac ex_bc a T)%float + K)) <= eps) ->
  forall l, Valid 2 4 l 6 ->
    totalR pc pp l <= totalR pc pp [to_anom (1, 2)%nat; to_anom (2, 6)%nat] + 3 * INR 6 * eps.
Proof.
  intros Heps Hsub oF kF HVc HVp HWk l Hl.
  exact (capa_F64_near_optimal ex_tiny ex_Sc ex_Sp ex_ac ex_ap ex_bc ex_bp 2 4 1 6 pc pp K eps
           ex_scores [(2, 6)]%nat [(1, 2)]%nat ltac:(lia) ltac:(lia) ltac:(lia) Heps Hsub
           ex_trace_finite HVc HVp HWk ex_gcapa l Hl).
Qed.

Print Assumptions gcapa_F64_is_capaA.
Print Assumptions capa_F64_near_optimal.
Print Assumptions capa_F64_final_close.
Print Assumptions capa_F64_near_optimal_bounds.
Print Assumptions ex_simulation.
