(** A larger penalty never yields more changepoints -- over the reals, and end to end for the built-in squared-error cost
    (real twin of [pelt_penalty_monotone], Proofs/PeltRefine.v; stated in Properties/C15.v). *)
From Coq Require Import Reals Lra List Lia.
From SK Require Import Model.PeltR Proofs.PeltSpec Gen.KernelsR Proofs.RealLib Proofs.ScoreKernels Proofs.PeltReal.
Import ListNotations.
Open Scope R_scope.

Lemma more_penalty_fewer_cptsR (C : nat -> nat -> R) (m n : nat) (pen1 pen2 : R) (c1 c2 : list nat) :
  pen1 < pen2 -> Adm m c1 n -> Adm m c2 n ->
  (forall c, Adm m c n -> pencostR C pen1 c1 n <= pencostR C pen1 c n) ->
  (forall c, Adm m c n -> pencostR C pen2 c2 n <= pencostR C pen2 c n) ->
  (length c2 <= length c1)%nat.
Proof.
  intros Hlt A1 A2 O1 O2. specialize (O1 c2 A2). specialize (O2 c1 A1).
  unfold pencostR in O1, O2.
  set (S1 := segcostR C 0 c1 n) in *. set (S2 := segcostR C 0 c2 n) in *.
  destruct (le_lt_dec (length c2) (length c1)) as [Hle|Hgt]; [exact Hle|exfalso].
  apply lt_INR in Hgt.
  set (k1 := INR (length c1)) in *. set (k2 := INR (length c2)) in *.
  assert (Hpos : 0 < (pen2 - pen1) * (k2 - k1)) by (apply Rmult_lt_0_compat; lra).
  nra.
Qed.

Theorem peltR_penalty_monotone (C : nat -> nat -> R) (pen1 pen2 : R) (m delay n : nat) :
  (1 <= m)%nat -> (2 * m <= n)%nat -> 0 <= pen1 < pen2 -> (m <= delay + 1)%nat ->
  (forall s k e, (s + m <= k)%nat -> (k + m <= e)%nat -> (e <= n)%nat -> C s k + C k e <= C s e) ->
  (length (snd (peltR C pen2 m delay n)) <= length (snd (peltR C pen1 m delay n)))%nat.
Proof.
  intros Hm Hn Hp Hd Hs.
  apply (more_penalty_fewer_cptsR C m n pen1 pen2); [lra| | | |].
  - now apply peltR_adm.
  - now apply peltR_adm.
  - intros c Hc. apply peltR_optimal_bounded; auto; lra.
  - intros c Hc. apply peltR_optimal_bounded; auto; lra.
Qed.

(** end to end: PELT with the squared-error cost on any real data *)
Theorem pelt_l2_penalty_monotone (xs : list R) (pen1 pen2 : R) (m : nat) :
  (1 <= m)%nat -> (2 * m <= length xs)%nat -> 0 <= pen1 < pen2 ->
  let C := l2_cost_optim_R (prefix xs) (prefix (sq xs)) in
  (length (snd (peltR C pen2 m (m - 1) (length xs))) <= length (snd (peltR C pen1 m (m - 1) (length xs))))%nat.
Proof.
  intros Hm Hn Hp C. apply peltR_penalty_monotone; auto; [lia|].
  intros s k e Hsk Hke _. apply l2_split; lia.
Qed.

Print Assumptions peltR_penalty_monotone.
Print Assumptions pelt_l2_penalty_monotone.
