(** The BINARY64 run of PELT and the inexact-arithmetic theorem.

    [gpelt F64 Cf penf m delay n] (Model/Generic.v at the instance Model/GenericF.v) is the PELT
    loop on Coq's primitive floats; the harness runs it on the float cost tables of the real
    scorers and it reproduces the real detector bit for bit.  Proofs/PeltApprox.v proves that
    PELT over the reals with ARBITRARY candidate / threshold / initial functions [V], [W], [I0]
    within [eps] of exact arithmetic loses at most [3 n eps] in the true objective.

    This file links the two.  [pelt_trace_finite Cf penf m delay n : bool] is a
    [vm_compute]-able test that every float the run looks at is finite.  Under that test the
    float run IS the inexact real run [peltA Vt Wt I0t (FR penf)] for the REALISED tables
        Vt a T _ = FR ((opt[a] + Cf a T) + penf),  Wt T _ = FR (opt[T] + penf),
        I0t e = FR (Cf 0 e)
    ([gpelt_F64_is_peltA]; opt = the final array of stored values, which are never
    overwritten: [grun_opt_prefix]).  Hence the theorems of PeltApprox.v hold for the binary64
    run with the error hypotheses stated on the floats of the run ([pelt_F64_near_optimal],
    [pelt_F64_final_close]), and, from an error bound [delta] on the cost table and a
    magnitude bound [Mag] on the sums, with eps = delta + 2 * u53 * Mag (the [_bounds]
    versions). *)
From Coq Require Import Reals Lra Lia List Bool Floats.
From SK Require Import Model.Generic Model.GenericF Model.PeltR Model.PeltA Proofs.PeltSpec
                       Proofs.PeltReal Proofs.PeltLoop Proofs.PeltInexact Proofs.PeltApprox
                       Proofs.RealLib Proofs.FloatError Proofs.FloatRefine Proofs.FloatRun.
Import ListNotations.
Local Open Scope R_scope.

(** [FR] is the real value of a float (Proofs/FloatRefine.v), not the optimal-partitioning
    recursion of Proofs/PeltReal.v *)
Notation FR := FloatRefine.FR.
(** [float] is the type of primitive floats (not Flocq's record of the same name) *)
Notation float := PrimFloat.float (only parsing).

(** * Comparisons and negation of finite floats *)

Lemma ltb_FR x y : finF x = true -> finF y = true ->
  PrimFloat.ltb x y = Rltb (FR x) (FR y).
Proof. exact (F_ltb_FR x y). Qed.

Lemma leb_FR x y : finF x = true -> finF y = true ->
  PrimFloat.leb x y = Rleb (FR x) (FR y).
Proof. exact (F_leb_FR x y). Qed.

Lemma finF_opp x : finF (- x)%float = finF x.
Proof. exact (FloatRun.finF_opp x). Qed.

(** * Structure of the generic run (any number type) *)

Section GStruct.
Variable N : num.
Variable C : nat -> nat -> T N.
Variable pen : T N.
Variable m delay : nat.
Hypothesis m_pos : (1 <= m)%nat.

Notation runG := (grun N C pen m delay).

(** stored values are never overwritten *)
Lemma grun_opt_prefix n t : (2 * m - 1 <= t)%nat -> (t <= n)%nat ->
  forall e, (e <= t)%nat -> nthV N (gopt N (runG n)) e = nthV N (gopt N (runG t)) e.
Proof. rewrite !grun_krun. now apply krun_opt_prefix. Qed.
End GStruct.

(** * The realised tables and the finiteness test *)

(** the final array of stored values [opt_cost[0..n]] of the binary64 run *)
Definition optF64 (Cf : nat -> nat -> float) (penf : float) (m delay n : nat) : list float :=
  gopt F64 (grun F64 Cf penf m delay n).

(** the float candidate, from the FINAL run's stored [opt[a]] *)
Definition Vt (Cf : nat -> nat -> float) (penf : float) (m delay n : nat)
    (a t : nat) (_ : R) : R :=
  FR ((nthV F64 (optF64 Cf penf m delay n) a + Cf a t) + penf)%float.
Definition Wt (Cf : nat -> nat -> float) (penf : float) (m delay n : nat)
    (t : nat) (_ : R) : R :=
  FR (nthV F64 (optF64 Cf penf m delay n) t + penf)%float.
Definition I0t (Cf : nat -> nat -> float) (e : nat) : R := FR (Cf 0%nat e).

(** every float the run can look at is finite *)
Definition pelt_trace_finite (Cf : nat -> nat -> float) (penf : float) (m delay n : nat) : bool :=
  let o := optF64 Cf penf m delay n in
  finF penf && finF (- penf)%float && forallb finF o &&
  forallb (fun t =>
      finF (nthV F64 o t + penf)%float &&
      forallb (fun a =>
          finF (Cf a t) && finF (nthV F64 o a + Cf a t)%float &&
          finF ((nthV F64 o a + Cf a t) + penf)%float) (seq 0 t))
    (seq 0 (S n)).

Record trace_fin (Cf : nat -> nat -> float) (penf : float) (m delay n : nat) : Prop := {
  tf_pen : finF penf = true;
  tf_negpen : finF (- penf)%float = true;
  tf_opt : forall a, finF (nthV F64 (optF64 Cf penf m delay n) a) = true;
  tf_thr : forall t, (t <= n)%nat -> finF (nthV F64 (optF64 Cf penf m delay n) t + penf)%float = true;
  tf_cost : forall a t, (a < t <= n)%nat -> finF (Cf a t) = true;
  tf_sum : forall a t, (a < t <= n)%nat ->
      finF (nthV F64 (optF64 Cf penf m delay n) a + Cf a t)%float = true;
  tf_cand : forall a t, (a < t <= n)%nat ->
      finF ((nthV F64 (optF64 Cf penf m delay n) a + Cf a t) + penf)%float = true }.

Lemma pelt_trace_finite_spec Cf penf m delay n :
  pelt_trace_finite Cf penf m delay n = true -> trace_fin Cf penf m delay n.
Proof.
  unfold pelt_trace_finite. cbv zeta. intros H.
  apply andb_prop in H as [H H4]. apply andb_prop in H as [H H3]. apply andb_prop in H as [H1 H2].
  pose proof (fun t Ht => andb_prop _ _ (forallb_seq _ 0 (S n) H4 t Ht)) as Hin.
  assert (Hcut : forall a t, (a < t <= n)%nat ->
     (finF (Cf a t) = true /\
      finF (nthV F64 (optF64 Cf penf m delay n) a + Cf a t)%float = true) /\
     finF ((nthV F64 (optF64 Cf penf m delay n) a + Cf a t) + penf)%float = true).
  { intros a t Hat. destruct (Hin t ltac:(lia)) as [_ Hb].
    pose proof (forallb_seq _ _ _ Hb a ltac:(lia)) as Hc.
    apply andb_prop in Hc as [Hc Hc3]. apply andb_prop in Hc. tauto. }
  constructor.
  - exact H1.
  - exact H2.
  - intros a. apply nthV_finite. exact H3.
  - intros t Ht. apply (Hin t). lia.
  - intros a t Hat. apply (Hcut a t Hat).
  - intros a t Hat. apply (Hcut a t Hat).
  - intros a t Hat. apply (Hcut a t Hat).
Qed.

(** * Simulation: the binary64 run is the inexact real run *)

Section Sim.
Variable Cf : nat -> nat -> float.
Variable penf : float.
Variable m delay n : nat.
Hypothesis m_pos : (1 <= m)%nat.
Hypothesis fin : trace_fin Cf penf m delay n.

Notation oF := (optF64 Cf penf m delay n).
Notation VtS := (Vt Cf penf m delay n).
Notation WtS := (Wt Cf penf m delay n).
Notation gV := (fun a T g => add F64 (add F64 g (Cf a T)) penf).
Notation gW := (fun (_ : nat) b => add F64 b penf).
Notation stepF := (kstep F64 gV gW m delay).
Notation runF := (krun F64 gV gW m delay (neg F64 penf) (Cf 0%nat)).
(** a binary64 state of the loop of Proofs/PeltLoop.v, read over R *)
Notation liftF := (gmap F64 Rn FR).

Lemma oF_runF t e : (2 * m - 1 <= t <= n)%nat -> (e <= t)%nat ->
  nthV F64 oF e = nthV F64 (gopt F64 (runF t)) e.
Proof.
  intros Ht He. unfold optF64. rewrite grun_krun.
  apply krun_opt_prefix; [exact m_pos|lia|lia|exact He].
Qed.

(** one iteration: [kstep_map], the comparisons being those of finite floats *)
Lemma step_sim t : (2 * m - 1 <= t < n)%nat ->
  kstep Rn VtS WtS m delay (liftF (runF t)) t = liftF (stepF (runF t) t).
Proof.
  intros Ht.
  pose proof (krun_KInv F64 gV gW m delay (neg F64 penf) (Cf 0%nat) m_pos t ltac:(lia)) as K.
  assert (Hst : forall a, In a (kstarts1 F64 m (runF t) t) -> (a <= t)%nat).
  { intros a Ha.
    pose proof (starts1_ok m t _ ltac:(lia) (ki_starts K) a Ha) as Hf.
    pose proof (last_start_lt m (S t) a m_pos ltac:(lia) Hf). lia. }
  assert (Hfc : forall x, In x (kcands F64 gV m (runF t) t) -> finF x = true).
  { intros x Hx. apply in_map_iff in Hx as (a & <- & Ha).
    pose proof (Hst a Ha) as Hat. unfold kcandv. rewrite <- (oF_runF t a) by lia.
    apply (tf_cand _ _ _ _ _ fin). lia. }
  apply kstep_map.
  - unfold kcands. rewrite map_map. apply map_ext_in. intros a Ha. unfold kcandv, Vt.
    rewrite (oF_runF t a) by (try apply Hst; auto; lia). reflexivity.
  - intros x y Hx Hy. exact (eq_sym (ltb_FR x y (Hfc x Hx) (Hfc y Hy))).
  - intros i b E x Hx.
    assert (Hb : nthV F64 oF (S t) = b).
    { rewrite (oF_runF (S t) (S t)), krun_S by lia. unfold kstep. rewrite E.
      destruct (pop delay _). cbn [gopt]. unfold nthV.
      rewrite <- (ki_len_opt K). apply nth_middle. }
    unfold Wt. rewrite Hb. refine (eq_sym (leb_FR x _ (Hfc x Hx) _)).
    rewrite <- Hb. apply (tf_thr _ _ _ _ _ fin). lia.
Qed.

Lemma run_sim t : (t <= n)%nat ->
  krun Rn VtS WtS m delay (- FR penf) (I0t Cf) t = liftF (runF t).
Proof.
  rewrite <- (FR_opp penf).
  exact (krun_map F64 Rn FR gV gW VtS WtS m delay (neg F64 penf) (Cf 0%nat) n step_sim t).
Qed.
End Sim.

(** SIMULATION: on a finite trace the binary64 PELT is the inexact real PELT of the realised
    tables, value for value (scores mapped by [FR]) and changepoint for changepoint *)
Theorem gpelt_F64_is_peltA (Cf : nat -> nat -> float) (penf : float) (m delay n : nat) :
  pelt_trace_finite Cf penf m delay n = true -> (1 <= m)%nat -> (2 * m <= n)%nat ->
  peltA (Vt Cf penf m delay n) (Wt Cf penf m delay n) (I0t Cf) (FR penf) m delay n
  = (map FR (fst (gpelt F64 Cf penf m delay n)), snd (gpelt F64 Cf penf m delay n)).
Proof.
  intros Hfin Hm Hn. apply pelt_trace_finite_spec in Hfin.
  rewrite <- kpelt_A, gpelt_kpelt. unfold kpelt.
  rewrite (run_sim Cf penf m delay n Hm Hfin n (le_n n)).
  cbn [gmap gopt gprev fst snd]. rewrite tl_map. reflexivity.
Qed.

(** the stored values of the inexact real run are the real values of the stored floats *)
Lemma storedA_F64 (Cf : nat -> nat -> float) (penf : float) (m delay n : nat) :
  pelt_trace_finite Cf penf m delay n = true -> (1 <= m)%nat -> (2 * m <= n)%nat ->
  forall a, storedA (Vt Cf penf m delay n) (Wt Cf penf m delay n) (I0t Cf) (FR penf) m delay n a
            = FR (nthV F64 (optF64 Cf penf m delay n) a).
Proof.
  intros Hfin Hm Hn a. apply pelt_trace_finite_spec in Hfin.
  rewrite <- stored_storedA. unfold stored.
  rewrite (run_sim Cf penf m delay n Hm Hfin n (le_n n)).
  unfold optF64. rewrite grun_krun. apply nthR_map_FR.
Qed.

(** * Rounding error of one candidate *)

Lemma FR_cand_error (g c p : float) :
  finF g = true -> finF c = true -> finF p = true ->
  finF (g + c)%float = true -> finF ((g + c) + p)%float = true ->
  Rabs (FR ((g + c) + p)%float - (FR g + FR c + FR p))
  <= u53 * Rabs (FR g + FR c) + u53 * Rabs (FR (g + c)%float + FR p).
Proof.
  intros Hg Hc Hp Hs Hr.
  pose proof (FR_add_error g c Hg Hc Hs) as H1.
  pose proof (FR_add_error (g + c)%float p Hs Hp Hr) as H2.
  replace (FR ((g + c) + p)%float - (FR g + FR c + FR p))
    with ((FR ((g + c) + p)%float - (FR (g + c)%float + FR p))
          + (FR (g + c)%float - (FR g + FR c))) by ring.
  eapply Rle_trans; [apply Rabs_triang|]. lra.
Qed.

(** * The main theorems for the binary64 run *)

(** MAIN THEOREM.  [C] is the TRUE aggregated cost (split inequality); [eps] bounds the
    distance between every float candidate / threshold / initial value of the run and the
    exact expression on [C] evaluated at the stored floats.  Then the changepoints reported
    by the binary64 run are within [3 n eps] of optimal for the TRUE penalised cost. *)
Theorem pelt_F64_near_optimal (Cf : nat -> nat -> float) (penf : float) (C : nat -> nat -> R)
    (eps : R) (m delay n : nat) :
  (1 <= m)%nat -> (m <= delay + 1)%nat -> (2 * m <= n)%nat ->
  pelt_trace_finite Cf penf m delay n = true ->
  (forall s k e, (s + m <= k)%nat -> (k + m <= e)%nat -> (e <= n)%nat ->
                 C s k + C k e <= C s e) ->
  (forall a T, (a < T <= n)%nat ->
     Rabs (FR ((nthV F64 (optF64 Cf penf m delay n) a + Cf a T) + penf)%float
           - (FR (nthV F64 (optF64 Cf penf m delay n) a) + C a T + FR penf)) <= eps) ->
  (forall T, (T <= n)%nat ->
     Rabs (FR (nthV F64 (optF64 Cf penf m delay n) T + penf)%float
           - (FR (nthV F64 (optF64 Cf penf m delay n) T) + FR penf)) <= eps) ->
  (forall e, (m <= e < 2 * m)%nat -> Rabs (FR (Cf 0%nat e) - C 0%nat e) <= eps) ->
  forall c, Adm m c n ->
    pencostR C (FR penf) (snd (gpelt F64 Cf penf m delay n)) n
    <= pencostR C (FR penf) c n + 3 * INR n * eps.
Proof.
  intros Hm Hd Hn Hfin Hs HV HW HI c Hc.
  pose proof (gpelt_F64_is_peltA Cf penf m delay n Hfin Hm Hn) as Hsim.
  pose proof (storedA_F64 Cf penf m delay n Hfin Hm Hn) as Hst.
  pose proof (peltA_near_optimal_run (Vt Cf penf m delay n) (Wt Cf penf m delay n) (I0t Cf)
                C (FR penf) eps m delay n n Hm Hd Hn (le_n n) Hs) as H.
  rewrite Hsim in H. cbn [snd] in H. unfold K_pelt in H. apply H; [| |exact HI|exact Hc].
  - intros a T HaT. rewrite Hst. unfold Vt. now apply HV.
  - intros T HT. rewrite Hst. unfold Wt. now apply HW.
Qed.

(** the reported final score (a float) is within [n eps] of the TRUE penalised cost of the
    reported changepoints *)
Theorem pelt_F64_final_close (Cf : nat -> nat -> float) (penf : float) (C : nat -> nat -> R)
    (eps : R) (m delay n : nat) :
  (1 <= m)%nat -> (2 * m <= n)%nat ->
  pelt_trace_finite Cf penf m delay n = true ->
  (forall a T, (a < T <= n)%nat ->
     Rabs (FR ((nthV F64 (optF64 Cf penf m delay n) a + Cf a T) + penf)%float
           - (FR (nthV F64 (optF64 Cf penf m delay n) a) + C a T + FR penf)) <= eps) ->
  (forall e, (m <= e < 2 * m)%nat -> Rabs (FR (Cf 0%nat e) - C 0%nat e) <= eps) ->
  Rabs (nth (n - 1) (map FR (fst (gpelt F64 Cf penf m delay n))) 0
        - pencostR C (FR penf) (snd (gpelt F64 Cf penf m delay n)) n) <= INR n * eps.
Proof.
  intros Hm Hn Hfin HV HI.
  pose proof (gpelt_F64_is_peltA Cf penf m delay n Hfin Hm Hn) as Hsim.
  pose proof (storedA_F64 Cf penf m delay n Hfin Hm Hn) as Hst.
  pose proof (peltA_final_close_run (Vt Cf penf m delay n) (Wt Cf penf m delay n) (I0t Cf)
                C (FR penf) eps m delay n Hm Hn) as H.
  rewrite Hsim in H. cbn [fst snd] in H. apply H; [|exact HI].
  intros a T HaT. rewrite Hst. unfold Vt. now apply HV.
Qed.

(** the final score as a float: the last entry of the score array *)
Lemma pelt_F64_final_score (Cf : nat -> nat -> float) (penf : float) (m delay n : nat) :
  nth (n - 1) (map FR (fst (gpelt F64 Cf penf m delay n))) 0
  = FR (nthV F64 (fst (gpelt F64 Cf penf m delay n)) (n - 1)).
Proof. exact (nthR_map_FR _ _). Qed.

(** * The error hypotheses from a table error and a magnitude bound *)

Section Bounds.
Variable Cf : nat -> nat -> float.
Variable penf : float.
Variable C : nat -> nat -> R.
Variable delta Mag : R.
Variable m delay n : nat.
Hypothesis m_pos : (1 <= m)%nat.
Hypothesis n_big : (2 * m <= n)%nat.
Hypothesis fin : pelt_trace_finite Cf penf m delay n = true.
Notation oF := (optF64 Cf penf m delay n).
Hypothesis table_ok : forall a T, (a < T <= n)%nat -> Rabs (FR (Cf a T) - C a T) <= delta.
Hypothesis mag_sum : forall a T, (a < T <= n)%nat ->
  Rabs (FR (nthV F64 oF a) + FR (Cf a T)) <= Mag.
Hypothesis mag_cand : forall a T, (a < T <= n)%nat ->
  Rabs (FR (nthV F64 oF a + Cf a T)%float + FR penf) <= Mag.
Hypothesis mag_thr : forall T, (T <= n)%nat ->
  Rabs (FR (nthV F64 oF T) + FR penf) <= Mag.

Let eps : R := delta + 2 * u53 * Mag.

Lemma delta_nonneg : 0 <= delta.
Proof. eapply Rle_trans; [apply Rabs_pos|apply (table_ok 0%nat 1%nat); lia]. Qed.

Lemma Mag_nonneg : 0 <= Mag.
Proof. eapply Rle_trans; [apply Rabs_pos|apply (mag_thr 0%nat); lia]. Qed.

Lemma bounds_V : forall a T, (a < T <= n)%nat ->
  Rabs (FR ((nthV F64 oF a + Cf a T) + penf)%float
        - (FR (nthV F64 oF a) + C a T + FR penf)) <= eps.
Proof.
  intros a T HaT. pose proof (pelt_trace_finite_spec _ _ _ _ _ fin) as F.
  pose proof (add_error2 _ _ _ (C a T) _ _ Mag
                (tf_opt _ _ _ _ _ F a) (tf_cost _ _ _ _ _ F a T HaT) (tf_sum _ _ _ _ _ F a T HaT)
                (Rabs_diag_0 _) (table_ok a T HaT) (mag_sum a T HaT)) as H1.
  pose proof (add_error2 _ _ _ (FR penf) _ _ Mag
                (tf_sum _ _ _ _ _ F a T HaT) (tf_pen _ _ _ _ _ F) (tf_cand _ _ _ _ _ F a T HaT)
                H1 (Rabs_diag_0 _) (mag_cand a T HaT)) as H2.
  unfold eps. lra.
Qed.

Lemma bounds_W : forall T, (T <= n)%nat ->
  Rabs (FR (nthV F64 oF T + penf)%float - (FR (nthV F64 oF T) + FR penf)) <= eps.
Proof.
  intros T HT. pose proof (pelt_trace_finite_spec _ _ _ _ _ fin) as F.
  pose proof (FR_add_error (nthV F64 oF T) penf (tf_opt _ _ _ _ _ F T) (tf_pen _ _ _ _ _ F)
                (tf_thr _ _ _ _ _ F T HT)) as H.
  pose proof (mag_thr T HT) as H1. pose proof u53_nonneg as Hu.
  pose proof delta_nonneg as Hd. pose proof Mag_nonneg as HM.
  assert (u53 * Rabs (FR (nthV F64 oF T) + FR penf) <= u53 * Mag)
    by (apply Rmult_le_compat_l; assumption).
  assert (0 <= u53 * Mag) by (apply Rmult_le_pos; assumption).
  unfold eps. lra.
Qed.

Lemma bounds_I : forall e, (m <= e < 2 * m)%nat -> Rabs (FR (Cf 0%nat e) - C 0%nat e) <= eps.
Proof.
  intros e He. pose proof (table_ok 0%nat e ltac:(lia)) as H.
  pose proof u53_nonneg as Hu. pose proof Mag_nonneg as HM.
  assert (0 <= u53 * Mag) by (apply Rmult_le_pos; assumption).
  unfold eps. lra.
Qed.
End Bounds.

Corollary pelt_F64_near_optimal_bounds (Cf : nat -> nat -> float) (penf : float)
    (C : nat -> nat -> R) (delta Mag : R) (m delay n : nat) :
  (1 <= m)%nat -> (m <= delay + 1)%nat -> (2 * m <= n)%nat ->
  pelt_trace_finite Cf penf m delay n = true ->
  (forall s k e, (s + m <= k)%nat -> (k + m <= e)%nat -> (e <= n)%nat ->
                 C s k + C k e <= C s e) ->
  (forall a T, (a < T <= n)%nat -> Rabs (FR (Cf a T) - C a T) <= delta) ->
  (forall a T, (a < T <= n)%nat ->
     Rabs (FR (nthV F64 (optF64 Cf penf m delay n) a) + FR (Cf a T)) <= Mag) ->
  (forall a T, (a < T <= n)%nat ->
     Rabs (FR (nthV F64 (optF64 Cf penf m delay n) a + Cf a T)%float + FR penf) <= Mag) ->
  (forall T, (T <= n)%nat ->
     Rabs (FR (nthV F64 (optF64 Cf penf m delay n) T) + FR penf) <= Mag) ->
  forall c, Adm m c n ->
    pencostR C (FR penf) (snd (gpelt F64 Cf penf m delay n)) n
    <= pencostR C (FR penf) c n + 3 * INR n * (delta + 2 * u53 * Mag).
Proof.
  intros Hm Hd Hn Hfin Hs Ht H1 H2 H3 c Hc.
  apply (pelt_F64_near_optimal Cf penf C (delta + 2 * u53 * Mag) m delay n); auto.
  - apply (bounds_V Cf penf C delta Mag m delay n); auto.
  - apply (bounds_W Cf penf C delta Mag m delay n); auto.
  - apply (bounds_I Cf penf C delta Mag m delay n); auto.
Qed.

Corollary pelt_F64_final_close_bounds (Cf : nat -> nat -> float) (penf : float)
    (C : nat -> nat -> R) (delta Mag : R) (m delay n : nat) :
  (1 <= m)%nat -> (2 * m <= n)%nat ->
  pelt_trace_finite Cf penf m delay n = true ->
  (forall a T, (a < T <= n)%nat -> Rabs (FR (Cf a T) - C a T) <= delta) ->
  (forall a T, (a < T <= n)%nat ->
     Rabs (FR (nthV F64 (optF64 Cf penf m delay n) a) + FR (Cf a T)) <= Mag) ->
  (forall a T, (a < T <= n)%nat ->
     Rabs (FR (nthV F64 (optF64 Cf penf m delay n) a + Cf a T)%float + FR penf) <= Mag) ->
  (forall T, (T <= n)%nat ->
     Rabs (FR (nthV F64 (optF64 Cf penf m delay n) T) + FR penf) <= Mag) ->
  Rabs (nth (n - 1) (map FR (fst (gpelt F64 Cf penf m delay n))) 0
        - pencostR C (FR penf) (snd (gpelt F64 Cf penf m delay n)) n)
  <= INR n * (delta + 2 * u53 * Mag).
Proof.
  intros Hm Hn Hfin Ht H1 H2 H3.
  apply (pelt_F64_final_close Cf penf C (delta + 2 * u53 * Mag) m delay n); auto.
  - apply (bounds_V Cf penf C delta Mag m delay n); auto.
  - apply (bounds_I Cf penf C delta Mag m delay n); auto.
Qed.

(** * Non-vacuity: a concrete binary64 run *)

(** six observations with a level shift after the third one; the cost table is the squared-error
    kernel in the library's operation order, executed on primitive floats *)
Definition ex_xs : list float := [0.125; 0.375; 0.25; 5.125; 5.375; 5.25]%float.
Definition ex_Cf (a t : nat) : float := Check.FloatKernelCheck.l2_cost_F ex_xs a t.
Definition ex_pen : float := 1.5%float.

Example ex_trace_finite : pelt_trace_finite ex_Cf ex_pen 1 0 6 = true.
Proof. vm_compute. reflexivity. Qed.

(** the run finds the level shift *)
Example ex_changepoints : snd (gpelt F64 ex_Cf ex_pen 1 0 6) = [3%nat].
Proof. vm_compute. reflexivity. Qed.

(** the checker is not trivially true: an infinite penalty, or data whose squares overflow,
    are rejected *)
Example ex_trace_rejected_pen : pelt_trace_finite ex_Cf infinity 1 0 6 = false.
Proof. vm_compute. reflexivity. Qed.
Example ex_trace_rejected_data :
  pelt_trace_finite (Check.FloatKernelCheck.l2_cost_F [0x1p600; 1; 2; 3; 4; 5]%float) ex_pen 1 0 6
  = false.
Proof. vm_compute. reflexivity. Qed.

Example ex_simulation :
  peltA (Vt ex_Cf ex_pen 1 0 6) (Wt ex_Cf ex_pen 1 0 6) (I0t ex_Cf) (FR ex_pen) 1 0 6
  = (map FR (fst (gpelt F64 ex_Cf ex_pen 1 0 6)), [3%nat]).
Proof.
  rewrite <- ex_changepoints.
  apply gpelt_F64_is_peltA; [exact ex_trace_finite|lia|lia].
Qed.

(** the binary64 changepoints of the example are an admissible segmentation (through the
    simulation and [peltA_adm]) *)
Example ex_adm : Adm 1 (snd (gpelt F64 ex_Cf ex_pen 1 0 6)) 6.
Proof.
  pose proof (peltA_adm (Vt ex_Cf ex_pen 1 0 6) (Wt ex_Cf ex_pen 1 0 6) (I0t ex_Cf) (FR ex_pen)
                1 0 6 ltac:(lia) ltac:(lia)) as H.
  rewrite (gpelt_F64_is_peltA ex_Cf ex_pen 1 0 6 ex_trace_finite ltac:(lia) ltac:(lia)) in H.
  exact H.
Qed.

Print Assumptions gpelt_F64_is_peltA.
Print Assumptions pelt_F64_near_optimal.
Print Assumptions pelt_F64_final_close.
Print Assumptions pelt_F64_near_optimal_bounds.
