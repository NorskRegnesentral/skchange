(** [where_runs] (Model/Mw.v, numpy's run detection) lists exactly the maximal runs of [true] of a
    boolean vector, in increasing order; [slice] lookups. *)
From Coq Require Import List Lia Bool Arith Sorted.
From SK Require Import Model.Mw Proofs.ArgmaxLemmas.
Import ListNotations.
Local Open Scope nat_scope.

Section Where.
Variable g : nat -> bool.   (* the indicator as a function *)
Variable N : nat.           (* its length *)

Definition maxrun (a z : nat) : Prop :=
  a < z <= N /\ (forall j, a <= j < z -> g j = true) /\
  (a = 0 \/ g (a - 1) = false) /\ (z = N \/ g z = false).

Definition cur_ok (i : nat) (cur : option nat) : Prop :=
  match cur with
  | None => i = 0 \/ g (i - 1) = false
  | Some s => s < i /\ (forall j, s <= j < i -> g j = true) /\ (s = 0 \/ g (s - 1) = false)
  end.

Lemma run_start_eq : forall i s a, cur_ok i (Some s) -> maxrun a i -> s = a.
Proof.
  intros i s a (Hs & Hall & Hprev) (Hr & Hrun & Hp & Hz).
  destruct (Nat.lt_trichotomy s a) as [L | [E | L]]; [|exact E|]; exfalso.
  - destruct Hp as [Hp | Hp]; [lia|]. rewrite Hall in Hp by lia. discriminate.
  - destruct Hprev as [Hprev | Hprev]; [lia|]. rewrite Hrun in Hprev by lia. discriminate.
Qed.

Lemma run_none_absurd : forall i a, cur_ok i None -> maxrun a i -> False.
Proof.
  intros i a Hcur (Hr & Hrun & Hp & Hz). destruct Hcur as [H0 | Hf]; [lia|].
  rewrite Hrun in Hf by lia. discriminate.
Qed.

Lemma run_open_absurd : forall i a, i < N -> g i = true -> maxrun a i -> False.
Proof.
  intros i a Hi Hg (Hr & Hrun & Hp & Hz). destruct Hz as [Hz | Hz]; [lia|]. congruence.
Qed.

(** no run ends at [i]: a run ending at [z >= i] ends after [i] *)
Lemma maxrun_skip : forall i a z, (forall a', ~ maxrun a' i) ->
  (maxrun a z /\ S i <= z <-> maxrun a z /\ i <= z).
Proof.
  intros i a z H. split; intros [Hm Hz]; (split; [exact Hm|]); [lia|].
  destruct (Nat.eq_dec z i) as [-> | Hne]; [destruct (H a Hm) | lia].
Qed.

Lemma cur_ok_closed : forall i s, cur_ok i (Some s) -> i <= N -> (i = N \/ g i = false) -> maxrun s i.
Proof. intros i s (Hs & Hall & Hprev) Hi Hz. repeat split; assumption. Qed.

Lemma where_from_spec : forall l i cur,
  i + length l = N -> (forall j, j < length l -> nth j l false = g (i + j)) ->
  cur_ok i cur ->
  forall a z, In (a, z) (where_from i cur l) <-> (maxrun a z /\ i <= z).
Proof.
  induction l as [|v t IH]; intros i cur HN Hg Hcur a z.
  - cbn [length] in HN.
    assert (Hz : maxrun a z /\ i <= z -> z = i) by (intros [((_ & Hz) & _) Hiz]; lia).
    destruct cur as [s|]; cbn [where_from In].
    + split.
      * intros [E | []]. inversion E; subst a z. split; [apply cur_ok_closed; [exact Hcur | lia | left; lia] | lia].
      * intros H. pose proof (Hz H) as ->. left. f_equal. eapply run_start_eq; [exact Hcur | exact (proj1 H)].
    + split; [intros []|]. intros H. pose proof (Hz H) as ->. eapply run_none_absurd; [exact Hcur | exact (proj1 H)].
  - cbn [length] in HN.
    assert (Hv : v = g i) by (rewrite <- (Nat.add_0_r i); exact (Hg 0 ltac:(cbn [length]; lia))).
    assert (Hg' : forall j, j < length t -> nth j t false = g (S i + j)).
    { intros j Hj. replace (S i + j) with (i + S j) by lia. exact (Hg (S j) ltac:(cbn [length]; lia)). }
    assert (HN' : S i + length t = N) by lia.
    assert (HiN : i < N) by lia.
    cbn [where_from]. destruct v; destruct cur as [s|].
    + (* true, the open run continues *)
      rewrite (IH (S i) (Some s) HN' Hg').
      * apply maxrun_skip. intros a' Hm. exact (run_open_absurd i a' HiN (eq_sym Hv) Hm).
      * destruct Hcur as (Hs & Hall & Hprev). split; [lia|]. split; [|exact Hprev].
        intros j Hj. destruct (Nat.eq_dec j i) as [-> | Hne]; [congruence | apply Hall; lia].
    + (* true, a run opens at i *)
      rewrite (IH (S i) (Some i) HN' Hg').
      * apply maxrun_skip. intros a' Hm. exact (run_open_absurd i a' HiN (eq_sym Hv) Hm).
      * split; [lia|]. split; [|exact Hcur]. intros j Hj. replace j with i by lia. congruence.
    + (* false, the open run closes at i *)
      cbn [In]. rewrite (IH (S i) None HN' Hg') by (right; replace (S i - 1) with i by lia; congruence).
      split.
      * intros [E | [Hm Hz]]; [|split; [exact Hm | lia]]. inversion E; subst a z.
        split; [apply cur_ok_closed; [exact Hcur | lia | right; congruence] | lia].
      * intros [Hm Hz]. destruct (Nat.eq_dec z i) as [-> | Hne]; [|right; split; [exact Hm | lia]].
        left. f_equal. eapply run_start_eq; eassumption.
    + (* false, no open run *)
      rewrite (IH (S i) None HN' Hg') by (right; replace (S i - 1) with i by lia; congruence).
      apply maxrun_skip. intros a' Hm. exact (run_none_absurd i a' Hcur Hm).
Qed.
End Where.

(** [where_runs l] lists exactly the maximal runs of [true] in [l] *)
Theorem where_runs_spec : forall l a z,
  In (a, z) (where_runs l) <->
  (a < z <= length l) /\
  (forall i, (a <= i < z) -> nth i l false = true) /\
  (a = 0 \/ nth (a - 1) l false = false) /\
  (z = length l \/ nth z l false = false).
Proof.
  intros l a z. unfold where_runs.
  pose proof (where_from_spec (fun j => nth j l false) (length l) l 0 None eq_refl
                (fun j _ => eq_refl) (or_introl eq_refl) a z) as H.
  unfold maxrun in H. rewrite H. split; [intros [X _]; exact X | intros X; split; [exact X | lia]].
Qed.

(** the runs come in increasing order, separated by at least one [false] *)
Definition run_lt (p q : nat * nat) : Prop := (snd p < fst q).

Lemma where_from_sorted : forall l i cur,
  match cur with Some s => (s < i) | None => True end ->
  StronglySorted run_lt (where_from i cur l) /\
  forall a z, In (a, z) (where_from i cur l) ->
    (a < z /\ i <= z /\ match cur with Some s => s | None => i end <= a).
Proof.
  induction l as [|v t IH]; intros i cur Hc.
  - destruct cur as [s|]; simpl in *.
    + split; [constructor; constructor|]. intros a z [E | []]. inversion E; subst. lia.
    + split; [constructor|]. intros a z [].
  - simpl where_from. destruct v; destruct cur as [s|]; simpl in Hc.
    + destruct (IH (S i) (Some s) ltac:(simpl; lia)) as [S1 S2]. split; [exact S1|].
      intros a z Hin. specialize (S2 a z Hin). lia.
    + destruct (IH (S i) (Some i) ltac:(simpl; lia)) as [S1 S2]. split; [exact S1|].
      intros a z Hin. specialize (S2 a z Hin). lia.
    + destruct (IH (S i) None I) as [S1 S2]. split.
      * constructor; [exact S1|]. rewrite Forall_forall. intros [a z] Hin.
        specialize (S2 a z Hin). unfold run_lt. simpl. lia.
      * intros a z [E | Hin]; [inversion E; subst; lia|]. specialize (S2 a z Hin). lia.
    + destruct (IH (S i) None I) as [S1 S2]. split; [exact S1|].
      intros a z Hin. specialize (S2 a z Hin). lia.
Qed.

Theorem where_runs_sorted : forall l, StronglySorted run_lt (where_runs l).
Proof. intros l. exact (proj1 (where_from_sorted l 0 None I)). Qed.

Lemma slice_length : forall {A} s e (l : list A), (e <= length l) ->
  length (slice s e l) = (e - s).
Proof. intros A s e l H. unfold slice. rewrite firstn_length, skipn_length. lia. Qed.

Lemma nth_slice : forall {A} s e (l : list A) j d, (j < e - s) ->
  nth j (slice s e l) d = nth (s + j) l d.
Proof.
  intros A s e l j d H. unfold slice. rewrite nth_firstn_lt by exact H. apply nth_skipn_add.
Qed.

Lemma slice_map_seq : forall {A} (d : A) s e l, e <= length l ->
  slice s e l = map (fun k => nth k l d) (seq s (e - s)).
Proof.
  intros A d s e l H. apply (nth_ext _ _ d d).
  - rewrite slice_length, map_length, seq_length by exact H. reflexivity.
  - intros j Hj. rewrite slice_length in Hj by exact H. rewrite nth_slice, nth_map_seq by exact Hj. reflexivity.
Qed.

(** the positions at which the moving window has a full window on both sides *)
Lemma mw_guard_iff : forall b t n, (b <=? t) && (t + b <=? n) = true <-> b <= t /\ t + b <= n.
Proof. intros b t n. rewrite andb_true_iff, !Nat.leb_le. reflexivity. Qed.
