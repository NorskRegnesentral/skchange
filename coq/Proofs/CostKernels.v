(** Cost kernels: the generated element-wise meanings of the vectorised NumPy kernels
    (Gen/KernelsR.v), applied to the prefix sums of a column, agree with the
    definition-level statistics of Proofs/RealLib.v.

    Gen/KernelsR.v is regenerated on every run.  The univariate proofs do not look inside a
    generated definition: each goes through the kernel's normal form over arbitrary prefix-sum
    functions (Proofs/ScoreKernels.v, [*_form]) and [prefix_diff], which turns the differences of
    prefix sums into sums over the slice.  Only the two multivariate assembly kernels
    [gaussian_ll_at_*_for_segment_R] are unfolded here ([gcov_mle_cost], [gcov_fixed_cost]). *)
From Coq Require Import Reals List Psatz.
From Coq Require Import Permutation.   (* only for the statement of [evaluate_rows_perm] *)
From SK Require Import Gen.KernelsR Proofs.RealLib Proofs.ScoreKernels.
Import ListNotations.
Open Scope R_scope.

(** * Generic facts about sse, rss, varR, nll2 *)

Lemma varR_nonneg l : (0 < length l)%nat -> 0 <= varR l.
Proof.
  intros Hl. apply Rle_mult_inv_pos; [apply rss_nonneg|]. apply lt_0_INR. exact Hl.
Qed.

(** the bias/variance identity behind "the mean minimises the squared error" *)
Lemma sse_decomp mu l :
  (0 < length l)%nat ->
  sse mu l = rss l + INR (length l) * (meanR l - mu) ^ 2.
Proof.
  intros Hl. unfold rss. rewrite !sse_expand. unfold meanR. field. nz.
Qed.

Lemma sse_min_at_mean mu l : (0 < length l)%nat -> rss l <= sse mu l.
Proof.
  intros Hl. apply (le_of_sq_gap _ _ (INR (length l)) (meanR l - mu) (pos_INR _)).
  rewrite (sse_decomp mu l Hl). ring.
Qed.

(** holds for every v, also [v = 0]: in Coq x / 0 is a total function and distributes over + *)
Lemma nll2_expand mu v l :
  nll2 mu v l = INR (length l) * ln (2 * PI * v) + sse mu l / v.
Proof.
  unfold nll2, sse. induction l as [|a k IH].
  - cbn [map sumR length]. change (INR 0) with 0. unfold Rdiv. ring.
  - cbn [map sumR]. change (length (a :: k)) with (S (length k)).
    rewrite S_INR, IH. unfold Rdiv. ring.
Qed.

(** with the side condition one would write on paper *)
Lemma nll2_expand_nz mu v l :
  v <> 0 -> nll2 mu v l = INR (length l) * ln (2 * PI * v) + sse mu l / v.
Proof. intros _. apply nll2_expand. Qed.

(** sum of (x - mean)^2 / var = n *)
Lemma rss_over_var l :
  (0 < length l)%nat -> 0 < varR l -> rss l / varR l = INR (length l).
Proof.
  intros Hl Hv.
  replace (rss l) with (varR l * INR (length l)) at 1 by (unfold varR; field; nz).
  field. lra.
Qed.

(** * Univariate kernels *)

Section Univariate.
  Variable xs : list R.
  Notation P1 := (prefix xs).
  Notation P2 := (prefix (sq xs)).

  Section NonEmpty.
    Variables s e : nat.
    Hypothesis Hse : (s < e <= length xs)%nat.
    Notation l := (slice s e xs).

    Theorem l2_optim_is_rss : l2_cost_optim_R P1 P2 s e = rss l.
    Proof. apply ScoreKernels.l2_optim_is_rss; lia. Qed.

    Theorem var_from_sums_is_var :
      var_from_sums_R P1 P2 s e = Rmax (varR l) floor_var.
    Proof. rewrite var_from_sums_form, V_is_varR by lia. reflexivity. Qed.

    Theorem gvar_optim_value :
      gaussian_var_cost_optim_R P1 P2 s e
      = INR (e - s) * ln (2 * PI * Rmax (varR l) floor_var) + INR (e - s).
    Proof. rewrite gvar_optim_form, V_is_varR by lia. reflexivity. Qed.

    (** twice the negative log-likelihood at the maximum-likelihood estimate *)
    Theorem gvar_optim_is_nll_at_mle :
      floor_var <= varR l ->
      gaussian_var_cost_optim_R P1 P2 s e = nll2 (meanR l) (varR l) l.
    Proof.
      intros Hfv. pose proof floor_var_pos as Hfp.
      assert (Hlen : length l = (e - s)%nat) by (apply slice_length; lia).
      rewrite gvar_optim_value, (Rmax_left _ _ Hfv), nll2_expand.
      change (sse (meanR l) l) with (rss l).
      rewrite rss_over_var by (rewrite ?Hlen; lia || lra).
      rewrite Hlen. reflexivity.
    Qed.
  End NonEmpty.

  Section PossiblyEmpty.
    Variables s e : nat.
    Hypothesis Hse : (s <= e <= length xs)%nat.
    Notation l := (slice s e xs).

    Theorem l2_fixed_is_sse mu : l2_cost_fixed_R P1 P2 mu s e = sse mu l.
    Proof.
      rewrite l2_fixed_form, prefix_sq_diff, prefix_diff, sse_expand, slice_length by lia.
      reflexivity.
    Qed.

    Theorem gvar_fixed_is_nll mu v :
      0 < v -> gaussian_var_cost_fixed_R P1 P2 mu v s e = nll2 mu v l.
    Proof.
      intros Hv. rewrite gvar_fixed_form.
      rewrite <- l2_fixed_form, l2_fixed_is_sse, nll2_expand, slice_length by lia.
      reflexivity.
    Qed.
  End PossiblyEmpty.
End Univariate.

(** * Multivariate assembly; the linear algebra is an oracle *)

Theorem gcov_mle_cost p logdet s e :
  (s <= e)%nat ->
  - gaussian_ll_at_mle_for_segment_R p logdet s e
  = INR (e - s) * INR p * ln (2 * PI) + INR (e - s) * logdet + INR p * INR (e - s).
Proof.
  intros Hse. unfold gaussian_ll_at_mle_for_segment_R.
  rewrite ?mult_INR. ring.
Qed.

Theorem gcov_fixed_cost p logdet quadsum s e :
  - gaussian_ll_at_fixed_for_segment_R p logdet quadsum s e
  = INR (e - s) * INR p * ln (2 * PI) + INR (e - s) * logdet + quadsum.
Proof.
  unfold gaussian_ll_at_fixed_for_segment_R.
  rewrite ?mult_INR. ring.
Qed.

Theorem gcov_mle_p1_is_gvar xs s e logdet :
  (s < e <= length xs)%nat ->
  logdet = ln (varR (slice s e xs)) ->
  floor_var <= varR (slice s e xs) ->
  - gaussian_ll_at_mle_for_segment_R 1 logdet s e
  = gaussian_var_cost_optim_R (prefix xs) (prefix (sq xs)) s e.
Proof.
  intros Hse Hld Hfv.
  pose proof floor_var_pos as Hfp. pose proof two_PI_pos as H2pi.
  rewrite gcov_mle_cost by lia.
  rewrite (gvar_optim_value xs s e Hse), (Rmax_left _ _ Hfv).
  rewrite (ln_mult (2 * PI) (varR (slice s e xs))) by lra.
  rewrite Hld. change (INR 1) with 1. ring.
Qed.

Theorem gcov_fixed_p1_is_gvar xs s e mu v logdet quadsum :
  (s <= e <= length xs)%nat ->
  0 < v ->
  logdet = ln v ->
  quadsum = sse mu (slice s e xs) / v ->
  - gaussian_ll_at_fixed_for_segment_R 1 logdet quadsum s e
  = gaussian_var_cost_fixed_R (prefix xs) (prefix (sq xs)) mu v s e.
Proof.
  intros Hse Hv Hld Hq. pose proof two_PI_pos as H2pi.
  rewrite gcov_fixed_cost.
  rewrite (gvar_fixed_is_nll xs s e Hse mu v Hv), nll2_expand.
  rewrite (slice_length s e xs Hse).
  rewrite (ln_mult (2 * PI) v) by lra.
  rewrite Hld, Hq. change (INR 1) with 1. ring.
Qed.

(** * Batch independence of the [evaluate] wrapper *)

Definition evaluate_rows {A} (k : nat -> nat -> A) (cuts : list (nat * nat)) : list A :=
  map (fun c => k (fst c) (snd c)) cuts.

Lemma evaluate_rows_length {A} (k : nat -> nat -> A) cuts :
  length (evaluate_rows k cuts) = length cuts.
Proof. unfold evaluate_rows. apply map_length. Qed.

Lemma evaluate_rows_nth {A} (k : nat -> nat -> A) cuts i d :
  (i < length cuts)%nat ->
  nth i (evaluate_rows k cuts) d
  = k (fst (nth i cuts (0, 0)%nat)) (snd (nth i cuts (0, 0)%nat)).
Proof.
  intros Hi. unfold evaluate_rows.
  rewrite (nth_indep _ d ((fun c => k (fst c) (snd c)) (0, 0)%nat))
    by (rewrite map_length; exact Hi).
  rewrite (map_nth (fun c => k (fst c) (snd c))). reflexivity.
Qed.

Lemma evaluate_rows_app {A} (k : nat -> nat -> A) cuts1 cuts2 :
  evaluate_rows k (cuts1 ++ cuts2) = evaluate_rows k cuts1 ++ evaluate_rows k cuts2.
Proof. unfold evaluate_rows. apply map_app. Qed.

Lemma evaluate_rows_perm {A} (k : nat -> nat -> A) cuts cuts' :
  Permutation cuts cuts' -> Permutation (evaluate_rows k cuts) (evaluate_rows k cuts').
Proof. intros HP. unfold evaluate_rows. apply Permutation_map. exact HP. Qed.

(** the value computed for a cut does not depend on which other cuts are in the batch *)
Lemma evaluate_rows_In {A} (k : nat -> nat -> A) cuts y :
  In y (evaluate_rows k cuts) <-> exists c, In c cuts /\ y = k (fst c) (snd c).
Proof.
  unfold evaluate_rows. rewrite in_map_iff. split.
  - intros [c [Hc Hin]]. exists c. split; [exact Hin | now symmetry].
  - intros [c [Hin Hc]]. exists c. split; [now symmetry | exact Hin].
Qed.

(** Axiom audit.  The L2 and variance theorems and sse_min_at_mean list only the axioms of the
    stdlib reals.  Every theorem whose STATEMENT mentions [ln] (the Gaussian ones) additionally lists
    [Classical_Prop.classic] and [ClassicalDedekindReals.sig_not_dec]: in Coq 8.16 the
    stdlib constant [ln] itself depends on them ([Print Assumptions ln] shows exactly
    this list), so this is inherited from the vocabulary of Gen/KernelsR.v and
    Proofs/RealLib.v ([nll2]), not introduced by the proofs in this file. *)
Print Assumptions l2_optim_is_rss.
Print Assumptions l2_fixed_is_sse.
Print Assumptions var_from_sums_is_var.
Print Assumptions gvar_optim_value.
Print Assumptions gvar_optim_is_nll_at_mle.
Print Assumptions gvar_fixed_is_nll.
Print Assumptions gcov_mle_p1_is_gvar.
Print Assumptions sse_min_at_mean.
