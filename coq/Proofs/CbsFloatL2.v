(** End-to-end binary64 theorems: circular binary segmentation, run FROM THE DATA with the squared-error local anomaly
    score on one column.

    The harness runs   gcbs_any F64 (local_l2_F xs) m thr ivs   on the float data [xs] ([fcbs2_case_ok],
    Check/FloatRunCheck.v) and it reproduces CircularBinarySegmentation bit for bit.  [local_l2_F] is the binary64 twin
    of skchange's LocalAnomalyScore(L2Cost()) on one column:

        outer - (inner + surrounding),   surrounding = cost of the CONCATENATED rows  xs[s:a] ++ xs[b:e]  fitted afresh.

    Three layers are composed, as in Proofs/MwSbsFloatCusum.v:

      kernel   [local_l2_F_vs_R]: under the boolean premise [local_l2_trace_ok] (and [small_n]) the computed score is within
               [local_E] of the TRUE local anomaly score [local_R] of the real data  map FR xs;
      order    [F_ltb_lt] (Proofs/FloatRun.v): the comparison of finite floats is the comparison of their real values;
      search   the specification theorems of the greedy search for non-NaN floats and ANY threshold
               ([gcbs_any_supported_and_complete], Proofs/AnyThreshold.v; [gbest_inner_first_max], Proofs/GenericOrder.v).

    The threshold only has to be a finite float. *)
From Coq Require Import Reals List Bool Floats Psatz.
From Flocq Require Import Core Relative.
From SK Require Import Proofs.RealLib Proofs.FloatError Check.FloatKernelCheck Proofs.FloatRefine
                       Proofs.FloatRun Proofs.PeltFloatL2.
(* the list vocabulary of the detectors ([slice] on any list) is imported last: it shadows the real-number one *)
From SK Require Import Model.Cbs Model.Generic Model.GenericF Model.GenericAny.
From SK Require Import Proofs.ArgmaxLemmas Proofs.CbsProofs Proofs.GenericOrder
                       Proofs.GenericInstances Proofs.AnyThreshold Proofs.AnyThresholdF
                       Proofs.MwSbsFloatCusum Check.FloatRunCheck.
Import ListNotations.

Local Open Scope R_scope.

Notation rslice := RealLib.slice (only parsing).

(** * 0. One rounding, relative to the ROUNDED result *)

(** round to nearest:  |rnd x - x| <= 2^-53 |rnd x|  *)
Lemma rnd53_rel_round x : Rabs (rnd53 x - x) <= u53 * Rabs (rnd53 x).
Proof.
  pose proof (relative_error_N_FLX_round radix2 53 ltac:(lia) (fun n => negb (Z.even n)) x) as H.
  unfold rnd53, u53.
  replace (/ 2 * bpow radix2 (- (53) + 1)) with (bpow radix2 (-53)) in H.
  - exact H.
  - change (- (53) + 1)%Z with (-53 + 1)%Z. rewrite bpow_plus.
    change (bpow radix2 1) with 2. field.
Qed.

Lemma FR_add_error_round (x y : float) :
  finF x = true -> finF y = true -> finF (x + y)%float = true ->
  Rabs (FR (x + y)%float - (FR x + FR y)) <= u53 * Rabs (FR (x + y)%float).
Proof. intros Hx Hy Hs. rewrite (FR_add53 x y Hx Hy Hs). apply rnd53_rel_round. Qed.

Lemma FR_sub_error_round (x y : float) :
  finF x = true -> finF y = true -> finF (x - y)%float = true ->
  Rabs (FR (x - y)%float - (FR x - FR y)) <= u53 * Rabs (FR (x - y)%float).
Proof. intros Hx Hy Hs. rewrite (FR_sub53 x y Hx Hy Hs). apply rnd53_rel_round. Qed.

(** * 1. The true local anomaly score, the premise, the error bound *)

(** the TRUE score of the inner interval (a, b) inside (s, e): the residual sum of squares of the whole interval minus those of
    the inner interval and of the surrounding rows taken together *)
Definition local_R (xs : list R) (s a b e : nat) : R :=
  rss (rslice s e xs) - (rss (rslice a b xs) + rss (rslice s a xs ++ rslice b e xs)).

Definition sur_data (l : list float) (s a b e : nat) : list float := fslice s a l ++ fslice b e l.

Lemma local_l2_F_unfold l s a b e :
  local_l2_F l s a b e
  = (l2_cost_F l s e - (l2_cost_F l a b + l2_cost_F (sur_data l s a b e) 0 (length (sur_data l s a b e))))%float.
Proof. reflexivity. Qed.

(** the premise, a boolean computed from the data: the three cost evaluations pass the kernel checker [l2_trace_ok]
    (the surrounding one on the concatenated list), and the sum and the final difference are finite *)
Definition local_l2_trace_ok (l : list float) (s a b e : nat) : bool :=
  let sd := sur_data l s a b e in
  let outer := l2_cost_F l s e in
  let inner := l2_cost_F l a b in
  let sur := l2_cost_F sd 0 (length sd) in
  l2_trace_ok l s e && l2_trace_ok l a b && l2_trace_ok sd 0 (length sd)
  && finF (inner + sur)%float && finF (outer - (inner + sur))%float.

(** the bound of one cost evaluation ([l2_cost_F_vs_rss]) *)
Definition l2_E (l : list float) (s e : nat) : R :=
  (42 / 10 * INR e + 6) * u53 * l2_scale (map FR l) s e.

(** the rounded sum  inner + surrounding  of the computation *)
Definition local_sum_F (l : list float) (s a b e : nat) : float :=
  (l2_cost_F l a b + l2_cost_F (sur_data l s a b e) 0 (length (sur_data l s a b e)))%float.

(** the three cost errors, and the two roundings (of the sum and of the difference) relative to the ROUNDED results *)
Definition local_E (l : list float) (s a b e : nat) : R :=
  l2_E l s e + l2_E l a b + l2_E (sur_data l s a b e) 0 (length (sur_data l s a b e))
  + u53 * Rabs (FR (local_sum_F l s a b e))
  + u53 * Rabs (FR (local_l2_F l s a b e)).

Lemma l2_E_nonneg l s e : (s < e)%nat -> 0 <= l2_E l s e.
Proof.
  intros H. unfold l2_E. pose proof (l2_scale_nonneg (map FR l) s e H). pose proof (pos_INR e). pose proof u53_nonneg.
  apply Rmult_le_pos; [apply Rmult_le_pos; lra | assumption].
Qed.

Lemma fslice_map_FR s e l : map FR (fslice s e l) = rslice s e (map FR l).
Proof. unfold fslice, RealLib.slice. now rewrite <- firstn_map, <- skipn_map. Qed.

(** the surrounding data of the float run are the surrounding rows of the real data *)
Lemma sur_data_map_FR l s a b e :
  map FR (sur_data l s a b e) = rslice s a (map FR l) ++ rslice b e (map FR l).
Proof. unfold sur_data. rewrite map_app, !fslice_map_FR. reflexivity. Qed.

Lemma rslice_all (l : list R) : rslice 0 (length l) l = l.
Proof. unfold RealLib.slice. rewrite Nat.sub_0_r. cbn [skipn]. apply firstn_all. Qed.

Lemma sur_data_length l s a b e : (length (sur_data l s a b e) <= (a - s) + (e - b))%nat.
Proof.
  unfold sur_data, fslice. rewrite app_length, !firstn_length. lia.
Qed.

Record local_trace_spec (l : list float) (s a b e : nat) : Prop := {
  lt_outer : l2_trace_ok l s e = true;
  lt_inner : l2_trace_ok l a b = true;
  lt_sur : l2_trace_ok (sur_data l s a b e) 0 (length (sur_data l s a b e)) = true;
  lt_sum : finF (l2_cost_F l a b + l2_cost_F (sur_data l s a b e) 0 (length (sur_data l s a b e)))%float = true;
  lt_res : finF (local_l2_F l s a b e) = true
}.

Lemma local_l2_trace_ok_spec l s a b e : local_l2_trace_ok l s a b e = true -> local_trace_spec l s a b e.
Proof.
  unfold local_l2_trace_ok. cbv zeta. intros H.
  do 4 (apply andb_true_iff in H; let H' := fresh "H" in destruct H as [H H']).
  constructor; assumption.
Qed.

(** a checked cost is a finite float *)
Lemma l2_cost_F_finite l s e : l2_trace_ok l s e = true -> finF (l2_cost_F l s e) = true.
Proof.
  intros Hok. apply l2_trace_ok_spec in Hok. destruct Hok. cbv zeta in ts_r.
  unfold l2_cost_F. cbv zeta. exact ts_r.
Qed.

Lemma local_l2_F_finite l s a b e : local_l2_trace_ok l s a b e = true -> finF (local_l2_F l s a b e) = true.
Proof. intros H. apply local_l2_trace_ok_spec in H. destruct H. assumption. Qed.

Lemma local_E_nonneg l s a b e : local_l2_trace_ok l s a b e = true -> 0 <= local_E l s a b e.
Proof.
  intros H. apply local_l2_trace_ok_spec in H. destruct H as [Ho Hi Hs _ _].
  pose proof (l2_E_nonneg l s e (proj1 (l2_trace_ok_bounds _ _ _ Ho))).
  pose proof (l2_E_nonneg l a b (proj1 (l2_trace_ok_bounds _ _ _ Hi))).
  pose proof (l2_E_nonneg (sur_data l s a b e) 0 _ (proj1 (l2_trace_ok_bounds _ _ _ Hs))).
  unfold local_E. pose proof u53_nonneg.
  pose proof (Rabs_pos (FR (local_sum_F l s a b e))).
  pose proof (Rabs_pos (FR (local_l2_F l s a b e))).
  assert (0 <= u53 * Rabs (FR (local_sum_F l s a b e)))
    by (apply Rmult_le_pos; assumption).
  assert (0 <= u53 * Rabs (FR (local_l2_F l s a b e))) by (apply Rmult_le_pos; assumption).
  lra.
Qed.

(** KERNEL ERROR: the computed local anomaly score against the TRUE one *)
Theorem local_l2_F_vs_R l s a b e :
  local_l2_trace_ok l s a b e = true -> small_n (length l) = true ->
  Rabs (FR (local_l2_F l s a b e) - local_R (map FR l) s a b e) <= local_E l s a b e.
Proof.
  intros Hok Hsm. apply local_l2_trace_ok_spec in Hok. destruct Hok as [Ho Hi Hs Hsum Hres].
  pose proof (l2_trace_ok_bounds _ _ _ Ho) as Bo.
  pose proof (l2_trace_ok_bounds _ _ _ Hi) as Bi.
  pose proof (sur_data_length l s a b e) as Bs.
  set (sd := sur_data l s a b e) in *.
  assert (Hn : (length sd <= length l)%nat) by lia.
  pose proof (l2_cost_F_vs_rss l s e Ho (small_n_ok _ _ Hsm (proj2 Bo))) as Eo.
  pose proof (l2_cost_F_vs_rss l a b Hi (small_n_ok _ _ Hsm (proj2 Bi))) as Ei.
  pose proof (l2_cost_F_vs_rss sd 0 (length sd) Hs (small_n_ok _ _ Hsm Hn)) as Es.
  rewrite <- (map_length FR sd) in Es at 2. rewrite rslice_all in Es.
  unfold sd in Es at 3. rewrite sur_data_map_FR in Es.
  pose proof (l2_cost_F_finite _ _ _ Ho) as Fo.
  pose proof (l2_cost_F_finite _ _ _ Hi) as Fi.
  pose proof (l2_cost_F_finite _ _ _ Hs) as Fs.
  rewrite local_l2_F_unfold in Hres. fold sd in Hres.
  pose proof (FR_add_error_round _ _ Fi Fs Hsum) as R1.
  pose proof (FR_sub_error_round _ _ Fo Hsum Hres) as R2.
  unfold local_E, local_R, local_sum_F. fold sd. rewrite local_l2_F_unfold. fold sd.
  fold (l2_E l s e) in Eo. fold (l2_E l a b) in Ei. fold (l2_E sd 0 (length sd)) in Es.
  set (O := l2_cost_F l s e) in *. set (I := l2_cost_F l a b) in *. set (S := l2_cost_F sd 0 (length sd)) in *.
  set (ro := rss (rslice s e (map FR l))) in *. set (ri := rss (rslice a b (map FR l))) in *.
  set (rs := rss (rslice s a (map FR l) ++ rslice b e (map FR l))) in *.
  replace (FR (O - (I + S))%float - (ro - (ri + rs)))
    with ((FR (O - (I + S))%float - (FR O - FR (I + S)%float)) + (FR O - ro)
          - (FR (I + S)%float - (FR I + FR S)) - (FR I - ri) - (FR S - rs)) by ring.
  apply Rabs_le_both in Eo. apply Rabs_le_both in Ei. apply Rabs_le_both in Es.
  apply Rabs_le_both in R1. apply Rabs_le_both in R2.
  apply Rabs_le_of. lra.
Qed.

(** * 2. Circular binary segmentation: the premise of the run *)

(** the premise: the series is shorter than 2^46, 1 <= m, every seeded interval (s, e) has  e <= n,  and the score computation
    passes the checker [local_l2_trace_ok] at every inner candidate (a, b) of [anomaly_intervals s e m] (the model's enumeration,
    Model/Cbs.v:  s < a,  a + m <= b < e,  m <= (e - b) + (a - s)) *)
Definition cbs_local_trace_ok (xs : list float) (m : nat) (ivs : list (nat * nat)) : bool :=
  small_n (length xs) && (1 <=? m)%nat &&
  forallb (fun se =>
             (snd se <=? length xs)%nat &&
             forallb (fun ab => local_l2_trace_ok xs (fst se) (fst ab) (snd ab) (snd se))
                     (anomaly_intervals (fst se) (snd se) m))
          ivs.

Lemma cbs_premise_shape xs m ivs : cbs_local_trace_ok xs m ivs = true ->
  small_n (length xs) = true /\ (1 <= m)%nat /\ forall s e, In (s, e) ivs -> (e <= length xs)%nat.
Proof.
  intros H. unfold cbs_local_trace_ok in H. apply andb_true_iff in H. destruct H as [H Hf].
  apply andb_true_iff in H. destruct H as [Hs Hm]. apply Nat.leb_le in Hm. split; [exact Hs|]. split; [exact Hm|].
  intros s e Hin. rewrite forallb_forall in Hf. specialize (Hf (s, e) Hin). cbn [fst snd] in Hf.
  apply andb_true_iff in Hf. destruct Hf as [Hf _]. apply Nat.leb_le in Hf. exact Hf.
Qed.

Lemma cbs_trace_at xs m ivs s e a b : cbs_local_trace_ok xs m ivs = true -> In (s, e) ivs ->
  In (a, b) (anomaly_intervals s e m) -> local_l2_trace_ok xs s a b e = true.
Proof.
  intros H Hin Hab. unfold cbs_local_trace_ok in H. apply andb_true_iff in H. destruct H as [_ Hf].
  rewrite forallb_forall in Hf. specialize (Hf (s, e) Hin). cbn [fst snd] in Hf.
  apply andb_true_iff in Hf. destruct Hf as [_ Hf]. rewrite forallb_forall in Hf.
  exact (Hf (a, b) Hab).
Qed.

Lemma cbs_score_facts xs m ivs s e a b : cbs_local_trace_ok xs m ivs = true -> In (s, e) ivs ->
  In (a, b) (anomaly_intervals s e m) ->
  finF (local_l2_F xs s a b e) = true /\
  Rabs (FR (local_l2_F xs s a b e) - local_R (map FR xs) s a b e) <= local_E xs s a b e.
Proof.
  intros H Hin Hab. pose proof (cbs_trace_at xs m ivs s e a b H Hin Hab) as Htr.
  destruct (cbs_premise_shape xs m ivs H) as (Hs & _ & _).
  split; [exact (local_l2_F_finite _ _ _ _ _ Htr) | exact (local_l2_F_vs_R _ _ _ _ _ Htr Hs)].
Qed.

Lemma cbs_local_table_ok xs m ivs : cbs_local_trace_ok xs m ivs = true ->
  cbs_table_ok F64 nonnan (local_l2_F xs) m ivs.
Proof.
  intros H s e a b Hin Hab. apply finF_nonnan. exact (proj1 (cbs_score_facts xs m ivs s e a b H Hin Hab)).
Qed.

Lemma gcbs_any_am_nth (LS : nat -> nat -> nat -> nat -> float) m (thr : float) ivs (anoms : list (nat * nat))
    (am : list ((nat * nat) * float)) i s e :
  gcbs_any F64 LS m thr ivs = Some (anoms, am) -> (i < length ivs)%nat -> nth i ivs (0, 0)%nat = (s, e) ->
  length am = length ivs /\ nth i am ((0, 0)%nat, 0%float) = ginner_or_zero F64 LS m (s, e).
Proof.
  intros Hrun Hi Hse. destruct (gcbs_any_inv F64 _ _ _ _ _ _ Hrun) as (-> & _).
  split; [apply map_length|].
  rewrite (nth_map_lt (ginner_or_zero F64 LS m) ivs i (0, 0)%nat) by exact Hi. rewrite Hse. reflexivity.
Qed.

(** * 3. The theorems of the run *)

(** 3a.  the per-interval maxima.  A seeded interval without inner candidates keeps the placeholder ((0, 0), 0).  Otherwise the
    reported inner interval is the first float maximiser over the inner candidates, and the reported maximum is within the rounding
    errors of the maximum of the TRUE local anomaly score over the inner candidates:
        R (a', b') - E (a', b')  <=  FR v  <=  R (a, b) + E (a, b)      for every inner candidate (a', b'). *)
Theorem cbs_F64_local_interval_max xs m (thr : float) ivs (anoms : list (nat * nat)) (am : list ((nat * nat) * float)) :
  cbs_local_trace_ok xs m ivs = true ->
  gcbs_any F64 (local_l2_F xs) m thr ivs = Some (anoms, am) ->
  length am = length ivs /\
  forall i s e, (i < length ivs)%nat -> nth i ivs (0, 0)%nat = (s, e) ->
    (anomaly_intervals s e m = [] /\ nth i am ((0, 0)%nat, 0%float) = ((0, 0)%nat, 0%float)) \/
    exists a b,
      nth i am ((0, 0)%nat, 0%float) = ((a, b), local_l2_F xs s a b e) /\
      In (a, b) (anomaly_intervals s e m) /\
      ((s < a)%nat /\ (a + m <= b)%nat /\ (b < e)%nat /\ (m <= (e - b) + (a - s))%nat) /\
      finF (local_l2_F xs s a b e) = true /\
      (forall a' b', In (a', b') (anomaly_intervals s e m) ->
                     PrimFloat.ltb (local_l2_F xs s a b e) (local_l2_F xs s a' b' e) = false) /\
      (exists j, (j < length (anomaly_intervals s e m))%nat /\ nth j (anomaly_intervals s e m) (0, 0)%nat = (a, b) /\
         forall j', (j' < j)%nat ->
           PrimFloat.ltb (local_l2_F xs s (fst (nth j' (anomaly_intervals s e m) (0, 0)%nat))
                                        (snd (nth j' (anomaly_intervals s e m) (0, 0)%nat)) e)
                         (local_l2_F xs s a b e) = true) /\
      Rabs (FR (local_l2_F xs s a b e) - local_R (map FR xs) s a b e) <= local_E xs s a b e /\
      (forall a' b', In (a', b') (anomaly_intervals s e m) ->
                     local_R (map FR xs) s a' b' e - local_E xs s a' b' e <= FR (local_l2_F xs s a b e)) /\
      (forall a' b', In (a', b') (anomaly_intervals s e m) ->
                     local_R (map FR xs) s a' b' e
                     <= local_R (map FR xs) s a b e + local_E xs s a b e + local_E xs s a' b' e).
Proof.
  intros Hok Hrun.
  split; [destruct (gcbs_any_inv F64 _ _ _ _ _ _ Hrun) as (-> & _); apply map_length|].
  intros i s e Hi Hse.
  destruct (gcbs_any_am_nth _ _ _ _ _ _ i s e Hrun Hi Hse) as [_ Hn]. rewrite Hn. clear Hn.
  assert (Hin : In (s, e) ivs) by (rewrite <- Hse; apply nth_In; exact Hi).
  unfold ginner_or_zero.
  destruct (gbest_inner F64 (local_l2_F xs) m (s, e)) as [[[a b] v]|] eqn:B.
  2:{ left. split; [|reflexivity]. apply (gbest_inner_none F64 (local_l2_F xs) m s e). exact B. }
  right.
  assert (Htab : forall a' b', In (a', b') (anomaly_intervals s e m) -> nonnan (local_l2_F xs s a' b' e))
    by (intros a' b' Hab; exact (cbs_local_table_ok xs m ivs Hok s e a' b' Hin Hab)).
  destruct (gbest_inner_first_max F64 nonnan F64_swo (local_l2_F xs) m s e a b v Htab B) as (A1 & -> & Hmax & Hfirst).
  cbn [ltb F64] in Hmax, Hfirst.
  exists a, b. split; [reflexivity|]. split; [exact A1|].
  split; [apply anomaly_intervals_spec; exact A1|].
  destruct (cbs_score_facts xs m ivs s e a b Hok Hin A1) as [Fk Ck].
  split; [exact Fk|]. split; [exact Hmax|]. split; [exact Hfirst|]. split; [exact Ck|].
  split; intros a' b' Hab; destruct (cbs_score_facts xs m ivs s e a' b' Hok Hin Hab) as [Fk' Ck'].
  - exact (max_lower _ _ _ _ Fk Fk' Ck' (Hmax a' b' Hab)).
  - exact (max_within _ _ _ _ _ _ Fk Fk' Ck Ck' (Hmax a' b' Hab)).
Qed.

(** 3b.  SOUNDNESS: every reported anomaly (a, b) is the inner float maximiser of some seeded interval (s, e) of [ivs] whose float
    maximum exceeds the threshold; hence the TRUE local anomaly score of (a, b) inside (s, e) exceeds the threshold up to the rounding
    error, and is within the rounding errors of the true score of every other inner candidate of (s, e).  Any finite threshold. *)
Theorem cbs_F64_local_sound xs m (thr : float) ivs (anoms : list (nat * nat)) (am : list ((nat * nat) * float)) :
  cbs_local_trace_ok xs m ivs = true -> finF thr = true ->
  gcbs_any F64 (local_l2_F xs) m thr ivs = Some (anoms, am) ->
  forall a b, In (a, b) anoms ->
  exists i s e,
    (i < length ivs)%nat /\ nth i ivs (0, 0)%nat = (s, e) /\
    nth i am ((0, 0)%nat, 0%float) = ((a, b), local_l2_F xs s a b e) /\
    In (a, b) (anomaly_intervals s e m) /\
    ((s < a)%nat /\ (a + m <= b)%nat /\ (b < e)%nat /\ (e <= length xs)%nat /\ (m <= (e - b) + (a - s))%nat) /\
    PrimFloat.ltb thr (local_l2_F xs s a b e) = true /\
    (forall a' b', In (a', b') (anomaly_intervals s e m) ->
                   PrimFloat.ltb (local_l2_F xs s a b e) (local_l2_F xs s a' b' e) = false) /\
    local_R (map FR xs) s a b e > FR thr - local_E xs s a b e /\
    (forall a' b', In (a', b') (anomaly_intervals s e m) ->
                   local_R (map FR xs) s a' b' e
                   <= local_R (map FR xs) s a b e + local_E xs s a b e + local_E xs s a' b' e).
Proof.
  intros Hok Hthr Hrun a b Hab.
  destruct (cbs_premise_shape xs m ivs Hok) as (_ & Hm & Hivs).
  destruct (F64_cbs_any_supported_and_complete (local_l2_F xs) m thr ivs (cbs_local_table_ok xs m ivs Hok)
              (finF_nonnan _ Hthr) Hm anoms am Hrun) as [Hsup _].
  destruct (Hsup (a, b) Hab) as (i & Hi & H1 & H2). cbn [T zero F64] in H1, H2.
  destruct (cbs_F64_local_interval_max xs m thr ivs anoms am Hok Hrun) as [_ Hint].
  destruct (nth i ivs (0, 0)%nat) as [s e] eqn:Hse.
  assert (Hin : In (s, e) ivs) by (rewrite <- Hse; apply nth_In; exact Hi).
  destruct (Hint i s e Hi Hse) as [[_ Hz] | (a0 & b0 & Hk & A1 & A2 & Fk & Hmax & _ & Ck & _ & Hstat)].
  { exfalso. rewrite Hz in H2. cbn in H2. discriminate H2. }
  rewrite Hk in H1, H2. cbn [fst] in H1. inversion H1; subst a0 b0. clear H1.
  unfold cbs_initial in H2. cbn [fst snd] in H2.
  assert (E : (b <=? a)%nat = false) by (apply Nat.leb_gt; lia). rewrite E in H2. cbn [gabove ltb F64] in H2.
  exists i, s, e. split; [exact Hi|]. split; [exact Hse|]. split; [exact Hk|]. split; [exact A1|].
  split; [pose proof (Hivs s e Hin); lia|]. split; [exact H2|]. split; [exact Hmax|].
  split; [|exact Hstat].
  exact (above_sound thr _ _ _ Hthr Fk Ck H2).
Qed.

(** 3c.  the reported anomalies are well formed: sorted, pairwise disjoint, inside the series, at least [m] long *)
Theorem cbs_F64_local_wellformed xs m (thr : float) ivs (anoms : list (nat * nat)) (am : list ((nat * nat) * float)) :
  cbs_local_trace_ok xs m ivs = true ->
  gcbs_any F64 (local_l2_F xs) m thr ivs = Some (anoms, am) ->
  (forall i, (S i < length anoms)%nat ->
     (fst (nthP anoms i) < fst (nthP anoms (S i)))%nat /\ (snd (nthP anoms i) <= fst (nthP anoms (S i)))%nat) /\
  (forall a b, In (a, b) anoms -> (1 <= a)%nat /\ (a + m <= b <= length xs - 1)%nat).
Proof.
  intros Hok Hrun. destruct (cbs_premise_shape xs m ivs Hok) as (_ & Hm & Hivs).
  destruct (F64_cbs_any_wellformed (local_l2_F xs) m thr (length xs) ivs anoms am Hm Hivs Hrun) as (A & B & _).
  split; [exact A | exact B].
Qed.

(** 3d.  COMPLETENESS, in the form the specification of the greedy search allows: if some inner candidate (a, b) of a seeded interval
    (s, e) has a TRUE local anomaly score exceeding the threshold by more than the rounding error, then its float score and the
    interval's float maximum exceed the threshold, and an anomaly is reported that OVERLAPS the seeded interval (s, e)
    ("no seeded interval above the threshold is left without a reported anomaly overlapping it": the loop removes the candidates
    whose seeded interval overlaps the chosen anomaly; the stronger "overlapping its inner maximiser" is NOT what the code does: a
    seeded interval is removed as soon as the chosen anomaly meets it anywhere, inside or outside its own inner maximiser).
    Any finite threshold. *)
Theorem cbs_F64_local_complete xs m (thr : float) ivs (anoms : list (nat * nat)) (am : list ((nat * nat) * float)) :
  cbs_local_trace_ok xs m ivs = true -> finF thr = true ->
  gcbs_any F64 (local_l2_F xs) m thr ivs = Some (anoms, am) ->
  forall i s e a b, (i < length ivs)%nat -> nth i ivs (0, 0)%nat = (s, e) ->
    In (a, b) (anomaly_intervals s e m) ->
    local_R (map FR xs) s a b e > FR thr + local_E xs s a b e ->
    PrimFloat.ltb thr (local_l2_F xs s a b e) = true /\
    PrimFloat.ltb thr (snd (nth i am ((0, 0)%nat, 0%float))) = true /\
    exists a' b', In (a', b') anoms /\ (s < b')%nat /\ (a' < e)%nat.
Proof.
  intros Hok Hthr Hrun i s e a b Hi Hse Hab Hgt.
  destruct (cbs_premise_shape xs m ivs Hok) as (_ & Hm & Hivs).
  assert (Hin : In (s, e) ivs) by (rewrite <- Hse; apply nth_In; exact Hi).
  destruct (cbs_score_facts xs m ivs s e a b Hok Hin Hab) as [Fk Ck].
  assert (Habove : PrimFloat.ltb thr (local_l2_F xs s a b e) = true)
    by exact (above_complete thr _ _ _ Hthr Fk Ck Hgt).
  split; [exact Habove|].
  destruct (cbs_F64_local_interval_max xs m thr ivs anoms am Hok Hrun) as [_ Hint].
  destruct (Hint i s e Hi Hse) as [[Hz _] | (a0 & b0 & Hk0 & A1 & A2 & Fk0 & Hmax & _)].
  { exfalso. rewrite Hz in Hab. exact Hab. }
  pose proof (max_above thr _ _ Hthr Fk0 Fk Habove (Hmax a b Hab)) as Hv.
  split; [rewrite Hk0; exact Hv|].
  destruct (F64_cbs_any_supported_and_complete (local_l2_F xs) m thr ivs (cbs_local_table_ok xs m ivs Hok)
              (finF_nonnan _ Hthr) Hm anoms am Hrun) as [_ Hcomp].
  destruct (Hcomp i Hi) as ([a' b'] & Hc & Hov).
  { cbn [T zero F64]. rewrite Hk0. unfold cbs_initial. cbn [fst snd].
    assert (E : (b0 <=? a0)%nat = false) by (apply Nat.leb_gt; lia). rewrite E. exact Hv. }
  exists a', b'. split; [exact Hc|]. unfold nthP in Hov. rewrite Hse in Hov.
  apply overlaps_iff in Hov. cbn [fst snd] in Hov. lia.
Qed.

(** * 4. Non-vacuity: a bump in the middle *)

(** twelve binary64 numbers: four around 0, four around 5, four around 0 (all exactly representable, so the literals are the data) *)
Definition demo_bump : list float :=
  [0.25; -0.5; 0.125; 0; 5.25; 4.75; 5.5; 5; -0.25; 0.5; 0.25; -0.125]%float.

(** min_segment_length 2, threshold 3.0, four seeded intervals *)
Definition demo_civs : list (nat * nat) := [(0, 12); (0, 8); (4, 12); (2, 10)]%nat.

Example demo_cbs_premise : cbs_local_trace_ok demo_bump 2 demo_civs = true.
Proof. vm_compute. reflexivity. Qed.

Example demo_cthr_finite : finF 3%float = true.
Proof. vm_compute. reflexivity. Qed.

Eval vm_compute in gcbs_any F64 (local_l2_F demo_bump) 2 3%float demo_civs.

Example demo_cbs_anoms :
  option_map fst (gcbs_any F64 (local_l2_F demo_bump) 2 3%float demo_civs) = Some [(4, 8)%nat].
Proof. vm_compute. reflexivity. Qed.

(** soundness, instantiated: the anomaly (4, 8) is the inner float maximiser of one of the seeded intervals, that interval's float
    maximum exceeds 3.0, and the true local anomaly score of (4, 8) inside that interval exceeds 3.0 up to the rounding error *)
Example demo_cbs_sound :
  exists s e, In (s, e) demo_civs /\ In (4, 8)%nat (anomaly_intervals s e 2) /\
    PrimFloat.ltb 3%float (local_l2_F demo_bump s 4 8 e) = true /\
    local_R (map FR demo_bump) s 4 8 e > FR 3%float - local_E demo_bump s 4 8 e.
Proof.
  destruct (gcbs_any F64 (local_l2_F demo_bump) 2 3%float demo_civs) as [[anoms am]|] eqn:Hrun.
  2:{ pose proof demo_cbs_anoms as H. rewrite Hrun in H. discriminate H. }
  assert (Hc : In (4, 8)%nat anoms).
  { pose proof demo_cbs_anoms as H. rewrite Hrun in H. cbn [option_map fst] in H. inversion H. left. reflexivity. }
  destruct (cbs_F64_local_sound demo_bump 2 3%float demo_civs anoms am demo_cbs_premise demo_cthr_finite Hrun 4%nat 8%nat Hc)
    as (i & s & e & Hi & Hse & _ & A1 & _ & H1 & _ & H2 & _).
  exists s, e. split; [rewrite <- Hse; apply nth_In; exact Hi|].
  split; [exact A1|]. split; [exact H1 | exact H2].
Qed.

(** the per-interval maximum, instantiated at the seeded interval (2, 10): the reported inner interval is (4, 8) and the reported
    maximum is within the kernel error of the true local anomaly score *)
Example demo_cbs_interval_2_10 :
  Rabs (FR (local_l2_F demo_bump 2 4 8 10) - local_R (map FR demo_bump) 2 4 8 10) <= local_E demo_bump 2 4 8 10.
Proof.
  assert (Hin : In (2, 10)%nat demo_civs) by (cbn; tauto).
  assert (Hab : In (4, 8)%nat (anomaly_intervals 2 10 2)) by (apply anomaly_intervals_spec; lia).
  exact (proj2 (cbs_score_facts demo_bump 2 demo_civs 2 10 4 8 demo_cbs_premise Hin Hab)).
Qed.

(** ** an explicit bound of the error from the largest magnitude of the data *)

Lemma In_firstn_in {A} (x : A) n l : In x (firstn n l) -> In x l.
Proof. intros H. rewrite <- (firstn_skipn n l). apply in_or_app. left. exact H. Qed.

Lemma In_skipn_in {A} (x : A) n l : In x (skipn n l) -> In x l.
Proof. intros H. rewrite <- (firstn_skipn n l). apply in_or_app. right. exact H. Qed.

Lemma sur_data_incl l s a b e x : In x (sur_data l s a b e) -> In x l.
Proof.
  unfold sur_data, fslice. intros H. apply in_app_or in H.
  destruct H as [H | H]; apply In_firstn_in in H; apply In_skipn_in in H; exact H.
Qed.

Lemma l2_E_absmax (l : list float) (B : R) (N s e : nat) :
  (forall x, In x (map FR l) -> Rabs x <= B) -> (s < e <= length l)%nat -> (length l <= N)%nat ->
  l2_E l s e <= (42 / 10 * INR N + 6) * u53 * (INR N * (INR N + 1) * B ^ 2).
Proof.
  intros HB Hse HN. unfold l2_E.
  pose proof (l2_scale_le_absmax (map FR l) B HB s e) as H. rewrite map_length in H. specialize (H Hse).
  pose proof (l2_scale_nonneg (map FR l) s e (proj1 Hse)) as H0.
  pose proof u53_nonneg as Hu. pose proof (pos_INR e) as He. pose proof (pos_INR (length l)) as Hl.
  assert (HeN : INR e <= INR N) by (apply le_INR; lia).
  assert (HlN : INR (length l) <= INR N) by (apply le_INR; lia).
  pose proof (pow2_ge_0 B) as HB2.
  assert (H1 : INR (length l) * (INR (length l) + 1) * B ^ 2 <= INR N * (INR N + 1) * B ^ 2).
  { apply Rmult_le_compat_r; [exact HB2|]. apply Rmult_le_compat; lra. }
  apply Rmult_le_compat; [apply Rmult_le_pos; lra | exact H0 | | lra].
  apply Rmult_le_compat_r; [exact Hu | lra].
Qed.

(** with |x_i| <= B and n the length of the series:
      E <= 3 (4.2 n + 6) 2^-53 n (n + 1) B^2 + 2^-53 (|inner + surrounding| + |score|)   (the computed numbers) *)
Lemma local_E_absmax (l : list float) (Bf : float) s a b e :
  l2_absmax_ok l Bf = true -> local_l2_trace_ok l s a b e = true ->
  local_E l s a b e
  <= 3 * ((42 / 10 * INR (length l) + 6) * u53 * (INR (length l) * (INR (length l) + 1) * FR Bf ^ 2))
     + u53 * Rabs (FR (local_sum_F l s a b e)) + u53 * Rabs (FR (local_l2_F l s a b e)).
Proof.
  intros HB Hok. apply local_l2_trace_ok_spec in Hok. destruct Hok as [Ho Hi Hs _ _].
  pose proof (l2_absmax_ok_spec l Bf HB) as HBl.
  pose proof (l2_trace_ok_bounds _ _ _ Ho) as Bo.
  pose proof (l2_trace_ok_bounds _ _ _ Hi) as Bi.
  pose proof (l2_trace_ok_bounds _ _ _ Hs) as Bs.
  pose proof (sur_data_length l s a b e) as Ls.
  assert (HBs : forall x, In x (map FR (sur_data l s a b e)) -> Rabs x <= FR Bf).
  { intros x Hx. apply HBl. apply in_map_iff in Hx. destruct Hx as (y & <- & Hy).
    apply in_map. exact (sur_data_incl _ _ _ _ _ _ Hy). }
  pose proof (l2_E_absmax l (FR Bf) (length l) s e HBl Bo (le_n _)) as E1.
  pose proof (l2_E_absmax l (FR Bf) (length l) a b HBl Bi (le_n _)) as E2.
  pose proof (l2_E_absmax (sur_data l s a b e) (FR Bf) (length l) 0 _ HBs Bs ltac:(lia)) as E3.
  unfold local_E. lra.
Qed.

(** here: below 10^-9 *)
Example demo_cbs_absmax : l2_absmax_ok demo_bump 5.5%float = true.
Proof. vm_compute. reflexivity. Qed.

Example demo_cbs_error_small : local_E demo_bump 2 4 8 10 <= 1 / 1000000000.
Proof.
  assert (Hin : In (2, 10)%nat demo_civs) by (cbn; tauto).
  assert (Hab : In (4, 8)%nat (anomaly_intervals 2 10 2)) by (apply anomaly_intervals_spec; lia).
  pose proof (local_E_absmax demo_bump 5.5%float 2 4 8 10 demo_cbs_absmax
                (cbs_trace_at demo_bump 2 demo_civs 2 10 4 8 demo_cbs_premise Hin Hab)) as H.
  FR_eval 5.5%float HB. FR_eval (local_sum_F demo_bump 2 4 8 10) H1. FR_eval (local_l2_F demo_bump 2 4 8 10) H2.
  rewrite HB, H1, H2 in H. change (length demo_bump) with 12%nat in H.
  rewrite u53_value in H.
  replace (INR 12) with 12 in H by (cbn [INR]; lra).
  rewrite !Rabs_pos_eq in H by lra. lra.
Qed.

(** completeness, instantiated: its hypothesis on the TRUE score is satisfiable -- the true local anomaly score of (4, 8) inside
    (2, 10) exceeds 3.0 by far more than the rounding error -- and its conclusion is the run displayed above *)
Example demo_cbs_complete_hypothesis :
  local_R (map FR demo_bump) 2 4 8 10 > FR 3%float + local_E demo_bump 2 4 8 10.
Proof.
  pose proof demo_cbs_interval_2_10 as Hc. apply Rabs_le_both in Hc.
  pose proof demo_cbs_error_small as HE.
  FR_eval (local_l2_F demo_bump 2 4 8 10) Hv. rewrite Hv in Hc. FR_eval 3%float H3. rewrite H3. lra.
Qed.

Example demo_cbs_complete :
  forall anoms am, gcbs_any F64 (local_l2_F demo_bump) 2 3%float demo_civs = Some (anoms, am) ->
  exists a' b', In (a', b') anoms /\ (2 < b')%nat /\ (a' < 10)%nat.
Proof.
  intros anoms am Hrun.
  assert (Hab : In (4, 8)%nat (anomaly_intervals 2 10 2)) by (apply anomaly_intervals_spec; lia).
  destruct (cbs_F64_local_complete demo_bump 2 3%float demo_civs anoms am demo_cbs_premise demo_cthr_finite Hrun
              3%nat 2%nat 10%nat 4%nat 8%nat ltac:(cbn; lia) eq_refl Hab demo_cbs_complete_hypothesis)
    as (_ & _ & Hc).
  exact Hc.
Qed.

Print Assumptions local_l2_F_vs_R.
Print Assumptions cbs_F64_local_interval_max.
Print Assumptions cbs_F64_local_sound.
Print Assumptions cbs_F64_local_wellformed.
Print Assumptions cbs_F64_local_complete.
Print Assumptions demo_cbs_sound.
Print Assumptions demo_cbs_complete.
