(** C13: [evaluate] accepts exactly the cuts arrays the documentation describes
    ([evaluate_accepts_iff]).  A second part, arithmetic over Z only, shows why
    check_cuts_array has to widen every integer dtype to int64 before it tests anything. *)
From Coq Require Import ZArith List Lia Bool.
From SK Require Import Lib.Base Model.Cuts Proofs.ListFacts.
Import ListNotations.
Open Scope Z_scope.

(** the documented meaning of a valid row, stated without the model's booleans *)
Definition spaced (ms : Z) (r : list Z) : Prop :=
  forall i, (S i < length r)%nat -> ms <= nthZ r (S i) - nthZ r i.
Definition bounded (n : Z) (r : list Z) : Prop := forall x, In x r -> 0 <= x <= n.

Definition row_valid (sk : scorer_kind) (n : Z) (r : list Z) : Prop :=
  match sk with
  | Plain _ ms => spaced ms r /\ bounded n r
  | Local ms => spaced 1 r /\ ms <= nthZ r 2 - nthZ r 1
                /\ ms <= (nthZ r 1 - nthZ r 0) + (nthZ r 3 - nthZ r 2) /\ bounded n r
  end.

Lemma diffs_spaced ms r : forallb (fun d => ms <=? d) (diffs r) = true <-> spaced ms r.
Proof.
  unfold spaced. induction r as [|a [|b t] IH].
  - cbn. split; [intros _ i Hi; cbn in Hi; lia|reflexivity].
  - cbn. split; [intros _ i Hi; cbn in Hi; lia|reflexivity].
  - change (diffs (a :: b :: t)) with ((b - a) :: diffs (b :: t)).
    cbn [forallb]. rewrite andb_true_iff, IH, Z.leb_le. split.
    + intros [H1 H2] [|i] Hi; [cbn; exact H1|].
      change (nthZ (a :: b :: t) (S (S i))) with (nthZ (b :: t) (S i)).
      change (nthZ (a :: b :: t) (S i)) with (nthZ (b :: t) i).
      apply H2. cbn [length] in *. lia.
    + intros H. split; [apply (H 0%nat); cbn [length]; lia|].
      intros i Hi. apply (H (S i)). cbn [length] in *. lia.
Qed.

Lemma in_bounds_bounded n r : in_bounds n r = true <-> bounded n r.
Proof.
  unfold in_bounds, bounded. rewrite forallb_forall. split; intros H x Hx; specialize (H x Hx).
  - apply andb_true_iff in H as [H1 H2]. apply Z.leb_le in H1, H2. lia.
  - apply andb_true_iff. split; apply Z.leb_le; lia.
Qed.

Lemma row_ok_valid sk n r : row_ok sk n r = true <-> row_valid sk n r.
Proof.
  destruct sk as [k ms|ms]; cbn [row_ok row_valid].
  - apply andb_prop_iff; [apply diffs_spaced | apply in_bounds_bounded].
  - rewrite <- !andb_assoc.
    repeat apply andb_prop_iff;
      [apply diffs_spaced | apply Z.leb_le | apply Z.leb_le | apply in_bounds_bounded].
Qed.

Lemma spaced_increasing ms r : 1 <= ms -> spaced ms r ->
  forall i j, (i < j < length r)%nat -> nthZ r i < nthZ r j.
Proof.
  intros Hms Hs i j [Hij Hj].
  apply (chain_lt Z.lt (nthZ r) (length r) Z.lt_trans); try assumption.
  intros i' Hi'. specialize (Hs i' Hi'). lia.
Qed.

Section Eval.
Context {A : Type} (score : list Z -> A).

(** evaluate returns scores iff the argument is an integer array of the expected width
    all of whose rows are valid; the scores are then exactly those of the rows given *)
Theorem evaluate_accepts_iff sk n arg r :
  evaluate score sk n arg = Some r <->
  exists rows, arg = IntRows (width_of sk) rows /\ Forall (row_valid sk n) rows /\ r = map score rows.
Proof.
  destruct arg as [w rows| |]; cbn [evaluate].
  - destruct ((w =? width_of sk)%nat && forallb (row_ok sk n) rows) eqn:E.
    + apply andb_true_iff in E as [Ew Er]. apply Nat.eqb_eq in Ew. subst w.
      split.
      * intros H. inversion H. exists rows. split; [reflexivity|]. split; [|reflexivity].
        apply Forall_forall. intros x Hx. apply row_ok_valid. rewrite forallb_forall in Er. auto.
      * intros (rows' & Ha & _ & Hr). inversion Ha. subst. reflexivity.
    + split; [discriminate|]. intros (rows' & Ha & Hv & _). inversion Ha. subst.
      apply andb_false_iff in E as [E|E].
      * rewrite Nat.eqb_refl in E. discriminate.
      * assert (forallb (row_ok sk n) rows' = true); [|congruence].
        apply forallb_forall. intros x Hx. apply row_ok_valid. rewrite Forall_forall in Hv. auto.
  - split; [discriminate|]. intros (rows & Ha & _). discriminate.
  - split; [discriminate|]. intros (rows & Ha & _). discriminate.
Qed.

(** no invalid cut is ever scored: an accepted array has only in-range, strictly
    increasing rows (nothing can wrap around or be truncated) *)
Theorem evaluate_never_scores_invalid sk n w rows r :
  (match sk with Plain _ ms => 1 <= ms | Local _ => True end) ->
  evaluate score sk n (IntRows w rows) = Some r ->
  forall row, In row rows ->
    (forall x, In x row -> 0 <= x <= n) /\
    (forall i j, (i < j < length row)%nat -> nthZ row i < nthZ row j).
Proof.
  intros Hms H row Hrow. apply evaluate_accepts_iff in H as (rows' & Ha & Hv & _).
  inversion Ha; subst rows'. rewrite Forall_forall in Hv. specialize (Hv row Hrow).
  destruct sk as [k ms|ms]; cbn [row_valid] in Hv.
  - destruct Hv as [Hs Hb]. split; [exact Hb|]. apply (spaced_increasing ms); assumption.
  - destruct Hv as (Hs & _ & _ & Hb). split; [exact Hb|]. apply (spaced_increasing 1); [lia|assumption].
Qed.

Theorem evaluate_rejects_nonint_and_3d sk n :
  evaluate score sk n NonInt = None /\ evaluate score sk n Dim3 = None.
Proof. split; reflexivity. Qed.

Theorem evaluate_rejects_wrong_width sk n w rows :
  w <> width_of sk -> evaluate score sk n (IntRows w rows) = None.
Proof.
  intros H. cbn [evaluate]. destruct (Nat.eqb_spec w (width_of sk)); [contradiction|reflexivity].
Qed.
End Eval.

(** [in_bounds] is what rejects [-1, 2] on n = 5: its spacing is fine, and NumPy would read the
    prefix sums at index -1, that is from the end *)
Example out_of_range_rejected : evaluate (fun r => r) (Plain 2 1) 5 (IntRows 2 [[-1; 2]]) = None.
Proof. reflexivity. Qed.
Example valid_accepted : evaluate (fun r => r) (Plain 2 1) 5 (IntRows 2 [[0; 2]; [3; 5]]) = Some [[0; 2]; [3; 5]].
Proof. reflexivity. Qed.
Example local_accepted : evaluate (fun r => r) (Local 2) 8 (IntRows 4 [[0; 1; 3; 4]]) = Some [[0; 1; 3; 4]].
Proof. reflexivity. Qed.

(** * Machine integers: why check_cuts_array converts every integer dtype to int64

    Defects D22 and D24 of DESIGN.md.  The rows of Model/Cuts.v are over Z, so nothing here
    speaks of [evaluate]: these are facts about [wrapu] / [wraps] alone. *)

(** [wrapu w] / [wraps w]: the value a w-bit unsigned / two's-complement signed integer holds after an
    arithmetic operation whose exact result is x (NumPy integer arithmetic wraps silently). *)
Definition wrapu (w x : Z) : Z := x mod 2 ^ w.
Definition wraps (w x : Z) : Z := (x + 2 ^ (w - 1)) mod 2 ^ w - 2 ^ (w - 1).

Lemma wraps_exact w x : 1 <= w -> - 2 ^ (w - 1) <= x < 2 ^ (w - 1) -> wraps w x = x.
Proof.
  intros Hw Hx. unfold wraps.
  assert (Hp : 2 ^ w = 2 * 2 ^ (w - 1)).
  { replace w with (1 + (w - 1)) at 1 by lia. rewrite Z.pow_add_r by lia. reflexivity. }
  rewrite Z.mod_small by lia. lia.
Qed.

(** D22: differences taken in an UNSIGNED dtype wrap, so a DECREASING row passes the test
    "all differences >= min_size".  ([_refuted]: what is refuted is that the test made in that dtype
    rejects every decreasing row.) *)
Theorem unsigned_diff_accepts_decreasing_row_refuted :
  exists (w a b min_size : Z), b < a /\ 0 <= b /\ a < 2 ^ w /\ 1 <= min_size /\ min_size <= wrapu w (b - a).
Proof. exists 64, 5, 3, 1. unfold wrapu. repeat split; try lia. vm_compute. discriminate. Qed.

(** D24: position arithmetic in the cuts' own narrow dtype wraps: CUSUM's n * before_n for the
    valid int8 cut (0, 20, 40) is 800, which int8 holds as 32 *)
Theorem narrow_dtype_product_wraps_refuted :
  exists (w n nb : Z), 0 < nb < n /\ n < 2 ^ (w - 1) /\ wraps w (n * nb) <> n * nb.
Proof. exists 8, 40, 20. repeat split; try lia. vm_compute. discriminate. Qed.

(** in int64 every value of every narrower or unsigned dtype below 2^63 is represented exactly,
    differences of two positions are exact, and products of positions of series shorter than
    2^31 rows are exact *)
Theorem int64_holds_every_narrower_value w x : 1 <= w <= 63 -> 0 <= x < 2 ^ w -> wraps 64 x = x.
Proof.
  intros Hw Hx. apply wraps_exact; [lia|].
  assert (2 ^ w <= 2 ^ 63) by (apply Z.pow_le_mono_r; lia). change (64 - 1) with 63. lia.
Qed.

Theorem int64_differences_exact a b : 0 <= a < 2 ^ 62 -> 0 <= b < 2 ^ 62 -> wraps 64 (b - a) = b - a.
Proof. intros Ha Hb. apply wraps_exact; [lia|]. change (64 - 1) with 63. change (2 ^ 63) with (2 * 2 ^ 62). lia. Qed.

Theorem int64_position_products_exact n a : 0 <= a <= n -> n < 2 ^ 31 -> wraps 64 (n * a) = n * a.
Proof.
  intros Ha Hn. apply wraps_exact; [lia|]. change (64 - 1) with 63.
  assert (n * a <= n * n) by (apply Z.mul_le_mono_nonneg_l; lia).
  assert (n * n < 2 ^ 31 * 2 ^ 31) by (apply Z.mul_lt_mono_nonneg; lia).
  change (2 ^ 31 * 2 ^ 31) with (2 ^ 62) in *. change (2 ^ 63) with (2 * 2 ^ 62). nia.
Qed.
