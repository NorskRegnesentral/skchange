(** The loop of run_base_capa analysed once, for every number type and every arithmetic.

    [cstep] is the iteration of Model/Capa.v over a record [N : num] of operations
    (Model/Generic.v) in which the three arithmetic steps are uninterpreted functions, as in
    Model/CapaA.v: [Vc a T g] stands for [g + Pc a T], [Vp t g] for [g + Pp t], [Wk a T c]
    for [c + K].  The integer model, the real model, the inexact model and the generic model
    are each shown once to BE this loop at some [N], [Vc], [Vp], [Wk]; everything that does
    not depend on the arithmetic is proved here:

    - get_anomalies and _predict only read the back-pointers ([chain], [get_anoms_chain]);
    - the delayed application of pruning decisions ([CQInv], [cqueue_step]), for an arbitrary
      reason [Cond a tau] to drop start [a] at end [tau];
    - lengths, admissible back-pointers, admissible starts, and which computed option every
      stored value is ([CLInv]); hence validity of the reported anomalies and, for any
      functional that follows the computed options, the value of the reported set;
    - with a reflexive transitive order that [ltb] decides: the stored value dominates every
      option it was chosen from ([cchoose_max]);
    - a map of the number type that preserves the comparisons and the arithmetic steps at the
      values the run computes maps the run to the run ([crun_map], [ccapa_map]): the integer
      run into the real one, the finite binary64 run into the inexact real one. *)
From Coq Require Import List Lia Bool Arith.
From SK Require Import Lib.Base Model.Capa Proofs.CapaSpec Model.Generic Model.GenericCapa
                       Proofs.ArgmaxLemmas Proofs.PeltLemmas Proofs.PeltLoop.
Import ListNotations.

Lemma fold_left_rel {A B C} (R : A -> B -> Prop) (f : A -> C -> A) (g : B -> C -> B) :
  (forall a b c, R a b -> R (f a c) (g b c)) ->
  forall l a b, R a b -> R (fold_left f l a) (fold_left g l b).
Proof. intros H. induction l as [|c l IH]; intros a b Hab; cbn [fold_left]; auto. Qed.

(** filtering a list of keys zipped with a table of their values *)
Lemma filter_combine_map {A : Type} (f : nat -> A) (P : nat * A -> bool) (l : list nat) :
  map fst (filter P (combine l (map f l))) = filter (fun a => P (a, f a)) l.
Proof.
  induction l as [|a t IH]; cbn [map combine filter]; [reflexivity|].
  destruct (P (a, f a)); cbn [map fst]; now rewrite IH.
Qed.

Lemma valid_from_snoc m M lo l a T :
  valid_from m M lo (l ++ [a]) T <->
  valid_from m M lo l (a_start a) /\ a_ok m M a /\ a_end a <= T.
Proof.
  revert lo; induction l as [|b l IH]; intros lo; cbn [app valid_from].
  - reflexivity.
  - rewrite IH. tauto.
Qed.

Lemma valid_from_weaken m M lo l T T' :
  valid_from m M lo l T -> T <= T' -> valid_from m M lo l T'.
Proof.
  revert lo; induction l as [|b l IH]; intros lo; cbn; [lia|].
  intros (H1 & H2 & H3) HT. repeat split; auto.
Qed.

(** the back-pointer chain from [e], listed in increasing order *)
Fixpoint chain (fuel : nat) (as_ : list (option nat)) (e : nat) : list (nat * nat) :=
  match fuel with
  | O => []
  | S f =>
    match e with
    | O => []
    | S i =>
      match nth i as_ None with
      | None => chain f as_ i
      | Some a =>
          if a <? i then chain f as_ a ++ [(a, S i)]
          else if a =? i then chain f as_ i ++ [(i, S i)]
          else chain f as_ i
      end
    end
  end.

Lemma insert_pair_last x l :
  (forall y, In y l -> pair_ltb x y = false) -> insert_pair x l = l ++ [x].
Proof.
  induction l as [|y l IH]; intros H; cbn; [reflexivity|].
  rewrite (H y (or_introl eq_refl)). f_equal. apply IH. intros z Hz. apply H. now right.
Qed.

Lemma insert_pair_snoc y l x :
  pair_ltb y x = true -> insert_pair y (l ++ [x]) = insert_pair y l ++ [x].
Proof.
  intros H. induction l as [|z l IH]; cbn.
  - now rewrite H.
  - destruct (pair_ltb y z); [reflexivity|]. cbn. now rewrite IH.
Qed.

Lemma in_insert_pair x l y : In y (insert_pair x l) <-> y = x \/ In y l.
Proof.
  induction l as [|z l IH]; cbn; [intuition|].
  destruct (pair_ltb x z); cbn; [intuition|]. rewrite IH. intuition.
Qed.
Lemma in_sort_pairs l y : In y (sort_pairs l) <-> In y l.
Proof.
  induction l as [|z l IH]; [cbn; tauto|].
  change (sort_pairs (z :: l)) with (insert_pair z (sort_pairs l)).
  rewrite in_insert_pair, IH. cbn. intuition.
Qed.

Lemma pair_lt_bound (y x : nat * nat) :
  fst y < snd y -> snd y <= fst x ->
  pair_ltb y x = true /\ pair_ltb x y = false.
Proof.
  intros H1 H2. unfold pair_ltb. split.
  - apply orb_true_iff. left. apply Nat.ltb_lt. lia.
  - apply orb_false_iff. split; [apply Nat.ltb_ge; lia|].
    apply andb_false_iff. left. apply Nat.eqb_neq. lia.
Qed.

(** an element above everything else is sorted to the end *)
Lemma sort_pairs_max x l1 l2 :
  (forall y, In y (l1 ++ l2) -> fst y < snd y /\ snd y <= fst x) ->
  sort_pairs (l1 ++ x :: l2) = sort_pairs (l1 ++ l2) ++ [x].
Proof.
  induction l1 as [|y l1 IH]; intros H.
  - cbn [app] in *. change (sort_pairs (x :: l2)) with (insert_pair x (sort_pairs l2)).
    apply insert_pair_last. intros y Hy. apply (proj1 (in_sort_pairs _ _)) in Hy.
    destruct (H y Hy) as [H1 H2]. now apply pair_lt_bound.
  - cbn [app]. change (sort_pairs (y :: l1 ++ x :: l2)) with (insert_pair y (sort_pairs (l1 ++ x :: l2))).
    change (sort_pairs (y :: l1 ++ l2)) with (insert_pair y (sort_pairs (l1 ++ l2))).
    rewrite IH by (intros z Hz; apply H; now right).
    apply insert_pair_snoc. destruct (H y (or_introl eq_refl)) as [H1 H2].
    now apply pair_lt_bound.
Qed.

Definition nonpoint (se : nat * nat) : bool := negb (is_point se).

Lemma to_anom_pt i : to_anom (i, S i) = Pt i.
Proof. unfold to_anom. cbn [fst snd]. now rewrite Nat.eqb_refl. Qed.
Lemma to_anom_coll a e : e <> S a -> to_anom (a, e) = Coll a e.
Proof.
  intros H. unfold to_anom. cbn [fst snd].
  now replace (e =? S a) with false by (symmetry; now apply Nat.eqb_neq).
Qed.

Lemma get_anoms_chain as_ : forall fuel e c p,
  get_anoms fuel as_ e = (c, p) ->
  sort_pairs (c ++ p) = chain fuel as_ e /\
  sort_pairs c = filter nonpoint (chain fuel as_ e) /\
  (forall y, In y (c ++ p) -> fst y < snd y /\ snd y <= e).
Proof.
  (* anomalies are found from the end backwards: each one starts at or after the end of all
     those found after it, so it is sorted behind them ([sort_pairs_max]); sorting thus
     reverses the order of discovery, which gives the order of [chain] *)
  induction fuel as [|f IH]; intros e c p H.
  - cbn in H. inversion H; subst. cbn.
    split; [reflexivity|]. split; [reflexivity|]. intros y [].
  - destruct e as [|i].
    + cbn in H. inversion H; subst. cbn.
      split; [reflexivity|]. split; [reflexivity|]. intros y [].
    + cbn [get_anoms chain] in *. destruct (nth i as_ None) as [a|].
      * destruct (a <? i) eqn:Elt.
        { apply Nat.ltb_lt in Elt.
          destruct (get_anoms f as_ a) as [c' p'] eqn:E. inversion H; subst c p; clear H.
          destruct (IH _ _ _ E) as (H1 & H2 & H3).
          assert (Hb : forall y, In y (c' ++ p') ->
                    fst y < snd y /\ snd y <= fst (a, S i)) by exact H3.
          split; [|split].
          - change (((a, S i) :: c') ++ p') with ([] ++ (a, S i) :: (c' ++ p')).
            rewrite sort_pairs_max by exact Hb. cbn [app]. now rewrite H1.
          - change ((a, S i) :: c') with ([] ++ (a, S i) :: c').
            rewrite (sort_pairs_max (a, S i) [] c').
            2:{ intros y Hy. apply Hb. cbn [app] in Hy. apply in_or_app. now left. }
            assert (Hnp : nonpoint (a, S i) = true).
            { unfold nonpoint, is_point. cbn [fst snd].
              apply negb_true_iff, Nat.eqb_neq. lia. }
            cbn [app]. rewrite H2, filter_app. cbn [filter]. rewrite Hnp. reflexivity.
          - intros y [<-|Hy]; [cbn; lia|]. destruct (H3 y Hy). lia. }
        destruct (a =? i) eqn:Eeq.
        { apply Nat.eqb_eq in Eeq. subst a.
          destruct (get_anoms f as_ i) as [c' p'] eqn:E. inversion H; subst c p; clear H.
          destruct (IH _ _ _ E) as (H1 & H2 & H3).
          assert (Hb : forall y, In y (c' ++ p') ->
                    fst y < snd y /\ snd y <= fst (i, S i)) by exact H3.
          split; [|split].
          - rewrite sort_pairs_max by exact Hb. now rewrite H1.
          - assert (Hnp : nonpoint (i, S i) = false).
            { unfold nonpoint, is_point. cbn [fst snd]. now rewrite Nat.eqb_refl. }
            rewrite H2, filter_app. cbn [filter]. rewrite Hnp. now rewrite app_nil_r.
          - intros y Hy. apply in_app_or in Hy as [Hy|[<-|Hy]].
            + destruct (H3 y (in_or_app _ _ _ (or_introl Hy))). lia.
            + cbn. lia.
            + destruct (H3 y (in_or_app _ _ _ (or_intror Hy))). lia. }
        destruct (IH _ _ _ H) as (H1 & H2 & H3).
        split; [exact H1|]. split; [exact H2|].
        intros y Hy. destruct (H3 y Hy). lia.
      * destruct (IH _ _ _ H) as (H1 & H2 & H3).
        split; [exact H1|]. split; [exact H2|].
        intros y Hy. destruct (H3 y Hy). lia.
Qed.

(** ignore_point_anomalies only removes the point anomalies, for any back-pointer list *)
Lemma predict_ignore_points fuel as_ e c p :
  get_anoms fuel as_ e = (c, p) ->
  capa_predict true c p = filter (fun se => negb (is_point se)) (capa_predict false c p).
Proof.
  intros H. apply get_anoms_chain in H as (H1 & H2 & _).
  unfold capa_predict. rewrite H1, H2. reflexivity.
Qed.

(** a back-pointer recorded at index [i]: NaN, the point [i], or an admissible start *)
Definition ptr_ok (m M i : nat) (ch : option nat) : Prop :=
  match ch with
  | None => True
  | Some a => a = i \/ (a + m <= S i /\ S i <= a + M)
  end.

(** the chain from any [e <= T] is a valid anomaly set for [0,e); a functional [val] that
    follows [fp] / [fc] when a point / collective anomaly is appended takes, on the chain
    from [e], the value [o e] of any table that starts at [val []] and obeys the same
    equations along the back-pointers *)
Section Chain.
Variables m M : nat.
Hypothesis Hm2 : 2 <= m.
Variable as_ : list (option nat).
Variable T : nat.
Hypothesis Hptr : forall i, i < T -> ptr_ok m M i (nth i as_ None).

Lemma chain_valid_from fuel : forall e, e <= fuel -> e <= T ->
  valid_from m M 0 (map to_anom (chain fuel as_ e)) e.
Proof.
  induction fuel as [|f IH]; intros e Hf HT.
  - replace e with 0 by lia. cbn. lia.
  - destruct e as [|i]; [cbn; lia|].
    cbn [chain]. pose proof (Hptr i ltac:(lia)) as Hok.
    destruct (nth i as_ None) as [a|]; cbn [ptr_ok] in Hok.
    + destruct Hok as [->|(H1 & H2)].
      * rewrite Nat.ltb_irrefl, Nat.eqb_refl, map_app. cbn [map]. rewrite to_anom_pt.
        apply valid_from_snoc. cbn [a_start a_end a_ok].
        split; [apply IH; lia|]. split; [exact I|lia].
      * replace (a <? i) with true by (symmetry; apply Nat.ltb_lt; lia).
        rewrite map_app. cbn [map]. rewrite to_anom_coll by lia.
        apply valid_from_snoc. cbn [a_start a_end a_ok].
        split; [apply IH; lia|]. split; lia.
    + apply valid_from_weaken with (T := i); [apply IH; lia|lia].
Qed.

Variable X : Type.
Variable val : list anom -> X.
Variable fp : nat -> X -> X.
Variable fc : nat -> nat -> X -> X.
Hypothesis val_pt : forall l i, val (l ++ [Pt i]) = fp i (val l).
Hypothesis val_coll : forall l a e, val (l ++ [Coll a e]) = fc a e (val l).
Variable o : nat -> X.
Hypothesis o_0 : val [] = o 0.
Hypothesis o_S : forall i, i < T ->
  match nth i as_ None with
  | None => o (S i) = o i
  | Some a => (a = i /\ o (S i) = fp i (o i)) \/
              (a + m <= S i /\ o (S i) = fc a (S i) (o a))
  end.

Lemma chain_value fuel : forall e, e <= fuel -> e <= T ->
  val (map to_anom (chain fuel as_ e)) = o e.
Proof using Hm2 val_pt val_coll o_0 o_S.
  induction fuel as [|f IH]; intros e Hf HT.
  - replace e with 0 by lia. exact o_0.
  - destruct e as [|i]; [exact o_0|].
    cbn [chain]. pose proof (o_S i ltac:(lia)) as Hok.
    destruct (nth i as_ None) as [a|].
    + destruct Hok as [[-> E]|(H1 & E)].
      * rewrite Nat.ltb_irrefl, Nat.eqb_refl, map_app. cbn [map].
        rewrite to_anom_pt, val_pt, IH, E by lia. reflexivity.
      * replace (a <? i) with true by (symmetry; apply Nat.ltb_lt; lia).
        rewrite map_app. cbn [map].
        rewrite to_anom_coll, val_coll, IH, E by lia. reflexivity.
    + rewrite IH, Hok by lia. reflexivity.
Qed.
End Chain.

Definition cstarts1 (m : nat) (starts : list nat) (t : nat) : list nat :=
  if m <=? S t then starts ++ [S t - m] else starts.
Definition ckeep (M : nat) (starts1 : list nat) (t : nat) (now : list nat) : list nat :=
  filter (fun a => negb (memb a now) && negb (a + M <? S t + 1)) starts1.

Lemma cstarts1_range m M starts t : m <= M ->
  (forall a, In a starts -> a + m <= t /\ S t <= a + M) ->
  forall a, In a (cstarts1 m starts t) -> a + m <= S t /\ S t <= a + M.
Proof.
  intros HmM Hst a Ha. unfold cstarts1 in Ha. destruct (m <=? S t) eqn:E.
  - apply Nat.leb_le in E. apply in_app_or in Ha as [Ha|[<-|[]]]; [|lia].
    destruct (Hst a Ha). lia.
  - destruct (Hst a Ha). lia.
Qed.

Lemma cstarts1_le m starts t a :
  (forall b, In b starts -> b + m <= t) -> In a (cstarts1 m starts t) -> a + m <= S t.
Proof.
  intros H. unfold cstarts1. destruct (m <=? S t) eqn:E; intros Ha.
  - apply Nat.leb_le in E. apply in_app_or in Ha as [Ha|[<-|[]]]; [apply H in Ha|]; lia.
  - apply H in Ha. lia.
Qed.

Lemma in_ckeep M starts1 t now a :
  In a (ckeep M starts1 t now) <-> In a starts1 /\ ~ In a now /\ S (S t) <= a + M.
Proof.
  unfold ckeep.
  rewrite filter_In, andb_true_iff, !negb_true_iff, Nat.ltb_ge, <- not_true_iff_false, in_memb.
  intuition lia.
Qed.

Lemma ckeep_range m M starts1 t now :
  (forall a, In a starts1 -> a + m <= S t /\ S t <= a + M) ->
  forall a, In a (ckeep M starts1 t now) -> a + m <= S t /\ S (S t) <= a + M.
Proof.
  intros H a Ha. apply in_ckeep in Ha as (Hin & _ & Hf). destruct (H a Hin). lia.
Qed.

(** The queue [pending] holds the last [<= delay] lists of starts found too low, oldest
    first: slot [i] was recorded at end [T + 1 + i - length pending].  [Cond a tau] is
    whatever "start [a] found too low at end [tau]" means for the arithmetic at hand.  A
    start admissible for the next end but absent from the list was recorded at least [m]
    ends ago.  This is the queue invariant of Proofs/PeltLoop.v for the window of starts
    [a + m <= T], [S T <= a + M]: a start dropped for its age is no longer admissible. *)
Section Queue.
Variables m M delay : nat.
Variable Cond : nat -> nat -> Prop.

Definition CQInv : nat -> list nat -> list (list nat) -> Prop :=
  QInv m delay (fun T a => a + m <= T /\ S T <= a + M) Cond.

Lemma CQInv_init : 1 <= m -> CQInv 0 [] [].
Proof. intros Hm1. apply QInv_nil. intros a [H _]. lia. Qed.

(** the start appended for the next end is present, so nothing new is missing *)
Lemma CQInv_starts1 t starts pending : CQInv t starts pending ->
  forall a, a + m <= S t -> S t <= a + M -> ~ In a (cstarts1 m starts t) ->
  exists tau, tau + m <= t + 1 /\ Cond a tau.
Proof.
  intros Q a A1 A2 Hn. unfold cstarts1 in Hn.
  replace (m <=? S t) with true in Hn by (symmetry; apply Nat.leb_le; lia).
  apply (q_missing _ _ _ _ _ _ _ Q).
  - assert (a <> S t - m) by (intros ->; apply Hn, in_or_app; right; now left). lia.
  - intros Hin. apply Hn, in_or_app. now left.
Qed.

Lemma cqueue_step t starts pending lw now pend' :
  m <= delay + 1 ->
  CQInv t starts pending -> (forall a, In a lw -> Cond a (S t)) ->
  pop delay (pending ++ [lw]) = (now, pend') ->
  CQInv (S t) (ckeep M (cstarts1 m starts t) t now) pend'.
Proof.
  intros Hd Q Hlw Epop.
  eapply QInv_step; [exact Hd| |exact Q| |exact Hlw|exact Epop|].
  - intros a [A1 _]. lia.
  - intros a [A1 A2]. apply (CQInv_starts1 t _ _ Q); lia.
  - intros a [_ A2] Hin Hnow. apply in_ckeep. auto.
Qed.
End Queue.

(** the first-maximum scan returns a position of the list and the value there (no laws) *)
Lemma gargmax_nthV (N : num) (l : list (T N)) i v :
  gargmax N l = Some (i, v) -> i < length l /\ nthV N l i = v.
Proof.
  intros H. destruct (ArgmaxLemmas.gargmax_nth N (zero N) l i v H) as [Hi E].
  split; [exact Hi | symmetry; exact E].
Qed.

Section Loop.
Variable N : num.
Notation V := (T N).
Variable Vc : nat -> nat -> V -> V.
Variable Vp : nat -> V -> V.
Variable Wk : nat -> nat -> V -> V.
Variables m M delay : nat.

Notation nthv := (nthV N).

Definition ccands (g : gcst N) (t : nat) : list V :=
  map (fun a => Vc a (S t) (nthv (gcopt N g) a)) (cstarts1 m (gcstarts N g) t).
Definition cchoose (g : gcst N) (t : nat) : option nat * V :=
  let ot := nthv (gcopt N g) t in
  let optp := Vp t ot in
  match gargmax N (ccands g t) with
  | None => if ltb N ot optp then (Some t, optp) else (None, ot)
  | Some (i, oc) =>
      if ltb N ot oc
      then (if ltb N oc optp then (Some t, optp)
            else (Some (nthN (cstarts1 m (gcstarts N g) t) i), oc))
      else (if ltb N ot optp then (Some t, optp) else (None, ot))
  end.
Definition clow (g : gcst N) (t : nat) (best : V) : list nat :=
  map fst (filter (fun ac0 => ltb N (Wk (fst ac0) (S t) (snd ac0)) best)
                  (combine (cstarts1 m (gcstarts N g) t) (ccands g t))).

Definition cstep (g : gcst N) (t : nat) : gcst N :=
  let '(choice, best) := cchoose g t in
  let '(now, pend') := pop delay (gcpending N g ++ [clow g t best]) in
  {| gcopt := gcopt N g ++ [best]; gcastart := gcastart N g ++ [choice];
     gcstarts := ckeep M (cstarts1 m (gcstarts N g) t) t now; gcpending := pend' |}.

Definition crun (n : nat) : gcst N := fold_left cstep (seq 0 n) (gcinit N).

Definition ccapa (n : nat) : list V * list (nat * nat) * list (nat * nat) :=
  let g := crun n in
  let '(c, p) := get_anoms n (gcastart N g) n in (tl (gcopt N g), c, p).

Lemma crun_S n : crun (S n) = cstep (crun n) n.
Proof. unfold crun. rewrite seq_S, fold_left_app. reflexivity. Qed.

Lemma gcopt_cstep g t : gcopt N (cstep g t) = gcopt N g ++ [snd (cchoose g t)].
Proof.
  unfold cstep. destruct (cchoose g t) as [choice best].
  destruct (pop delay (gcpending N g ++ [clow g t best])). reflexivity.
Qed.

Lemma ccands_nth g t i : i < length (cstarts1 m (gcstarts N g) t) ->
  nthv (ccands g t) i =
  Vc (nthN (cstarts1 m (gcstarts N g) t) i) (S t)
     (nthv (gcopt N g) (nthN (cstarts1 m (gcstarts N g) t) i)).
Proof.
  intros Hi. unfold ccands, nthV, nthN.
  rewrite (nth_indep _ (zero N) (Vc 0 (S t) (nthv (gcopt N g) 0)))
    by (rewrite map_length; exact Hi).
  apply (map_nth (fun a => Vc a (S t) (nthv (gcopt N g) a))).
Qed.

(** whatever the comparisons answer, the stored value is the option the recorded
    back-pointer names *)
Lemma cchoose_ptr g t choice best : cchoose g t = (choice, best) ->
  match choice with
  | None => best = nthv (gcopt N g) t
  | Some a => (a = t /\ best = Vp t (nthv (gcopt N g) t)) \/
              (exists i, i < length (cstarts1 m (gcstarts N g) t) /\
                         a = nthN (cstarts1 m (gcstarts N g) t) i /\
                         best = nthv (ccands g t) i)
  end.
Proof.
  unfold cchoose. cbv zeta.
  destruct (gargmax N (ccands g t)) as [[i oc]|] eqn:E.
  - apply gargmax_nthV in E as [Hi Hv]. unfold ccands in Hi. rewrite map_length in Hi.
    destruct (ltb N _ oc).
    + destruct (ltb N oc _); intros E'; inversion E'; subst choice best.
      * now left.
      * right. exists i. auto.
    + destruct (ltb N _ _); intros E'; inversion E'; subst choice best.
      * now left.
      * reflexivity.
  - destruct (ltb N _ _); intros E'; inversion E'; subst choice best.
    + now left.
    + reflexivity.
Qed.

Lemma clow_filter g t best :
  clow g t best =
  filter (fun a => ltb N (Wk a (S t) (Vc a (S t) (nthv (gcopt N g) a))) best)
         (cstarts1 m (gcstarts N g) t).
Proof.
  exact (filter_combine_map (fun a => Vc a (S t) (nthv (gcopt N g) a))
           (fun ac0 => ltb N (Wk (fst ac0) (S t) (snd ac0)) best) _).
Qed.

Lemma in_clow g t best a : In a (clow g t best) ->
  In a (cstarts1 m (gcstarts N g) t) /\
  ltb N (Wk a (S t) (Vc a (S t) (nthv (gcopt N g) a))) best = true.
Proof using. rewrite clow_filter. apply filter_In. Qed.

Lemma crun_len_opt n : length (gcopt N (crun n)) = S n.
Proof.
  induction n as [|n IH]; [reflexivity|].
  rewrite crun_S, gcopt_cstep, app_length, IH. cbn [length]. lia.
Qed.

(** every start kept for the next end is at least [m] below it *)
Lemma crun_starts n a : In a (gcstarts N (crun n)) -> a + m <= n.
Proof.
  revert a. induction n as [|n IH]; intros a; [intros []|].
  rewrite crun_S. unfold cstep. destruct (cchoose (crun n) n) as [choice best].
  destruct (pop delay (gcpending N (crun n) ++ [clow (crun n) n best])) as [now pend'].
  cbn [gcstarts]. intros Ha. apply filter_In in Ha as [Ha _].
  exact (cstarts1_le m _ n a IH Ha).
Qed.

(** the stored values: [cG i] is opt[i], read in the run of length [i]; every longer run
    has the same value at index [i] (the table only grows by appending) *)
Definition cG (i : nat) : V := nthv (gcopt N (crun i)) i.

Lemma crun_opt_nth n : forall i, i <= n -> nthv (gcopt N (crun n)) i = cG i.
Proof.
  induction n as [|n IH]; intros i Hi.
  - replace i with 0 by lia. reflexivity.
  - destruct (Nat.eq_dec i (S n)) as [->|Hne]; [reflexivity|].
    rewrite crun_S, gcopt_cstep. unfold nthV.
    rewrite app_nth1 by (rewrite crun_len_opt; lia).
    apply IH. lia.
Qed.

Lemma cG_0 : cG 0 = zero N.
Proof. reflexivity. Qed.

Lemma cG_S t : cG (S t) = snd (cchoose (crun t) t).
Proof.
  unfold cG. rewrite crun_S, gcopt_cstep. unfold nthV.
  rewrite app_nth2, crun_len_opt, Nat.sub_diag by (rewrite crun_len_opt; lia).
  reflexivity.
Qed.

Lemma ccapa_eq n scores c p : ccapa n = (scores, c, p) ->
  scores = tl (gcopt N (crun n)) /\ get_anoms n (gcastart N (crun n)) n = (c, p).
Proof.
  unfold ccapa. cbv zeta. destruct (get_anoms n (gcastart N (crun n)) n) as [c' p'].
  intros H. inversion H; subst. auto.
Qed.

Lemma ccapa_predict_chain n scores c p : ccapa n = (scores, c, p) ->
  capa_predict false c p = chain n (gcastart N (crun n)) n.
Proof.
  intros Hc. apply ccapa_eq in Hc as [_ Hg].
  apply get_anoms_chain in Hg as (H1 & _ & _). exact H1.
Qed.

(** the reported score at index t is the stored value opt[t+1] *)
Lemma cscores_nth n scores c p t : ccapa n = (scores, c, p) -> t < n ->
  nthv scores t = cG (S t).
Proof.
  intros Hc Ht. apply ccapa_eq in Hc as [-> _].
  rewrite <- (crun_opt_nth n (S t)) by lia.
  pose proof (crun_len_opt n) as Hl.
  destruct (gcopt N (crun n)); [discriminate|reflexivity].
Qed.

Theorem ccapa_scores_length n scores c p : ccapa n = (scores, c, p) -> length scores = n.
Proof.
  intros Hc. apply ccapa_eq in Hc as [-> _].
  pose proof (crun_len_opt n) as Hl.
  destruct (gcopt N (crun n)); cbn [length tl] in *; lia.
Qed.

Theorem ccapa_ignore_points n scores c p : ccapa n = (scores, c, p) ->
  capa_predict true c p = filter (fun se => negb (is_point se)) (capa_predict false c p).
Proof.
  intros Hc. apply ccapa_eq in Hc as [_ Hg]. now apply predict_ignore_points in Hg.
Qed.

(** every reported interval lies inside [0, n) and is non-empty *)
Theorem ccapa_intervals_in_range n scores c p : ccapa n = (scores, c, p) ->
  forall se, In se (capa_predict false c p) -> fst se < snd se /\ snd se <= n.
Proof.
  intros Hc se Hse. apply ccapa_eq in Hc as [_ Hg].
  apply get_anoms_chain in Hg as (_ & _ & H3).
  unfold capa_predict in Hse. apply (proj1 (in_sort_pairs _ _)) in Hse. exact (H3 se Hse).
Qed.

Hypothesis Hm2 : 2 <= m.
Hypothesis HmM : m <= M.

(** structural invariant after T iterations: every back-pointer records which COMPUTED
    option the stored value is *)
Definition cas_ok (o : list V) (i : nat) (ch : option nat) : Prop :=
  match ch with
  | None => nthv o (S i) = nthv o i
  | Some a => (a = i /\ nthv o (S i) = Vp i (nthv o i)) \/
              (a + m <= S i /\ S i <= a + M /\ nthv o (S i) = Vc a (S i) (nthv o a))
  end.

Record CLInv (T : nat) (g : gcst N) : Prop := {
  c_len_opt : length (gcopt N g) = S T;
  c_len_as : length (gcastart N g) = T;
  c_opt0 : nthv (gcopt N g) 0 = zero N;
  c_as : forall i, i < T -> cas_ok (gcopt N g) i (nth i (gcastart N g) None);
  c_starts : forall a, In a (gcstarts N g) -> a + m <= T /\ S T <= a + M }.

Lemma cas_ok_ext o o' i ch :
  (forall j, j <= S i -> nthv o' j = nthv o j) -> cas_ok o i ch -> cas_ok o' i ch.
Proof.
  intros H. unfold cas_ok. destruct ch as [a|].
  - intros [[-> E]|(H1 & H2 & E)].
    + left. split; [reflexivity|]. rewrite !H by lia. exact E.
    + right. split; [exact H1|]. split; [exact H2|]. rewrite !H by lia. exact E.
  - intros E. rewrite !H by lia. exact E.
Qed.

Lemma cas_ok_ptr o i ch : cas_ok o i ch -> ptr_ok m M i ch.
Proof. destruct ch as [a|]; cbn; tauto. Qed.

Lemma CLInv_starts1 t g : CLInv t g ->
  forall a, In a (cstarts1 m (gcstarts N g) t) -> a + m <= S t /\ S t <= a + M.
Proof using HmM. intros W. apply cstarts1_range; [exact HmM|apply (c_starts _ _ W)]. Qed.

Lemma gcinit_CLInv : CLInv 0 (gcinit N).
Proof.
  constructor; cbn [gcinit gcopt gcastart gcstarts length]; try reflexivity.
  - intros i Hi. lia.
  - intros a [].
Qed.

Lemma cstep_CLInv t g : CLInv t g -> CLInv (S t) (cstep g t).
Proof using Hm2 HmM.
  intros W. pose proof W as [Hlo Hla H0 Has Hst].
  unfold cstep. destruct (cchoose g t) as [choice best] eqn:Ech.
  destruct (pop delay (gcpending N g ++ [clow g t best])) as [now pend'].
  apply cchoose_ptr in Ech.
  assert (Hold : forall j, j <= t -> nthv (gcopt N g ++ [best]) j = nthv (gcopt N g) j)
    by (intros j Hj; unfold nthV; apply app_nth1; lia).
  assert (Hnew : nthv (gcopt N g ++ [best]) (S t) = best)
    by (unfold nthV; rewrite app_nth2, Hlo, Nat.sub_diag by lia; reflexivity).
  constructor; cbn [gcopt gcastart gcstarts gcpending].
  - rewrite app_length, Hlo. cbn [length]. lia.
  - rewrite app_length, Hla. cbn [length]. lia.
  - rewrite Hold by lia. exact H0.
  - intros i Hi. destruct (Nat.eq_dec i t) as [->|Hne].
    + rewrite app_nth2 by lia. rewrite Hla, Nat.sub_diag. cbn [nth].
      unfold cas_ok. rewrite Hnew, !Hold by lia. destruct choice as [a|]; [|exact Ech].
      destruct Ech as [[-> E]|(i0 & Hi0 & Ea & E)]; [now left|right].
      destruct (CLInv_starts1 t g W a) as [R1 R2]; [subst a; now apply nth_In|].
      rewrite Hold by lia. rewrite E, (ccands_nth g t i0 Hi0), <- Ea. auto.
    + rewrite app_nth1 by lia. apply cas_ok_ext with (o := gcopt N g).
      * intros j Hj. apply Hold. lia.
      * apply Has. lia.
  - apply ckeep_range, (CLInv_starts1 t g W).
Qed.

Lemma crun_CLInv n : CLInv n (crun n).
Proof using Hm2 HmM.
  induction n as [|n IH]; [exact gcinit_CLInv|]. rewrite crun_S. now apply cstep_CLInv.
Qed.

(** the back-pointers of a run, read against the stored values *)
Lemma crun_as n i : i < n ->
  match nth i (gcastart N (crun n)) None with
  | None => cG (S i) = cG i
  | Some a => (a = i /\ cG (S i) = Vp i (cG i)) \/
              (a + m <= S i /\ S i <= a + M /\ cG (S i) = Vc a (S i) (cG a))
  end.
Proof using Hm2 HmM.
  intros Hi. pose proof (c_as _ _ (crun_CLInv n) i Hi) as H. unfold cas_ok in H.
  destruct (nth i (gcastart N (crun n)) None) as [a|].
  - destruct H as [[-> E]|(H1 & H2 & E)]; rewrite !crun_opt_nth in E by lia; auto.
  - now rewrite !crun_opt_nth in H by lia.
Qed.

Lemma crun_ptr n i : i < n -> ptr_ok m M i (nth i (gcastart N (crun n)) None).
Proof using Hm2 HmM. intros Hi. exact (cas_ok_ptr _ _ _ (c_as _ _ (crun_CLInv n) i Hi)). Qed.

(** the reported anomalies are a valid anomaly set, WHATEVER the arithmetic does *)
Theorem ccapa_valid n scores c p : ccapa n = (scores, c, p) ->
  Valid m M (map to_anom (capa_predict false c p)) n.
Proof.
  intros Hc. rewrite (ccapa_predict_chain n scores c p Hc).
  apply (chain_valid_from m M Hm2 _ n); [intros i; apply crun_ptr|lia|lia].
Qed.

(** a functional that follows the computed options takes, on the chain from [e], the stored
    value [cG e] *)
Lemma crun_chain_value (val : list anom -> V) :
  val [] = zero N ->
  (forall l i, val (l ++ [Pt i]) = Vp i (val l)) ->
  (forall l a e, val (l ++ [Coll a e]) = Vc a e (val l)) ->
  forall n fuel e, e <= fuel -> e <= n ->
  val (map to_anom (chain fuel (gcastart N (crun n)) e)) = cG e.
Proof.
  intros H0 Hpt Hcoll n.
  apply (chain_value m Hm2 _ n V val Vp Vc Hpt Hcoll cG H0).
  intros i Hi. pose proof (crun_as n i Hi) as H.
  destruct (nth i (gcastart N (crun n)) None); tauto.
Qed.

(** with a reflexive transitive order that [ltb] decides *)
Section Ordered.
Variable le : V -> V -> Prop.
Hypothesis le_refl : forall x, le x x.
Hypothesis le_trans : forall x y z, le x y -> le y z -> le x z.
Hypothesis ltb_true_le : forall x y, ltb N x y = true -> le x y.
Hypothesis ltb_false_le : forall x y, ltb N x y = false -> le y x.

Lemma gargmax_from_le_max l : forall bi b i j v,
  gargmax_from N bi b i l = (j, v) -> le b v /\ forall x, In x l -> le x v.
Proof.
  induction l as [|x t IH]; intros bi b i j v H; cbn [gargmax_from] in H.
  - inversion H; subst. split; [apply le_refl|intros ? []].
  - destruct (ltb N b x) eqn:E; apply IH in H as [H1 H2].
    + apply ltb_true_le in E. split; [eauto|]. intros y [<-|Hy]; auto.
    + apply ltb_false_le in E. split; [exact H1|]. intros y [<-|Hy]; eauto.
Qed.

Lemma gargmax_le_max l i v : gargmax N l = Some (i, v) -> forall x, In x l -> le x v.
Proof.
  destruct l as [|x t]; cbn [gargmax]; [discriminate|].
  intros H. inversion H as [H']. apply gargmax_from_le_max in H' as [H1 H2].
  intros y [<-|Hy]; auto.
Qed.

(** the stored value dominates every option it was chosen from *)
Lemma cchoose_max g t :
  le (nthv (gcopt N g) t) (snd (cchoose g t)) /\
  le (Vp t (nthv (gcopt N g) t)) (snd (cchoose g t)) /\
  forall x, In x (ccands g t) -> le x (snd (cchoose g t)).
Proof.
  unfold cchoose. cbv zeta.
  set (ot := nthv (gcopt N g) t). set (optp := Vp t ot).
  destruct (gargmax N (ccands g t)) as [[i oc]|] eqn:E.
  - pose proof (gargmax_le_max _ _ _ E) as Hmax.
    destruct (ltb N ot oc) eqn:E1; [apply ltb_true_le in E1|apply ltb_false_le in E1].
    + destruct (ltb N oc optp) eqn:E2; [apply ltb_true_le in E2|apply ltb_false_le in E2];
        cbn [snd]; eauto 6.
    + destruct (ltb N ot optp) eqn:E2; [apply ltb_true_le in E2|apply ltb_false_le in E2];
        cbn [snd]; eauto 6.
  - destruct (ccands g t); [|discriminate].
    destruct (ltb N ot optp) eqn:E2; [apply ltb_true_le in E2|apply ltb_false_le in E2];
      cbn [snd]; (split; [auto|]; split; [auto|intros ? []]).
Qed.

(** the stored values are non-decreasing (the "no anomaly" option is not rounded) *)
Lemma cG_mono t : le (cG t) (cG (S t)).
Proof using le_refl le_trans ltb_true_le ltb_false_le.
  rewrite cG_S, <- (crun_opt_nth t t (le_n t)). exact (proj1 (cchoose_max _ _)).
Qed.
End Ordered.

End Loop.

(** the loop commutes with a map [phi] of one number type into another that preserves the
    comparisons on a set [ok] of numbers and, at each iteration, the arithmetic steps at the
    values the iteration computes, all of them in [ok] ([step_ok]) *)
Section Morphism.
Variables N N' : num.
Variable phi : T N -> T N'.
Variable ok : T N -> Prop.
Hypothesis phi_zero : phi (zero N) = zero N'.
Hypothesis phi_ltb : forall x y, ok x -> ok y -> ltb N' (phi x) (phi y) = ltb N x y.
Variables (Vc : nat -> nat -> T N -> T N) (Vc' : nat -> nat -> T N' -> T N').
Variables (Vp : nat -> T N -> T N) (Vp' : nat -> T N' -> T N').
Variables (Wk : nat -> nat -> T N -> T N) (Wk' : nat -> nat -> T N' -> T N').
Variables m M delay : nat.

Definition gcmap (g : gcst N) : gcst N' :=
  {| gcopt := map phi (gcopt N g); gcastart := gcastart N g;
     gcstarts := gcstarts N g; gcpending := gcpending N g |}.

Definition step_ok (g : gcst N) (t : nat) : Prop :=
  let o := nthV N (gcopt N g) in
  ok (o t) /\ ok (Vp t (o t)) /\ Vp' t (phi (o t)) = phi (Vp t (o t)) /\
  forall a, In a (cstarts1 m (gcstarts N g) t) ->
    let c := Vc a (S t) (o a) in
    ok c /\ Vc' a (S t) (phi (o a)) = phi c /\
    ok (Wk a (S t) c) /\ Wk' a (S t) (phi c) = phi (Wk a (S t) c).

Lemma step_ok_all :
  (forall x, ok x) -> (forall a T g, Vc' a T (phi g) = phi (Vc a T g)) ->
  (forall t g, Vp' t (phi g) = phi (Vp t g)) -> (forall a T c, Wk' a T (phi c) = phi (Wk a T c)) ->
  forall g t, step_ok g t.
Proof. intros Hok HVc HVp HWk g t. repeat split; auto. Qed.

Lemma nthV_map l i : nthV N' (map phi l) i = phi (nthV N l i).
Proof. unfold nthV. rewrite <- phi_zero. apply map_nth. Qed.

Lemma gargmax_from_map l : forall bi b i, ok b -> Forall ok l ->
  gargmax_from N' bi (phi b) i (map phi l) =
  (fst (gargmax_from N bi b i l), phi (snd (gargmax_from N bi b i l))) /\
  ok (snd (gargmax_from N bi b i l)).
Proof.
  induction l as [|x t IH]; intros bi b i Hb Hl; cbn [map gargmax_from]; [now split|].
  inversion Hl as [|? ? Hx Ht]; subst. rewrite (phi_ltb _ _ Hb Hx).
  destruct (ltb N b x); now apply IH.
Qed.

Lemma gargmax_map l : Forall ok l ->
  gargmax N' (map phi l) = option_map (fun jv => (fst jv, phi (snd jv))) (gargmax N l) /\
  forall i v, gargmax N l = Some (i, v) -> ok v.
Proof.
  destruct l as [|x t]; cbn [map gargmax option_map]; intros Hl; [now split|].
  inversion Hl as [|? ? Hx Ht]; subst.
  destruct (gargmax_from_map t 0 x 1 Hx Ht) as [E F]. rewrite E. split; [reflexivity|].
  intros i v H. inversion H as [H']. now rewrite H' in F.
Qed.

Lemma cstep_map g t : step_ok g t ->
  cstep N' Vc' Vp' Wk' m M delay (gcmap g) t = gcmap (cstep N Vc Vp Wk m M delay g t).
Proof.
  intros (Hot & Hop & Ep & Hc). cbv zeta in Hc.
  assert (Ec : ccands N' Vc' m (gcmap g) t = map phi (ccands N Vc m g t)).
  { unfold ccands. cbn [gcmap gcopt gcstarts]. rewrite map_map. apply map_ext_in.
    intros a Ha. rewrite nthV_map. apply (Hc a Ha). }
  assert (Hcok : Forall ok (ccands N Vc m g t)).
  { apply Forall_forall. intros x Hx. apply in_map_iff in Hx as (a & <- & Ha). apply (Hc a Ha). }
  assert (Hch : cchoose N' Vc' Vp' m (gcmap g) t
                = (fst (cchoose N Vc Vp m g t), phi (snd (cchoose N Vc Vp m g t)))
                /\ ok (snd (cchoose N Vc Vp m g t))).
  { unfold cchoose. cbv zeta. rewrite Ec. destruct (gargmax_map _ Hcok) as [-> Hv].
    cbn [gcmap gcopt gcstarts]. rewrite nthV_map, Ep.
    set (ot := nthV N (gcopt N g) t) in *. set (optp := Vp t ot) in *.
    rewrite (phi_ltb _ _ Hot Hop).
    destruct (gargmax N (ccands N Vc m g t)) as [[i oc]|]; cbn [option_map fst snd].
    - pose proof (Hv i oc eq_refl) as Hoc.
      rewrite (phi_ltb _ _ Hot Hoc), (phi_ltb _ _ Hoc Hop).
      destruct (ltb N ot oc), (ltb N oc optp), (ltb N ot optp); now split.
    - destruct (ltb N ot optp); now split. }
  destruct Hch as [Ech Hbest].
  unfold cstep. rewrite Ech. destruct (cchoose N Vc Vp m g t) as [choice best]. cbn [fst snd] in *.
  assert (El : clow N' Vc' Wk' m (gcmap g) t (phi best) = clow N Vc Wk m g t best).
  { rewrite !clow_filter. cbn [gcmap gcopt gcstarts]. apply filter_ext_in. intros a Ha.
    destruct (Hc a Ha) as (H1 & H2 & H3 & H4). rewrite nthV_map, H2, H4. now apply phi_ltb. }
  rewrite El. cbn [gcmap gcpending].
  destruct (pop delay (gcpending N g ++ _)) as [now pend'].
  unfold gcmap. cbn [gcopt gcastart gcstarts gcpending]. now rewrite map_app.
Qed.

Lemma crun_map n : (forall t, t < n -> step_ok (crun N Vc Vp Wk m M delay t) t) ->
  crun N' Vc' Vp' Wk' m M delay n = gcmap (crun N Vc Vp Wk m M delay n).
Proof.
  induction n as [|n IH]; intros H.
  - unfold crun, gcmap, gcinit. cbn. now rewrite phi_zero.
  - rewrite !crun_S, IH by (intros t Ht; apply H; lia). apply cstep_map, H. lia.
Qed.

Lemma ccapa_map n : (forall t, t < n -> step_ok (crun N Vc Vp Wk m M delay t) t) ->
  ccapa N' Vc' Vp' Wk' m M delay n =
  let '(scores, c, p) := ccapa N Vc Vp Wk m M delay n in (map phi scores, c, p).
Proof.
  intros H. unfold ccapa. cbv zeta. rewrite (crun_map n H). cbn [gcmap gcopt gcastart].
  destruct (get_anoms n (gcastart N (crun N Vc Vp Wk m M delay n)) n) as [c p].
  f_equal. f_equal. now destruct (gcopt N (crun N Vc Vp Wk m M delay n)).
Qed.
End Morphism.
