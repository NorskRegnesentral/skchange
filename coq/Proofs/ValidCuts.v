(** Restricted extensionality: the detector models depend on the score functions only
    through their values at VALID cuts.

    The implementation obtains every score by calling [scorer.evaluate(cuts)], which raises
    when a cut is not increasing with the scorer's minimum spacing or leaves [0, n]
    (Model/Cuts.v, [row_ok]).  A Gallina function cannot observe which arguments of a
    function argument were inspected, so "only valid cuts are queried" is stated as:
    two score functions that agree on all valid cuts give the same detector output.
    Hence the values at invalid cuts are never used.

    First the cuts named in the hypotheses are shown to be accepted by [row_ok]; then one theorem per
    detector (the CAPA one is proved here, by an invariant of its fold; the others are instances of
    Proofs/GenericOrder.v and Proofs/GenericValidCuts.v); examples at the end show that the
    hypotheses can be met and that the values at invalid cuts can differ. *)
From Coq Require Import ZArith List Lia Bool.
From SK Require Import Lib.Base Model.Cuts Model.Pelt Model.Mw Model.Sbs Model.Capa Model.Cbs.
From SK Require Import Model.Generic Proofs.GenericZ Proofs.GenericOrder Proofs.GenericValidCuts Proofs.CbsProofs.
Import ListNotations.
Open Scope Z_scope.

(** * The cuts of the hypotheses are accepted by the validation model *)

Ltac solve_row_ok :=
  cbn [row_ok diffs forallb in_bounds nthZ nth];
  repeat (apply andb_true_iff; split); try reflexivity; apply Z.leb_le; lia.

(** costs and savings: an interval [s, e) of length >= m inside [0, n] *)
Lemma plain2_cut_ok : forall ms m s e n,
  ms <= Z.of_nat m -> (s + m <= e)%nat -> (e <= n)%nat -> (1 <= m)%nat ->
  row_ok (Plain 2 ms) (Z.of_nat n) [Z.of_nat s; Z.of_nat e] = true.
Proof. intros ms m s e n Hms Hse Hen Hm. solve_row_ok. Qed.

(** change scores: (s, k, e) with both sides of the split of length >= m *)
Lemma plain3_cut_ok : forall ms m s k e n,
  ms <= Z.of_nat m -> (s + m <= k)%nat -> (k + m <= e)%nat -> (e <= n)%nat -> (1 <= m)%nat ->
  row_ok (Plain 3 ms) (Z.of_nat n) [Z.of_nat s; Z.of_nat k; Z.of_nat e] = true.
Proof. intros ms m s k e n Hms Hsk Hke Hen Hm. solve_row_ok. Qed.

(** the moving-window cut (t - b, t, t + b) *)
Lemma mw_cut_ok : forall ms b t n,
  ms <= Z.of_nat b -> (b <= t)%nat -> (t + b <= n)%nat -> (1 <= b)%nat ->
  row_ok (Plain 3 ms) (Z.of_nat n) [Z.of_nat (t - b); Z.of_nat t; Z.of_nat (t + b)] = true.
Proof. intros ms b t n Hms Hbt Htn Hb. solve_row_ok. Qed.

(** local anomaly scores: (s, a, z, e), inner part [a, z) of length >= m, surroundings
    non-empty on both sides and of total length >= m *)
Lemma local_cut_ok : forall ms m s a z e n,
  ms <= Z.of_nat m -> (s < a)%nat -> (a + m <= z)%nat -> (z < e)%nat ->
  (m <= (a - s) + (e - z))%nat -> (e <= n)%nat -> (1 <= m)%nat ->
  row_ok (Local ms) (Z.of_nat n) [Z.of_nat s; Z.of_nat a; Z.of_nat z; Z.of_nat e] = true.
Proof. intros ms m s a z e n Hms Hsa Haz Hze Hsur Hen Hm. solve_row_ok. Qed.

(** the first of them through the batch interface [evaluate]: a batch made of such rows is scored
    (no ValueError) *)
Lemma evaluate_plain2_ok : forall {A} (score : list Z -> A) ms m n (ivs : list (nat * nat)),
  ms <= Z.of_nat m -> (1 <= m)%nat ->
  (forall s e, In (s, e) ivs -> (s + m <= e)%nat /\ (e <= n)%nat) ->
  evaluate score (Plain 2 ms) (Z.of_nat n)
           (IntRows 2 (map (fun se => [Z.of_nat (fst se); Z.of_nat (snd se)]) ivs))
  = Some (map score (map (fun se => [Z.of_nat (fst se); Z.of_nat (snd se)]) ivs)).
Proof.
  intros A score ms m n ivs Hms Hm Hiv. cbn [evaluate width_of Nat.eqb andb].
  replace (forallb (row_ok (Plain 2 ms) (Z.of_nat n))
             (map (fun se => [Z.of_nat (fst se); Z.of_nat (snd se)]) ivs)) with true; [reflexivity|].
  symmetry. apply forallb_forall. intros r Hr. apply in_map_iff in Hr as ([s e] & <- & Hin).
  cbn [fst snd]. destruct (Hiv s e Hin) as [H1 H2]. now apply (plain2_cut_ok ms m).
Qed.

(** * Moving window *)

Theorem mw_ext_valid : forall CS1 CS2 b n thr mdi,
  (forall t, (b <= t)%nat -> (t + b <= n)%nat ->
     CS1 (t - b)%nat t (t + b)%nat = CS2 (t - b)%nat t (t + b)%nat) ->
  mw CS1 b n thr mdi = mw CS2 b n thr mdi.
Proof.
  intros CS1 CS2 b n thr mdi H. rewrite <- (gmw_Z CS1), <- (gmw_Z CS2).
  exact (G08_only_valid_cuts_matter Zn CS1 CS2 b n thr mdi H).
Qed.

(** * Seeded binary segmentation *)

Theorem sbs_ext_valid : forall CS1 CS2 m thr ivs,
  (forall s e k, In (s, e) ivs -> (s + m <= k)%nat -> (k + m <= e)%nat -> CS1 s k e = CS2 s k e) ->
  sbs CS1 m thr ivs = sbs CS2 m thr ivs.
Proof.
  intros CS1 CS2 m thr ivs H. rewrite <- (gsbs_Z CS1), <- (gsbs_Z CS2).
  exact (G07_only_valid_cuts_matter Zn CS1 CS2 m thr ivs H).
Qed.

(** * Circular binary segmentation *)

Theorem cbs_ext_valid : forall LS1 LS2 m thr ivs,
  (forall s e a z, In (s, e) ivs -> In (a, z) (anomaly_intervals s e m) ->
     LS1 s a z e = LS2 s a z e) ->
  cbs LS1 m thr ivs = cbs LS2 m thr ivs.
Proof.
  intros LS1 LS2 m thr ivs H. rewrite <- (gcbs_Z LS1), <- (gcbs_Z LS2).
  exact (G09_only_valid_cuts_matter Zn LS1 LS2 m thr ivs H).
Qed.

(** the candidate inner intervals are valid local cuts (restating
    [anomaly_intervals_spec]) *)
Corollary anomaly_intervals_valid : forall s e m a z,
  In (a, z) (anomaly_intervals s e m) ->
  (s < a)%nat /\ (a + m <= z)%nat /\ (z < e)%nat /\ (m <= (a - s) + (e - z))%nat.
Proof. intros s e m a z H. apply anomaly_intervals_spec in H. lia. Qed.

(** ... and every one of them is accepted by the local-score validation *)
Corollary anomaly_intervals_cut_ok : forall ms m s e n a z,
  ms <= Z.of_nat m -> (1 <= m)%nat -> (e <= n)%nat ->
  In (a, z) (anomaly_intervals s e m) ->
  row_ok (Local ms) (Z.of_nat n) [Z.of_nat s; Z.of_nat a; Z.of_nat z; Z.of_nat e] = true.
Proof.
  intros ms m s e n a z Hms Hm Hen H. apply anomaly_intervals_valid in H as (H1 & H2 & H3 & H4).
  now apply (local_cut_ok ms m).
Qed.

(** the arithmetic form of [cbs_ext_valid] *)
Theorem cbs_ext_valid_arith : forall LS1 LS2 m thr ivs,
  (forall s e a z, In (s, e) ivs ->
     (s < a)%nat -> (a + m <= z)%nat -> (z < e)%nat -> (m <= (a - s) + (e - z))%nat ->
     LS1 s a z e = LS2 s a z e) ->
  cbs LS1 m thr ivs = cbs LS2 m thr ivs.
Proof.
  intros LS1 LS2 m thr ivs H. apply cbs_ext_valid. intros s e a z Hin Haz.
  apply anomaly_intervals_valid in Haz as (H1 & H2 & H3 & H4). now apply H.
Qed.

(** * PELT *)

(** any pruning delay; [2m - 1 <= n] is enough (for [n = 2m - 1] the loop is empty and
    only the initial block [C 0 e], m <= e <= 2m - 1, is read) *)
Theorem pelt_ext_valid_delay : forall C1 C2 pen m delay n,
  (1 <= m)%nat -> (2 * m - 1 <= n)%nat ->
  (forall s e, (s + m <= e)%nat -> (e <= n)%nat -> C1 s e = C2 s e) ->
  pelt C1 pen m delay n = pelt C2 pen m delay n.
Proof.
  intros C1 C2 pen m delay n Hm Hn H. rewrite <- (gpelt_Z C1), <- (gpelt_Z C2).
  exact (gpelt_ext_valid Zn C1 C2 pen m delay n Hm Hn H).
Qed.

Theorem pelt_ext_valid : forall C1 C2 pen m n,
  (1 <= m)%nat -> (2 * m <= n)%nat ->
  (forall s e, (s + m <= e)%nat -> (e <= n)%nat -> C1 s e = C2 s e) ->
  pelt C1 pen m (m - 1) n = pelt C2 pen m (m - 1) n.
Proof.
  intros C1 C2 pen m n Hm Hn H. apply pelt_ext_valid_delay; [exact Hm|lia|exact H].
Qed.

(** * CAPA *)

Section CapaValid.
Variables (Sc1 Sc2 : nat -> nat -> list Z) (Sp1 Sp2 : nat -> list Z).
Variables (ac : Z) (bc : list Z) (ap : Z) (bp : list Z) (m M delay n : nat).
(** collective savings: intervals of length >= m inside [0, n]; when the configuration is
    consistent (m <= M) also of length <= M *)
Hypothesis HSc : forall s e, (s + m <= e)%nat -> (e <= n)%nat -> ((m <= M)%nat -> (e <= s + M)%nat) ->
  Sc1 s e = Sc2 s e.
Hypothesis HSp : forall t, (t < n)%nat -> Sp1 t = Sp2 t.

(** state before the iteration for time index [t] (prefix end t + 1) *)
Definition CInv (t : nat) (s : Capa.st) : Prop :=
  forall a, In a (Capa.starts s) -> (a + m <= t)%nat /\ ((m <= M)%nat -> (S t <= a + M)%nat).

Definition capa_starts1 (s : Capa.st) (t : nat) : list nat :=
  if (m <=? S t)%nat then Capa.starts s ++ [S t - m]%nat else Capa.starts s.

Lemma capa_starts1_valid : forall t s, CInv t s ->
  forall a, In a (capa_starts1 s t) -> (a + m <= S t)%nat /\ ((m <= M)%nat -> (S t <= a + M)%nat).
Proof.
  intros t s HP a Ha. unfold capa_starts1 in Ha.
  destruct (m <=? S t)%nat eqn:E.
  - apply Nat.leb_le in E. apply in_app_or in Ha as [Ha|[<-|[]]].
    + destruct (HP a Ha) as [H1 H2]. split; [lia|exact H2].
    + split; lia.
  - destruct (HP a Ha) as [H1 H2]. split; [lia|exact H2].
Qed.

Lemma capa_step_starts : forall Sc Sp s t a,
  In a (Capa.starts (Capa.step Sc Sp ac bc ap bp m M delay s t)) ->
  In a (capa_starts1 s t) /\ (S t + 1 <= a + M)%nat.
Proof.
  intros Sc Sp s t a. unfold Capa.step. cbv zeta. fold (capa_starts1 s t).
  destruct (argmax _) as [[i oc]|].
  - destruct (_ <? oc); destruct (_ <? _); destruct (delay <? _)%nat; cbn [Capa.starts];
      intros H; apply filter_In in H as [H1 H2]; apply andb_true_iff in H2 as [_ H2];
      apply negb_true_iff, Nat.ltb_ge in H2; (split; [exact H1|lia]).
  - destruct (_ <? _); destruct (delay <? _)%nat; cbn [Capa.starts];
      intros H; apply filter_In in H as [H1 H2]; apply andb_true_iff in H2 as [_ H2];
      apply negb_true_iff, Nat.ltb_ge in H2; (split; [exact H1|lia]).
Qed.

Lemma capa_step_ext_valid : forall t s, (t < n)%nat -> CInv t s ->
  Capa.step Sc1 Sp1 ac bc ap bp m M delay s t = Capa.step Sc2 Sp2 ac bc ap bp m M delay s t /\
  CInv (S t) (Capa.step Sc1 Sp1 ac bc ap bp m M delay s t).
Proof.
  intros t s Ht HP. pose proof (capa_starts1_valid t s HP) as H1. split.
  - unfold Capa.step. cbv zeta. fold (capa_starts1 s t).
    assert (E : map (fun a => nthZ (Capa.opt s) a + Pc Sc1 ac bc a (S t)) (capa_starts1 s t)
              = map (fun a => nthZ (Capa.opt s) a + Pc Sc2 ac bc a (S t)) (capa_starts1 s t)).
    { apply map_ext_in. intros a Ha. destruct (H1 a Ha) as [Ha1 Ha2]. unfold Pc.
      rewrite HSc; [reflexivity|exact Ha1|lia|exact Ha2]. }
    assert (Ep : Pp Sp1 ap bp t = Pp Sp2 ap bp t) by (unfold Pp; rewrite HSp by exact Ht; reflexivity).
    rewrite E, Ep. reflexivity.
  - intros a Ha. apply capa_step_starts in Ha as [Ha Hk]. destruct (H1 a Ha) as [Ha1 _].
    split; [exact Ha1|intros _; lia].
Qed.

Lemma capa_run_ext_valid :
  Capa.run Sc1 Sp1 ac bc ap bp m M delay n = Capa.run Sc2 Sp2 ac bc ap bp m M delay n.
Proof.
  unfold Capa.run.
  apply (fold_left_seq_rel2 (fun t s1 s2 => s1 = s2 /\ CInv t s1) _ _ n 0%nat).
  - intros t s1 s2 _ Ht [<- HP]. apply capa_step_ext_valid; [lia|exact HP].
  - split; [reflexivity|]. intros a Ha. destruct Ha.
Qed.

Lemma capa_ext_valid_sec :
  capa Sc1 Sp1 ac bc ap bp m M delay n = capa Sc2 Sp2 ac bc ap bp m M delay n.
Proof. unfold capa. rewrite capa_run_ext_valid. reflexivity. Qed.
End CapaValid.

(** general form: no assumption on m, M; the length bound [e <= s + M] is available
    whenever the configuration is consistent (m <= M) *)
Theorem capa_ext_valid_gen : forall Sc1 Sc2 Sp1 Sp2 ac bc ap bp m M delay n,
  (forall s e, (s + m <= e)%nat -> (e <= n)%nat -> ((m <= M)%nat -> (e <= s + M)%nat) ->
     Sc1 s e = Sc2 s e) ->
  (forall t, (t < n)%nat -> Sp1 t = Sp2 t) ->
  capa Sc1 Sp1 ac bc ap bp m M delay n = capa Sc2 Sp2 ac bc ap bp m M delay n.
Proof.
  intros Sc1 Sc2 Sp1 Sp2 ac bc ap bp m M delay n HSc HSp.
  now apply capa_ext_valid_sec.
Qed.

Theorem capa_ext_valid : forall Sc1 Sc2 Sp1 Sp2 ac bc ap bp m M delay n,
  (1 <= m)%nat ->
  (forall s e, (s + m <= e)%nat -> (e <= n)%nat -> Sc1 s e = Sc2 s e) ->
  (forall t, (t < n)%nat -> Sp1 t = Sp2 t) ->
  capa Sc1 Sp1 ac bc ap bp m M delay n = capa Sc2 Sp2 ac bc ap bp m M delay n.
Proof.
  intros Sc1 Sc2 Sp1 Sp2 ac bc ap bp m M delay n _ HSc HSp.
  apply capa_ext_valid_gen; [|exact HSp]. intros s e H1 H2 _. now apply HSc.
Qed.

(** stronger: only segments of length between m and M matter *)
Theorem capa_ext_valid_maxlen : forall Sc1 Sc2 Sp1 Sp2 ac bc ap bp m M delay n,
  (1 <= m)%nat -> (m <= M)%nat ->
  (forall s e, (s + m <= e)%nat -> (e <= s + M)%nat -> (e <= n)%nat -> Sc1 s e = Sc2 s e) ->
  (forall t, (t < n)%nat -> Sp1 t = Sp2 t) ->
  capa Sc1 Sp1 ac bc ap bp m M delay n = capa Sc2 Sp2 ac bc ap bp m M delay n.
Proof.
  intros Sc1 Sc2 Sp1 Sp2 ac bc ap bp m M delay n _ HmM HSc HSp.
  apply capa_ext_valid_gen; [|exact HSp]. intros s e H1 H2 H3. apply HSc; [exact H1|now apply H3|exact H2].
Qed.

(** * Non-vacuity *)

(** squared-length toy cost with a bonus at position 6, against a version that
    returns 1000 on every cut that [evaluate] would reject *)
Definition ex_cost (s e : nat) : Z :=
  let d := Z.of_nat (e - s) in d * d + (if (s <=? 6)%nat && (6 <? e)%nat then 17 else 0).
Definition ex_cost_bad (m n : nat) (s e : nat) : Z :=
  if (e <? s + m)%nat || (n <? e)%nat then 1000 else ex_cost s e.

Example ex_cost_differs : ex_cost 3 4 <> ex_cost_bad 2 12 3 4.
Proof. vm_compute. discriminate. Qed.

Example pelt_invalid_cuts_unused :
  pelt ex_cost 5 2 1 12 = pelt (ex_cost_bad 2 12) 5 2 1 12.
Proof. vm_compute. reflexivity. Qed.

(** the same through the theorem *)
Example pelt_invalid_cuts_unused' :
  pelt ex_cost 5 2 (2 - 1) 12 = pelt (ex_cost_bad 2 12) 5 2 (2 - 1) 12.
Proof.
  apply pelt_ext_valid; [lia|lia|]. intros s e H1 H2. unfold ex_cost_bad.
  replace (e <? s + 2)%nat with false by (symmetry; apply Nat.ltb_ge; lia).
  replace (12 <? e)%nat with false by (symmetry; apply Nat.ltb_ge; lia). reflexivity.
Qed.

Definition ex_score (s k e : nat) : Z :=
  Z.of_nat ((k - s) * (e - k)) - (if (k =? 7)%nat then 0 else 3).
Definition ex_score_bad (m : nat) (s k e : nat) : Z :=
  if (k <? s + m)%nat || (e <? k + m)%nat then 1000 else ex_score s k e.
Definition ex_ivs : list (nat * nat) := seeded_intervals 12 4 [(4, 2); (8, 4); (12, 6)]%nat.

Example ex_score_differs : ex_score 0 1 4 <> ex_score_bad 2 0 1 4.
Proof. vm_compute. discriminate. Qed.

Example sbs_invalid_cuts_unused :
  sbs ex_score 2 4 ex_ivs = sbs (ex_score_bad 2) 2 4 ex_ivs /\ sbs ex_score 2 4 ex_ivs <> None.
Proof. vm_compute. split; [reflexivity|discriminate]. Qed.

Example mw_invalid_cuts_unused :
  mw ex_score 3 12 5 2 =
  mw (fun s k e => if (k <? 3)%nat || (12 <? k + 3)%nat then 1000 else ex_score s k e) 3 12 5 2.
Proof. vm_compute. reflexivity. Qed.

(** CAPA: savings that are huge on every interval shorter than m, longer than M or
    reaching beyond n, and point savings that are huge beyond n *)
Definition ex_sav (s e : nat) : list Z :=
  [Z.of_nat (e - s) * (if (4 <=? s)%nat && (e <=? 8)%nat then 3 else -1); 1].
Definition ex_sav_bad (m M n : nat) (s e : nat) : list Z :=
  if (e <? s + m)%nat || (s + M <? e)%nat || (n <? e)%nat then [1000; 1000] else ex_sav s e.
Definition ex_pt (t : nat) : list Z := [if (t =? 1)%nat then 9 else -2; 0].
Definition ex_pt_bad (n : nat) (t : nat) : list Z := if (n <=? t)%nat then [1000; 1000] else ex_pt t.

Example capa_invalid_cuts_unused :
  capa ex_sav ex_pt 2 [1; 1] 2 [1; 1] 2 5 1 12
  = capa (ex_sav_bad 2 5 12) (ex_pt_bad 12) 2 [1; 1] 2 [1; 1] 2 5 1 12
  /\ capa ex_sav ex_pt 2 [1; 1] 2 [1; 1] 2 5 1 12
     = ([0; 6; 6; 6; 6; 9; 12; 15; 15; 15; 15; 15], [(4, 8)%nat], [(1, 2)%nat]).
Proof. vm_compute. split; reflexivity. Qed.

(** the length condition of [pelt_ext_valid_delay] cannot be dropped: for n < 2m - 1 the
    initial block reads the cost of [0, 2m - 1), which reaches beyond n *)
Example pelt_short_series_reads_beyond_n :
  pelt (fun s e => 0) 1 2 1 2 <> pelt (fun s e => if (2 <? e)%nat then 1000 else 0) 1 2 1 2.
Proof. vm_compute. discriminate. Qed.

Print Assumptions plain2_cut_ok.
Print Assumptions plain3_cut_ok.
Print Assumptions mw_cut_ok.
Print Assumptions local_cut_ok.
Print Assumptions evaluate_plain2_ok.
Print Assumptions mw_ext_valid.
Print Assumptions sbs_ext_valid.
Print Assumptions cbs_ext_valid.
Print Assumptions anomaly_intervals_valid.
Print Assumptions anomaly_intervals_cut_ok.
Print Assumptions cbs_ext_valid_arith.
Print Assumptions pelt_ext_valid_delay.
Print Assumptions pelt_ext_valid.
Print Assumptions capa_ext_valid_gen.
Print Assumptions capa_ext_valid.
Print Assumptions capa_ext_valid_maxlen.
Print Assumptions pelt_invalid_cuts_unused.
Print Assumptions sbs_invalid_cuts_unused.
Print Assumptions capa_invalid_cuts_unused.
