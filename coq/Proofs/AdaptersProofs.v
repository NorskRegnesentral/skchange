(** Proofs about the adapter object-state model [Model/Adapters.v] (property C10, adapters that
    share their inner cost object): what evaluate returns after fit, after another object's fit
    of the shared cost and after set_params on it, for every heap and histories of any length;
    and soundness of the checker [Check/AdaptersCheck.v]. *)
From Coq Require Import List Arith Bool Lia.
Import ListNotations.
From SK Require Import Model.Adapters Check.AdaptersCheck Proofs.ListFacts Proofs.StateMachine.

(** * List helpers: [aupd] *)

Lemma nth_error_aupd :
  forall (A : Type) (l : list A) (i : nat) (v : A) (j : nat),
    nth_error (aupd l i v) j =
    option_map (fun x => if j =? i then v else x) (nth_error l j).
Proof. exact @nth_error_set_cell. Qed.

Lemma nth_error_aupd_same :
  forall (A : Type) (l : list A) (i : nat) (v x : A),
    nth_error l i = Some x -> nth_error (aupd l i v) i = Some v.
Proof. exact @nth_error_set_cell_same. Qed.

Lemma nth_error_aupd_other :
  forall (A : Type) (l : list A) (i : nat) (v : A) (j : nat),
    j <> i -> nth_error (aupd l i v) j = nth_error l j.
Proof. exact @nth_error_set_cell_other. Qed.

Lemma length_aupd :
  forall (A : Type) (l : list A) (i : nat) (v : A), length (aupd l i v) = length l.
Proof. exact @length_set_cell. Qed.

(** * [astep] unfolded on each operation, [arun] *)

(** the adapter record written by [FitA] *)
Definition fitted_adapter (ad : adapter) (co : cost) (D : nat) : adapter :=
  {| a_kind := a_kind ad; a_cost := a_cost ad;
     a_clone_param := match a_kind ad with KLocal => c_param co | _ => a_clone_param ad end;
     a_clone_fit := match a_kind ad with KSaving => Some D | _ => a_clone_fit ad end;
     a_fit := Some D |}.

Lemma astep_FitA :
  forall h a D ad co,
    nth_error (adapters h) a = Some ad ->
    nth_error (costs h) (a_cost ad) = Some co ->
    astep h (FitA a D) =
    ({| costs := aupd (costs h) (a_cost ad) {| c_param := c_param co; c_fit := Some D |};
        adapters := aupd (adapters h) a (fitted_adapter ad co D) |}, ANone).
Proof.
  intros h a D ad co Ha Hc. cbn [astep]. rewrite Ha, Hc. reflexivity.
Qed.

Lemma astep_FitC :
  forall h c D co,
    nth_error (costs h) c = Some co ->
    astep h (FitC c D) =
    ({| costs := aupd (costs h) c {| c_param := c_param co; c_fit := Some D |};
        adapters := adapters h |}, ANone).
Proof.
  intros h c D co Hc. cbn [astep]. rewrite Hc. reflexivity.
Qed.

Lemma astep_SetC :
  forall h c p,
    c < length (costs h) ->
    astep h (SetC c p) =
    ({| costs := aupd (costs h) c {| c_param := p; c_fit := None |};
        adapters := adapters h |}, ANone).
Proof.
  intros h c p Hlt. cbn [astep]. apply Nat.ltb_lt in Hlt. rewrite Hlt. reflexivity.
Qed.

(** what [EvalA] returns, as a function of the adapter record and of the cost cell it points to *)
Definition eval_of (ad : adapter) (oc : option cost) : aout :=
  match a_fit ad, oc with
  | Some own, Some co =>
      match c_fit co with
      | Some cd => AVal (a_kind ad) (c_param co) cd (a_clone_param ad) (a_clone_fit ad) own
      | None => ANotFitted
      end
  | None, Some _ => ANotFitted
  | _, None => ABadRef
  end.

Lemma eval_spec :
  forall h a ad,
    nth_error (adapters h) a = Some ad ->
    snd (astep h (EvalA a)) = eval_of ad (nth_error (costs h) (a_cost ad)).
Proof.
  intros h a ad Ha. cbn [astep]. rewrite Ha. unfold eval_of.
  destruct (a_fit ad); destruct (nth_error (costs h) (a_cost ad)) as [co|]; try reflexivity.
  destruct (c_fit co); reflexivity.
Qed.

(** [arun] is [replay astep] *)
Lemma arun_nil : forall h, arun h [] = (h, []).
Proof. reflexivity. Qed.

Lemma arun_cons_snd :
  forall h o t, snd (arun h (o :: t)) = snd (astep h o) :: snd (arun (fst (astep h o)) t).
Proof. exact (replay_cons_snd _ _ _ astep). Qed.

(** * Heap well-formedness, reachability *)

(** [n] = number of cost objects on the heap.  The cost reference is valid; the private clone of a
    Saving always has hyperparam 0 (= None, the optimised cost); only a Saving ever fits its clone
    on stored data. *)
Definition adapter_ok (n : nat) (ad : adapter) : Prop :=
  a_cost ad < n /\
  (a_kind ad = KSaving -> a_clone_param ad = 0) /\
  (a_kind ad <> KSaving -> a_clone_fit ad = None).

Definition aheap_ok (h : aheap) : Prop :=
  forall a ad, nth_error (adapters h) a = Some ad -> adapter_ok (length (costs h)) ad.

Lemma aheap_ok_cost_lt :
  forall h a ad, aheap_ok h -> nth_error (adapters h) a = Some ad -> a_cost ad < length (costs h).
Proof. intros h a ad Hok Ha. exact (proj1 (Hok a ad Ha)). Qed.

Lemma adapter_ok_mono : forall n m ad, n <= m -> adapter_ok n ad -> adapter_ok m ad.
Proof.
  intros n m ad Hle [Hlt [Hs Hf]]. split; [lia | split; assumption].
Qed.

Lemma aheap_ok_empty : aheap_ok aempty.
Proof. intros a ad Ha. destruct a; discriminate Ha. Qed.

Lemma adapter_ok_fitted :
  forall n ad co D, adapter_ok n ad -> adapter_ok n (fitted_adapter ad co D).
Proof.
  intros n ad co D [Hlt [Hs Hf]]. unfold adapter_ok, fitted_adapter. cbn.
  split; [exact Hlt | split].
  - intros K. rewrite K. apply Hs. exact K.
  - intros K. destruct (a_kind ad) eqn:E.
    + apply Hf. discriminate.
    + exfalso. apply K. reflexivity.
    + apply Hf. discriminate.
Qed.

(** does [o], run on [h], write adapter [a] or the cost object [c]? *)
Definition touches (c a : nat) (h : aheap) (o : aop) : bool :=
  match o with
  | SetC c' _ => c' =? c
  | FitC c' _ => c' =? c
  | FitA b _ =>
      (b =? a) || match nth_error (adapters h) b with
                  | Some bd => a_cost bd =? c
                  | None => false
                  end
  | NewC _ | NewA _ _ | EvalA _ => false
  end.

(** what [o] may turn the cost cell [c] / the adapter cell [a] into *)
Definition ccell_ok (h : aheap) (o : aop) (c : nat) (co co' : cost) : Prop :=
  forall a, touches c a h o = false -> co' = co.

Definition acell_ok (h : aheap) (o : aop) (a : nat) (ad ad' : adapter) : Prop :=
  (forall n, adapter_ok n ad -> adapter_ok n ad') /\
  (forall c, touches c a h o = false -> ad' = ad).

(** every operation rewrites cells in place and appends new ones ([cells], Proofs/StateMachine.v) *)
Definition ashape (h : aheap) (o : aop) (h' : aheap) : Prop :=
  cells cost (ccell_ok h o) (fun _ => True) (costs h) (costs h') /\
  cells adapter (acell_ok h o) (adapter_ok (length (costs h'))) (adapters h) (adapters h').

Lemma ashape_same : forall h o, ashape h o h.
Proof. intros h o. split; apply cells_same. Qed.

Lemma astep_shape : forall h o, ashape h o (fst (astep h o)).
Proof.
  intros h o. destruct o as [p | k c | c p | c D | a D | a]; cbn [astep].
  - (* NewC *) split; [apply cells_app; repeat constructor | apply cells_same].
  - (* NewA *)
    destruct (nth_error (costs h) c) as [co|] eqn:Hc; [|apply ashape_same].
    split; [apply cells_same|]. apply cells_app. constructor; [|constructor].
    unfold adapter_ok. cbn. split; [exact (nth_error_some_lt _ _ _ _ Hc) | split].
    + intros K. rewrite K. reflexivity.
    + intros _. reflexivity.
  - (* SetC *)
    destruct (c <? length (costs h)); [|apply ashape_same].
    split; [|apply cells_same]. apply cells_set_cell. intros co _ a Ht.
    cbn [touches] in Ht. rewrite Nat.eqb_refl in Ht. discriminate Ht.
  - (* FitC *)
    destruct (nth_error (costs h) c) as [co|]; [|apply ashape_same].
    split; [|apply cells_same]. apply cells_set_cell. intros co' _ a Ht.
    cbn [touches] in Ht. rewrite Nat.eqb_refl in Ht. discriminate Ht.
  - (* FitA *)
    destruct (nth_error (adapters h) a) as [ad|] eqn:Ha; [|apply ashape_same].
    destruct (nth_error (costs h) (a_cost ad)) as [co|]; [|apply ashape_same].
    split; apply cells_set_cell.
    + intros co' _ a' Ht. cbn [touches] in Ht.
      rewrite Ha, Nat.eqb_refl, orb_true_r in Ht. discriminate Ht.
    + intros x Hx. rewrite Ha in Hx. injection Hx as <-. split; [intros n; apply adapter_ok_fitted|].
      intros c Ht. cbn [touches] in Ht. rewrite Nat.eqb_refl in Ht. discriminate Ht.
  - (* EvalA *)
    destruct (nth_error (adapters h) a) as [ad|]; [|apply ashape_same].
    destruct (a_fit ad), (nth_error (costs h) (a_cost ad)) as [co|]; try apply ashape_same.
    destruct (c_fit co); apply ashape_same.
Qed.

Theorem astep_aheap_ok : forall h o, aheap_ok h -> aheap_ok (fst (astep h o)).
Proof.
  intros h o Hok a ad' Ha'. destruct (astep_shape h o) as [Hc Had].
  destruct (cells_inv _ _ _ _ _ a ad' Had Ha') as [(ad & Ha & Hk) | (_ & Hnew)]; [|exact Hnew].
  apply (adapter_ok_mono (length (costs h))); [exact (cells_length _ _ _ _ _ Hc)|].
  destruct Hk as [->|[Hk _]]; [|apply Hk]; exact (Hok a ad Ha).
Qed.

Lemma arun_aheap_ok : forall ops h, aheap_ok h -> aheap_ok (fst (arun h ops)).
Proof. exact (replay_invariant _ _ _ astep aheap_ok astep_aheap_ok). Qed.

Definition areachable (h : aheap) : Prop := exists ops, fst (arun aempty ops) = h.

Lemma areachable_empty : areachable aempty.
Proof. exact (reachable_from_init _ _ _ astep aempty). Qed.

Lemma areachable_step : forall h o, areachable h -> areachable (fst (astep h o)).
Proof. exact (reachable_from_step _ _ _ astep aempty). Qed.

Theorem areachable_aheap_ok : forall h, areachable h -> aheap_ok h.
Proof.
  intros h [ops Hops]. subst h. apply arun_aheap_ok. exact aheap_ok_empty.
Qed.

(** * Fit followed at once by evaluate *)

(** A ChangeScore has no private clone: its [a_clone_param] field only remembers the hyperparam the
    cost had when the adapter was built, no number is computed from it.  [aout_norm] sets this unused
    field of a KChange value to the cost's hyperparam (what [fresh_val] puts there). *)
Definition aout_norm (o : aout) : aout :=
  match o with
  | AVal KChange p d _ cd own => AVal KChange p d p cd own
  | _ => o
  end.

Lemma aout_norm_fresh : forall k p D, aout_norm (fresh_val k p D) = fresh_val k p D.
Proof. intros k p D. destruct k; reflexivity. Qed.

Lemma aout_norm_not_change :
  forall o, (forall p d cp cd own, o <> AVal KChange p d cp cd own) -> aout_norm o = o.
Proof.
  intros o H. destruct o as [| | | |k p d cp cd own]; try reflexivity.
  destruct k; try reflexivity. exfalso. exact (H p d cp cd own eq_refl).
Qed.

Lemma fit_then_eval_val :
  forall h a D ad co,
    nth_error (adapters h) a = Some ad ->
    nth_error (costs h) (a_cost ad) = Some co ->
    snd (astep (fst (astep h (FitA a D))) (EvalA a)) =
    AVal (a_kind ad) (c_param co) D
         (match a_kind ad with KLocal => c_param co | _ => a_clone_param ad end)
         (match a_kind ad with KSaving => Some D | _ => a_clone_fit ad end) D.
Proof.
  intros h a D ad co Ha Hc.
  rewrite (astep_FitA h a D ad co Ha Hc). cbn [fst].
  rewrite (eval_spec _ a (fitted_adapter ad co D)).
  - cbn [costs fitted_adapter a_cost].
    rewrite (nth_error_aupd_same _ _ _ _ _ Hc). reflexivity.
  - cbn [adapters]. exact (nth_error_aupd_same _ _ _ _ _ Ha).
Qed.

(** in a well-formed heap this is the fresh value, except that a ChangeScore shows the clone
    hyperparam it happens to carry *)
Lemma fit_then_eval_ok :
  forall h a D ad co,
    aheap_ok h ->
    nth_error (adapters h) a = Some ad ->
    nth_error (costs h) (a_cost ad) = Some co ->
    snd (astep (fst (astep h (FitA a D))) (EvalA a)) =
    match a_kind ad with
    | KChange => AVal KChange (c_param co) D (a_clone_param ad) None D
    | k => fresh_val k (c_param co) D
    end.
Proof.
  intros h a D ad co Hok Ha Hc.
  rewrite (fit_then_eval_val h a D ad co Ha Hc).
  destruct (Hok a ad Ha) as [_ [Hs Hf]]. unfold fresh_val.
  destruct (a_kind ad) eqn:K.
  - rewrite Hf by discriminate. reflexivity.
  - rewrite (Hs eq_refl). reflexivity.
  - rewrite Hf by discriminate. reflexivity.
Qed.

(** exact form: for a ChangeScore the (unused) clone hyperparam has to agree with the cost's *)
Theorem fit_then_eval_is_fresh :
  forall h a D ad co,
    aheap_ok h ->
    nth_error (adapters h) a = Some ad ->
    nth_error (costs h) (a_cost ad) = Some co ->
    (a_kind ad = KChange -> a_clone_param ad = c_param co) ->
    snd (astep (fst (astep h (FitA a D))) (EvalA a)) = fresh_val (a_kind ad) (c_param co) D.
Proof.
  intros h a D ad co Hok Ha Hc Hch. rewrite (fit_then_eval_ok h a D ad co Hok Ha Hc).
  destruct (a_kind ad); [rewrite (Hch eq_refl)|..]; reflexivity.
Qed.

(** without the side condition, up to the unused field of a ChangeScore *)
Theorem fit_then_eval_is_fresh_norm :
  forall h a D ad co,
    aheap_ok h ->
    nth_error (adapters h) a = Some ad ->
    nth_error (costs h) (a_cost ad) = Some co ->
    aout_norm (snd (astep (fst (astep h (FitA a D))) (EvalA a))) = fresh_val (a_kind ad) (c_param co) D.
Proof.
  intros h a D ad co Hok Ha Hc. rewrite (fit_then_eval_ok h a D ad co Hok Ha Hc).
  destruct (a_kind ad); reflexivity.
Qed.

(** Saving and LocalAnomalyScore need no side condition *)
Corollary fit_then_eval_is_fresh_clone_kinds :
  forall h a D ad co,
    aheap_ok h ->
    nth_error (adapters h) a = Some ad ->
    nth_error (costs h) (a_cost ad) = Some co ->
    a_kind ad <> KChange ->
    snd (astep (fst (astep h (FitA a D))) (EvalA a)) = fresh_val (a_kind ad) (c_param co) D.
Proof.
  intros h a D ad co Hok Ha Hc Hk.
  apply fit_then_eval_is_fresh; try assumption.
  intros K. exfalso. exact (Hk K).
Qed.

(** * The fresh adapter *)

Theorem fresh_adapter_val :
  forall k p D,
    snd (arun aempty [NewC p; NewA k 0; FitA 0 D; EvalA 0]) = [ANew 0; ANew 0; ANone; fresh_val k p D].
Proof. intros k p D. destruct k; reflexivity. Qed.

(** * Aliasing: evaluate reads the LAST fit of the shared cost *)

Theorem eval_reads_last_cost_fit :
  forall h a ad co own D',
    nth_error (adapters h) a = Some ad ->
    nth_error (costs h) (a_cost ad) = Some co ->
    a_fit ad = Some own ->
    snd (astep (fst (astep h (FitC (a_cost ad) D'))) (EvalA a)) =
    AVal (a_kind ad) (c_param co) D' (a_clone_param ad) (a_clone_fit ad) own.
Proof.
  intros h a ad co own D' Ha Hc Hf.
  rewrite (astep_FitC h (a_cost ad) D' co Hc). cbn [fst].
  rewrite (eval_spec _ a ad) by (cbn [adapters]; exact Ha).
  cbn [costs]. rewrite (nth_error_aupd_same _ _ _ _ _ Hc).
  unfold eval_of. rewrite Hf. reflexivity.
Qed.

Theorem eval_reads_last_adapter_fit :
  forall h a b ad bd co own D',
    nth_error (adapters h) a = Some ad ->
    nth_error (adapters h) b = Some bd ->
    b <> a ->
    a_cost bd = a_cost ad ->
    nth_error (costs h) (a_cost ad) = Some co ->
    a_fit ad = Some own ->
    snd (astep (fst (astep h (FitA b D'))) (EvalA a)) =
    AVal (a_kind ad) (c_param co) D' (a_clone_param ad) (a_clone_fit ad) own.
Proof.
  intros h a b ad bd co own D' Ha Hb Hne Hcost Hc Hf.
  assert (Hcb : nth_error (costs h) (a_cost bd) = Some co) by (rewrite Hcost; exact Hc).
  rewrite (astep_FitA h b D' bd co Hb Hcb). cbn [fst].
  rewrite (eval_spec _ a ad).
  - cbn [costs]. rewrite Hcost. rewrite (nth_error_aupd_same _ _ _ _ _ Hc).
    unfold eval_of. rewrite Hf. reflexivity.
  - cbn [adapters]. rewrite nth_error_aupd_other by (intro E; apply Hne; symmetry; exact E).
    exact Ha.
Qed.

(** * Non-interference *)

Lemma untouched_state :
  forall h o a ad,
    aheap_ok h ->
    nth_error (adapters h) a = Some ad ->
    touches (a_cost ad) a h o = false ->
    nth_error (adapters (fst (astep h o))) a = Some ad /\
    nth_error (costs (fst (astep h o))) (a_cost ad) = nth_error (costs h) (a_cost ad).
Proof.
  intros h o a ad Hok Ha Ht. destruct (astep_shape h o) as [Hcs Hads]. split.
  - destruct (cells_old _ _ _ _ _ a ad Hads Ha) as (ad' & Ha' & Hk). rewrite Ha'. f_equal.
    destruct Hk as [E|[_ E]]; [exact E | exact (E _ Ht)].
  - destruct (nth_error_lt_some _ _ _ (aheap_ok_cost_lt h a ad Hok Ha)) as [co Hc].
    destruct (cells_old _ _ _ _ _ _ co Hcs Hc) as (co' & Hc' & Hk). rewrite Hc', Hc. f_equal.
    destruct Hk as [E|E]; [exact E | exact (E a Ht)].
Qed.

Theorem eval_unaffected :
  forall h o a ad,
    aheap_ok h ->
    nth_error (adapters h) a = Some ad ->
    touches (a_cost ad) a h o = false ->
    snd (astep (fst (astep h o)) (EvalA a)) = snd (astep h (EvalA a)).
Proof.
  intros h o a ad Hok Ha Ht.
  destruct (untouched_state h o a ad Hok Ha Ht) as [Ha' Hc'].
  rewrite (eval_spec _ a ad Ha'), (eval_spec _ a ad Ha), Hc'. reflexivity.
Qed.

(** a whole sequence of operations none of which touches [a] or [c] (each judged on the heap it runs on) *)
Fixpoint untouching (c a : nat) (h : aheap) (ops : list aop) : bool :=
  match ops with
  | [] => true
  | o :: t => negb (touches c a h o) && untouching c a (fst (astep h o)) t
  end.

Theorem untouched_state_run :
  forall ops h a ad,
    aheap_ok h ->
    nth_error (adapters h) a = Some ad ->
    untouching (a_cost ad) a h ops = true ->
    nth_error (adapters (fst (arun h ops))) a = Some ad /\
    nth_error (costs (fst (arun h ops))) (a_cost ad) = nth_error (costs h) (a_cost ad).
Proof.
  induction ops as [|o ops IH]; intros h a ad Hok Ha Hu; [split; [exact Ha | reflexivity]|].
  cbn [untouching] in Hu. apply andb_true_iff in Hu as [Ht Hu]. apply negb_true_iff in Ht.
  destruct (untouched_state h o a ad Hok Ha Ht) as [Ha' Hc'].
  rewrite (replay_cons_fst _ _ _ astep), <- Hc'.
  exact (IH _ a ad (astep_aheap_ok h o Hok) Ha' Hu).
Qed.

Theorem eval_unaffected_run :
  forall ops h a ad,
    aheap_ok h ->
    nth_error (adapters h) a = Some ad ->
    untouching (a_cost ad) a h ops = true ->
    snd (astep (fst (arun h ops)) (EvalA a)) = snd (astep h (EvalA a)).
Proof.
  intros ops h a ad Hok Ha Hu.
  destruct (untouched_state_run ops h a ad Hok Ha Hu) as [Ha' Hc'].
  rewrite (eval_spec _ a ad Ha'), (eval_spec _ a ad Ha), Hc'. reflexivity.
Qed.

(** * [set_params] behind the adapter's back *)

Theorem set_behind_back_refuses :
  forall h a ad p,
    nth_error (adapters h) a = Some ad ->
    a_cost ad < length (costs h) ->
    a_fit ad <> None ->
    snd (astep (fst (astep h (SetC (a_cost ad) p))) (EvalA a)) = ANotFitted.
Proof.
  intros h a ad p Ha Hlt Hf.
  rewrite (astep_SetC h (a_cost ad) p Hlt). cbn [fst].
  rewrite (eval_spec _ a ad) by (cbn [adapters]; exact Ha).
  cbn [costs]. destruct (nth_error_lt_some _ _ _ Hlt) as [co Hc].
  rewrite (nth_error_aupd_same _ _ _ _ _ Hc).
  unfold eval_of. destruct (a_fit ad); reflexivity.
Qed.

Lemma set_state :
  forall h a ad p,
    nth_error (adapters h) a = Some ad ->
    a_cost ad < length (costs h) ->
    nth_error (adapters (fst (astep h (SetC (a_cost ad) p)))) a = Some ad /\
    nth_error (costs (fst (astep h (SetC (a_cost ad) p)))) (a_cost ad) =
      Some {| c_param := p; c_fit := None |}.
Proof.
  intros h a ad p Ha Hlt.
  rewrite (astep_SetC h (a_cost ad) p Hlt). cbn [fst costs adapters].
  split; [exact Ha|].
  destruct (nth_error_lt_some _ _ _ Hlt) as [co Hc].
  exact (nth_error_aupd_same _ _ _ _ _ Hc).
Qed.

Lemma set_state_ok :
  forall h a ad p,
    aheap_ok h ->
    nth_error (adapters h) a = Some ad ->
    aheap_ok (fst (astep h (SetC (a_cost ad) p))) /\
    nth_error (adapters (fst (astep h (SetC (a_cost ad) p)))) a = Some ad /\
    nth_error (costs (fst (astep h (SetC (a_cost ad) p)))) (a_cost ad) =
      Some {| c_param := p; c_fit := None |}.
Proof.
  intros h a ad p Hok Ha. split; [apply astep_aheap_ok; exact Hok|].
  exact (set_state h a ad p Ha (aheap_ok_cost_lt h a ad Hok Ha)).
Qed.

Theorem refit_recovers :
  forall h a ad p D,
    aheap_ok h ->
    nth_error (adapters h) a = Some ad ->
    (a_kind ad = KChange -> a_clone_param ad = p) ->
    snd (astep (fst (astep (fst (astep h (SetC (a_cost ad) p))) (FitA a D))) (EvalA a)) =
    fresh_val (a_kind ad) p D.
Proof.
  intros h a ad p D Hok Ha Hch. destruct (set_state_ok h a ad p Hok Ha) as (Hok' & Ha' & Hc').
  exact (fit_then_eval_is_fresh _ a D ad _ Hok' Ha' Hc' Hch).
Qed.

Theorem refit_recovers_norm :
  forall h a ad p D,
    aheap_ok h ->
    nth_error (adapters h) a = Some ad ->
    aout_norm (snd (astep (fst (astep (fst (astep h (SetC (a_cost ad) p))) (FitA a D))) (EvalA a))) =
    fresh_val (a_kind ad) p D.
Proof.
  intros h a ad p D Hok Ha. destruct (set_state_ok h a ad p Hok Ha) as (Hok' & Ha' & Hc').
  exact (fit_then_eval_is_fresh_norm _ a D ad _ Hok' Ha' Hc').
Qed.

(** LocalAnomalyScore: the private clone is re-cloned at fit and so carries the NEW hyperparam *)
Theorem refit_reclones_local :
  forall h a ad p D,
    nth_error (adapters h) a = Some ad ->
    a_cost ad < length (costs h) ->
    a_kind ad = KLocal ->
    option_map a_clone_param
      (nth_error (adapters (fst (astep (fst (astep h (SetC (a_cost ad) p))) (FitA a D)))) a) = Some p.
Proof.
  intros h a ad p D Ha Hlt K.
  destruct (set_state h a ad p Ha Hlt) as [Ha' Hc'].
  rewrite (astep_FitA _ a D ad _ Ha' Hc'). cbn [fst adapters].
  rewrite (nth_error_aupd_same _ _ _ _ _ Ha'). cbn. rewrite K. reflexivity.
Qed.

(** * An adapter that was never fitted refuses *)

Theorem unfitted_adapter_refuses :
  forall h a ad,
    nth_error (adapters h) a = Some ad ->
    a_cost ad < length (costs h) ->
    a_fit ad = None ->
    snd (astep h (EvalA a)) = ANotFitted.
Proof.
  intros h a ad Ha Hlt Hf.
  rewrite (eval_spec h a ad Ha).
  destruct (nth_error_lt_some _ _ _ Hlt) as [co Hc]. rewrite Hc.
  unfold eval_of. rewrite Hf. reflexivity.
Qed.

(** * Soundness of the checker [Check/AdaptersCheck.v] *)

Lemma akind_eqb_true : forall x y, akind_eqb x y = true -> x = y.
Proof. intros x y H. destruct x, y; try reflexivity; discriminate H. Qed.

Lemma optnat_eqb_true : forall x y, optnat_eqb x y = true -> x = y.
Proof.
  intros [x|] [y|] H; cbn in H; try discriminate H; [|reflexivity].
  apply Nat.eqb_eq in H. subst y. reflexivity.
Qed.

Theorem aout_eqb_true : forall x y, aout_eqb x y = true -> x = y.
Proof.
  intros x y H.
  destruct x as [| i | | | k p d cp cd own]; destruct y as [| j | | | k' p' d' cp' cd' own'];
    cbn in H; try discriminate H; try reflexivity.
  - apply Nat.eqb_eq in H. subst j. reflexivity.
  - apply andb_true_iff in H as [H Hown]. apply andb_true_iff in H as [H Hcd].
    apply andb_true_iff in H as [H Hcp]. apply andb_true_iff in H as [H Hd].
    apply andb_true_iff in H as [Hk Hp].
    apply akind_eqb_true in Hk. apply Nat.eqb_eq in Hp. apply Nat.eqb_eq in Hd.
    apply Nat.eqb_eq in Hcp. apply optnat_eqb_true in Hcd. apply Nat.eqb_eq in Hown.
    subst. reflexivity.
Qed.

Lemma nb_pair_eqb_true :
  forall x y : nat * bool, Nat.eqb (fst x) (fst y) && Bool.eqb (snd x) (snd y) = true -> x = y.
Proof.
  intros [n b] [m c] H. apply andb_true_iff in H as [Hn Hb].
  apply Nat.eqb_eq in Hn. apply Bool.eqb_prop in Hb. cbn in Hn, Hb. subst. reflexivity.
Qed.

(** [aouts_eqb], [anb_eqb] and [abools_eqb] are [list_eqb] of the element tests *)
Lemma aouts_eqb_true : forall x y, aouts_eqb x y = true -> x = y.
Proof. exact (list_eqb_true _ aout_eqb aout_eqb_true). Qed.

Lemma anb_eqb_true : forall x y, anb_eqb x y = true -> x = y.
Proof. exact (list_eqb_true _ _ nb_pair_eqb_true). Qed.

Lemma abools_eqb_true : forall x y, abools_eqb x y = true -> x = y.
Proof. exact (list_eqb_true _ Bool.eqb Bool.eqb_prop). Qed.

Theorem ahist_ok_sound :
  forall (ops : list aop) (outs : list aout) (sc : list (nat * bool)) (sa : list bool),
    ahist_ok (ops, outs, (sc, sa)) = true ->
    snd (arun aempty ops) = outs /\ asummary (fst (arun aempty ops)) = (sc, sa).
Proof.
  intros ops outs sc sa H. unfold ahist_ok in H.
  destruct (arun aempty ops) as [h o]. cbn [fst snd] in *.
  apply andb_true_iff in H as [H Hs]. apply andb_true_iff in H as [Ho Hc].
  apply aouts_eqb_true in Ho. apply anb_eqb_true in Hc. apply abools_eqb_true in Hs.
  split; [exact Ho|].
  rewrite (surjective_pairing (asummary h)). rewrite Hc, Hs. reflexivity.
Qed.

(** the checker is also complete: it accepts exactly the model's own outputs and summary *)
Lemma akind_eqb_refl : forall k, akind_eqb k k = true.
Proof. destruct k; reflexivity. Qed.

Lemma optnat_eqb_refl : forall x, optnat_eqb x x = true.
Proof. destruct x as [x|]; cbn; [apply Nat.eqb_refl | reflexivity]. Qed.

Lemma aout_eqb_refl : forall x, aout_eqb x x = true.
Proof.
  destruct x as [| i | | | k p d cp cd own]; cbn; try reflexivity.
  - apply Nat.eqb_refl.
  - rewrite akind_eqb_refl, !Nat.eqb_refl, optnat_eqb_refl. reflexivity.
Qed.

Lemma aouts_eqb_refl : forall x, aouts_eqb x x = true.
Proof. exact (list_eqb_refl _ aout_eqb aout_eqb_refl). Qed.

Lemma anb_eqb_refl : forall x, anb_eqb x x = true.
Proof.
  refine (list_eqb_refl _ (fun x y => Nat.eqb (fst x) (fst y) && Bool.eqb (snd x) (snd y)) _).
  intros [n b]. cbn. rewrite Nat.eqb_refl, Bool.eqb_reflx. reflexivity.
Qed.

Lemma abools_eqb_refl : forall x, abools_eqb x x = true.
Proof. exact (list_eqb_refl _ Bool.eqb Bool.eqb_reflx). Qed.

Theorem ahist_ok_complete :
  forall ops, ahist_ok (ops, snd (arun aempty ops), asummary (fst (arun aempty ops))) = true.
Proof.
  intros ops. unfold ahist_ok.
  destruct (arun aempty ops) as [h o]. cbn [fst snd].
  destruct (asummary h) as [sc sa] eqn:Es. cbn [fst snd].
  rewrite aouts_eqb_refl, anb_eqb_refl, abools_eqb_refl. reflexivity.
Qed.

(** * Worked histories *)

(** One cost (hyperparam 7) shared by a ChangeScore (adapter 0) and a Saving (adapter 1).
    Adapter 0 is fitted on data 100, then adapter 1 on data 200: evaluating adapter 0 now computes
    from the cost fitted on 200 while its bounds still come from 100 (the aliasing output); adapter 1
    gives the fresh value.  Refitting adapter 0 gives the fresh value again. *)
Example shared_cost_interleaved_fits :
  snd (arun aempty [NewC 7; NewA KChange 0; NewA KSaving 0;
                    FitA 0 100; FitA 1 200; EvalA 0; EvalA 1;
                    FitA 0 100; EvalA 0; EvalA 1]) =
  [ANew 0; ANew 0; ANew 1;
   ANone; ANone; AVal KChange 7 200 7 None 100; fresh_val KSaving 7 200;
   ANone; fresh_val KChange 7 100; AVal KSaving 7 100 0 (Some 200) 200].
Proof. vm_compute. reflexivity. Qed.

(** set_params behind the back of two adapters (Local and Saving) sharing the cost: both refuse;
    refitting the Local one gives the fresh value with the NEW hyperparam 9, and the Saving one now
    computes from hyperparam 9 and data 300 for the baseline but 200 for its optimised clone. *)
Example shared_cost_set_params :
  snd (arun aempty [NewC 7; NewA KLocal 0; NewA KSaving 0;
                    FitA 0 100; FitA 1 200; SetC 0 9; EvalA 0; EvalA 1;
                    FitA 0 300; EvalA 0; EvalA 1]) =
  [ANew 0; ANew 0; ANew 1;
   ANone; ANone; ANone; ANotFitted; ANotFitted;
   ANone; fresh_val KLocal 9 300; AVal KSaving 9 300 0 (Some 200) 200].
Proof. vm_compute. reflexivity. Qed.

Example shared_cost_checker :
  ahist_ok ([NewC 7; NewA KChange 0; NewA KSaving 0; FitA 0 100; FitA 1 200; EvalA 0; SetC 0 9; EvalA 1],
            [ANew 0; ANew 0; ANew 1; ANone; ANone; AVal KChange 7 200 7 None 100; ANone; ANotFitted],
            ([(9, false)], [true; true])) = true.
Proof. vm_compute. reflexivity. Qed.

(** * Assumptions *)
Print Assumptions astep_aheap_ok.
Print Assumptions areachable_aheap_ok.
Print Assumptions fit_then_eval_is_fresh.
Print Assumptions fit_then_eval_is_fresh_norm.
Print Assumptions fit_then_eval_is_fresh_clone_kinds.
Print Assumptions fresh_adapter_val.
Print Assumptions eval_reads_last_cost_fit.
Print Assumptions eval_reads_last_adapter_fit.
Print Assumptions eval_unaffected.
Print Assumptions untouched_state_run.
Print Assumptions eval_unaffected_run.
Print Assumptions set_behind_back_refuses.
Print Assumptions refit_recovers.
Print Assumptions refit_recovers_norm.
Print Assumptions refit_reclones_local.
Print Assumptions unfitted_adapter_refuses.
Print Assumptions aout_eqb_true.
Print Assumptions ahist_ok_sound.
Print Assumptions ahist_ok_complete.
Print Assumptions shared_cost_interleaved_fits.
Print Assumptions shared_cost_set_params.
Print Assumptions shared_cost_checker.
