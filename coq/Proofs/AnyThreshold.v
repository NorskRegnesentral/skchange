(** The fixed greedy loops (Model/GenericAny.v): any threshold.

    Both selection loops are the index-level loop [ogreedy] over possibly removed scores, with a
    relation [K i j] saying that picking candidate [i] removes candidate [j].
    Part I   (no law on the instance at all, ANY threshold): [ogreedy] never runs out of fuel, its
             picks were selectable, an earlier pick never removes a later one, every candidate above
             the threshold is removed by some pick; hence [gsbs_any] / [gcbs_any] are total and their
             results well-formed; the changepoints of [gmw_any] lie in [b, n-b] and increase.
    Part II  (strict weak order on the admissible values): every pick scores above the threshold and
             raising the threshold keeps a prefix of the picks: the greedy specification of [gsbs_any]
             and [gcbs_any] for ANY threshold.
    Part III (strict weak order, NON-NEGATIVE threshold): [gsbs_any] = [gsbs], [gcbs_any] = [gcbs];
             [gmw_any] = [gmw] (this one needs no order law, only that zero does not exceed the
             threshold).  Corollaries at the Z instance. *)
From Coq Require Import ZArith List Bool Lia Permutation Sorted.
From SK Require Import Lib.Base Model.Mw Model.Sbs Model.Capa Model.Cbs Model.Generic Model.GenericAny.
From SK Require Import Proofs.ArgmaxLemmas Proofs.SbsProofs Proofs.CbsProofs.
From SK Require Import Proofs.GenericRank Proofs.GenericOrder Proofs.GenericZ.
Import ListNotations.
Local Close Scope Z_scope.
Local Open Scope nat_scope.

(** ---------- [option (T N)] as an instance: [T N] with -infinity as its zero ---------- *)
Definition Opt (N : num) : num :=
  {| T := option (T N);
     zero := None;
     add := fun a b => match a, b with Some x, Some y => Some (add N x y) | _, _ => None end;
     neg := option_map (neg N);
     ltb := oltb N;
     leb := fun a b => negb (oltb N b a) |}.

Lemma oargmax_from_Opt : forall N l bi b i,
  oargmax_from N bi b i l = gargmax_from (Opt N) bi b i l.
Proof.
  intros N. induction l as [|x t IH]; intros bi b i; cbn [oargmax_from gargmax_from]; [reflexivity|].
  cbn [ltb Opt]. destruct (oltb N b x); apply IH.
Qed.

Lemma oargmax_Opt : forall N (l : list (option (T N))),
  oargmax N l = match gargmax (Opt N) l with Some (i, Some v) => Some (i, v) | _ => None end.
Proof.
  intros N [|x t]; cbn [oargmax gargmax]; [reflexivity|]. rewrite oargmax_from_Opt.
  destruct (gargmax_from (Opt N) 0 x 1 t) as [i [v|]]; reflexivity.
Qed.

(** * Part I: any threshold, no law *)
Section AnyThr.
Variable N : num.
Notation V := (T N).
Notation OV := (option (T N)).
Notation "x <! y" := (ltb N x y) (at level 70).

(** ---------- [oargmax] reports a position holding a proper score ---------- *)
Lemma oargmax_nth : forall (l : list OV) i v,
  oargmax N l = Some (i, v) -> i < length l /\ nth i l None = Some v.
Proof.
  intros l i v H. rewrite oargmax_Opt in H.
  destruct (gargmax (Opt N) l) as [[i' [v'|]]|] eqn:A; inversion H; subst i' v'.
  destruct (gargmax_nth (Opt N) None l i (Some v) A) as [Hi Hv]. split; [exact Hi | symmetry; exact Hv].
Qed.

(** a proper score is never given up for a removed one: no law is needed *)
Lemma oargmax_from_some : forall (l : list OV) bi (b : OV) i,
  b <> None \/ (exists x, In x l /\ x <> None) -> snd (oargmax_from N bi b i l) <> None.
Proof.
  induction l as [|x t IH]; intros bi b i H; cbn [oargmax_from].
  - destruct H as [H | (x & [] & _)]. exact H.
  - destruct (oltb N b x) eqn:E.
    + apply IH. left. intros ->. destruct b; discriminate.
    + apply IH. destruct H as [H | (y & [<- | Hy] & Hne)].
      * left. exact H.
      * destruct b as [b|]; [left; discriminate|]. destruct x as [x|]; [discriminate | contradiction].
      * right. exists y. split; assumption.
Qed.

Lemma oargmax_some : forall thr (osc : list OV),
  existsb (gabove N thr) osc = true -> exists i v, oargmax N osc = Some (i, v).
Proof.
  intros thr osc E. apply existsb_exists in E. destruct E as (o & Hin & Ho).
  assert (Hne : o <> None) by (intros ->; discriminate).
  destruct osc as [|x t]; [contradiction|]. cbn [oargmax].
  assert (Hs : snd (oargmax_from N 0 x 1 t) <> None).
  { apply oargmax_from_some. destruct Hin as [<- | Hin]; [left; exact Hne|].
    right. exists o. split; assumption. }
  destruct (oargmax_from N 0 x 1 t) as [i [v|]]; [eauto | contradiction Hs; reflexivity].
Qed.

(** ---------- the number of candidates still selectable: the termination measure ---------- *)
Definition alive (osc : list OV) (j : nat) : Prop := nth j osc None <> None.

Lemma alive_lt : forall osc j, alive osc j -> j < length osc.
Proof.
  intros osc j H. destruct (Nat.lt_ge_cases j (length osc)) as [L | L]; [exact L|].
  exfalso. apply H. apply nth_overflow. exact L.
Qed.

Fixpoint ocount (l : list OV) : nat :=
  match l with [] => 0 | Some _ :: t => S (ocount t) | None :: t => ocount t end.

Lemma ocount_le_length : forall l, ocount l <= length l.
Proof. induction l as [|[x|] t IH]; cbn [ocount length]; lia. Qed.

Lemma ocount_le_gen : forall l l' : list OV, length l = length l' ->
  (forall j, alive l' j -> alive l j) -> ocount l' <= ocount l.
Proof.
  induction l as [|x t IH]; intros [|x' t'] Hlen H; cbn [length] in Hlen; try discriminate;
    cbn [ocount]; [lia|].
  assert (IH' : ocount t' <= ocount t).
  { apply IH; [lia|]. intros j Hj. apply (H (S j)). exact Hj. }
  destruct x' as [x'|]; destruct x as [x|]; try lia.
  exfalso. apply (H 0); [discriminate | reflexivity].
Qed.

Lemma ocount_lt_gen : forall l l' : list OV, length l = length l' ->
  (forall j, alive l' j -> alive l j) ->
  forall i, alive l i -> ~ alive l' i -> ocount l' < ocount l.
Proof.
  induction l as [|x t IH]; intros [|x' t'] Hlen H i Hi Hni; cbn [length] in Hlen; try discriminate.
  - apply alive_lt in Hi. cbn [length] in Hi. lia.
  - assert (H' : forall j, alive t' j -> alive t j) by (intros j Hj; apply (H (S j)); exact Hj).
    destruct i as [|i].
    + pose proof (ocount_le_gen t t' ltac:(lia) H') as Hle.
      unfold alive in Hi, Hni. cbn [nth] in Hi, Hni.
      destruct x as [x|]; [|contradiction]. destruct x' as [x'|]; [exfalso; apply Hni; discriminate|].
      cbn [ocount]. lia.
    + assert (IH' : ocount t' < ocount t) by (apply (IH t' ltac:(lia) H' i); assumption).
      cbn [ocount]. destruct x' as [x'|]; destruct x as [x|]; try lia.
      exfalso. apply (H 0); [discriminate | reflexivity].
Qed.

Lemma existsb_gabove_alive : forall thr (osc : list OV),
  existsb (gabove N thr) osc = true -> exists j, alive osc j.
Proof.
  intros thr osc H. apply existsb_exists in H. destruct H as (o & Hin & Ho).
  destruct (In_nth _ _ None Hin) as (j & Hj & Ej). exists j. unfold alive. rewrite Ej.
  destruct o; [discriminate | discriminate Ho].
Qed.

Lemma alive_ocount_pos : forall (osc : list OV) j, alive osc j -> 1 <= ocount osc.
Proof.
  induction osc as [|x t IH]; intros j H.
  - apply alive_lt in H. cbn [length] in H. lia.
  - destruct j as [|j]; unfold alive in H; cbn [nth] in H.
    + destruct x; [cbn [ocount]; lia | contradiction].
    + specialize (IH j H). destruct x; cbn [ocount]; lia.
Qed.

(** ---------- the selection loop over indices ----------
    [K i j = true]: picking index [i] removes index [j]. *)
Definition okill (K : nat -> nat -> bool) (i : nat) (osc : list OV) : list OV :=
  map (fun j => if K i j then None else nth j osc None) (seq 0 (length osc)).

Fixpoint ogreedy (fuel : nat) (thr : V) (K : nat -> nat -> bool) (osc : list OV) : option (list nat) :=
  if negb (existsb (gabove N thr) osc) then Some [] else
  match fuel with
  | O => None
  | S f =>
    match oargmax N osc with
    | None => Some []
    | Some (i, _) =>
      match ogreedy f thr K (okill K i osc) with
      | Some r => Some (i :: r)
      | None => None
      end
    end
  end.

Lemma okill_length : forall K i osc, length (okill K i osc) = length osc.
Proof. intros. unfold okill. rewrite map_length, seq_length. reflexivity. Qed.

Lemma okill_nth : forall K i osc j, j < length osc ->
  nth j (okill K i osc) None = if K i j then None else nth j osc None.
Proof. intros K i osc j H. unfold okill. rewrite nth_map_seq by exact H. reflexivity. Qed.

Lemma okill_alive : forall K i osc j, alive (okill K i osc) j -> K i j = false /\ alive osc j.
Proof.
  intros K i osc j H. pose proof (alive_lt _ _ H) as Hj. rewrite okill_length in Hj.
  unfold alive in H. rewrite okill_nth in H by exact Hj.
  destruct (K i j); [contradiction H; reflexivity | split; [reflexivity | exact H]].
Qed.

Lemma okill_self : forall K i osc, K i i = true -> ~ alive (okill K i osc) i.
Proof. intros K i osc HK H. apply okill_alive in H. destruct H as [H _]. congruence. Qed.

(** inversion of one iteration *)
Lemma ogreedy_step : forall fuel thr K osc p,
  ogreedy fuel thr K osc = Some p ->
  (p = [] /\ existsb (gabove N thr) osc = false) \/
  (existsb (gabove N thr) osc = true /\
   exists f i v r, fuel = S f /\ oargmax N osc = Some (i, v) /\
     ogreedy f thr K (okill K i osc) = Some r /\ p = i :: r).
Proof.
  intros fuel thr K osc p H. destruct (existsb (gabove N thr) osc) eqn:E.
  - right. split; [reflexivity|]. destruct (oargmax_some thr osc E) as (i & v & A).
    destruct fuel as [|f]; cbn [ogreedy] in H; rewrite E in H; cbn [negb] in H; [discriminate|].
    rewrite A in H. destruct (ogreedy f thr K (okill K i osc)) as [r|] eqn:G; [|discriminate].
    inversion H; subst p. exists f, i, v, r. repeat split; assumption.
  - left. destruct fuel; cbn [ogreedy] in H; rewrite E in H; inversion H; split; reflexivity.
Qed.

(** every pick was selectable when the loop started *)
Theorem ogreedy_supported : forall thr K p fuel osc,
  ogreedy fuel thr K osc = Some p -> forall i, In i p -> alive osc i.
Proof.
  intros thr K. induction p as [|i0 r IH]; intros fuel osc H i Hin; [contradiction|].
  apply ogreedy_step in H. destruct H as [[H _] | (_ & f & i1 & v & r1 & _ & Ha & Hrec & Hp)]; [discriminate|].
  inversion Hp; subst i1 r1. destruct Hin as [<- | Hin].
  - unfold alive. destruct (oargmax_nth _ _ _ Ha) as [_ E]. rewrite E. discriminate.
  - apply (okill_alive K i0 osc i). exact (IH _ _ Hrec i Hin).
Qed.

(** an earlier pick never removes a later pick *)
Theorem ogreedy_fop : forall thr K p fuel osc,
  ogreedy fuel thr K osc = Some p -> ForallOrdPairs (fun i j => K i j = false) p.
Proof.
  intros thr K. induction p as [|i0 r IH]; intros fuel osc H; [constructor|].
  apply ogreedy_step in H. destruct H as [[H _] | (_ & f & i1 & v & r1 & _ & Ha & Hrec & Hp)]; [discriminate|].
  inversion Hp; subst i1 r1. constructor; [|exact (IH _ _ Hrec)].
  rewrite Forall_forall. intros j Hj.
  exact (proj1 (okill_alive K i0 osc j (ogreedy_supported thr K _ _ _ Hrec j Hj))).
Qed.

(** every candidate above the threshold is removed by some pick *)
Theorem ogreedy_complete : forall thr K p fuel osc,
  ogreedy fuel thr K osc = Some p ->
  forall j, gabove N thr (nth j osc None) = true -> exists i, In i p /\ K i j = true.
Proof.
  intros thr K. induction p as [|i0 r IH]; intros fuel osc H j Hj; apply ogreedy_step in H;
    destruct H as [[H E] | (_ & f & i1 & v & r1 & _ & Ha & Hrec & Hp)]; try discriminate.
  - assert (Hl : j < length osc).
    { apply alive_lt. intros E0. rewrite E0 in Hj. discriminate. }
    assert (X : existsb (gabove N thr) osc = true)
      by (apply existsb_exists; exists (nth j osc None); split; [apply nth_In; exact Hl | exact Hj]).
    congruence.
  - inversion Hp; subst i1 r1. destruct (K i0 j) eqn:EK; [exists i0; split; [left; reflexivity | exact EK]|].
    assert (Hl : j < length osc).
    { apply alive_lt. intros E0. rewrite E0 in Hj. discriminate. }
    destruct (IH _ _ Hrec j) as (i & Hin & HK); [rewrite okill_nth, EK by exact Hl; exact Hj|].
    exists i. split; [right; exact Hin | exact HK].
Qed.

(** the loop stops before the fuel does: every iteration removes at least the chosen candidate *)
Theorem ogreedy_terminates : forall thr K fuel osc,
  (forall i, alive osc i -> K i i = true) -> ocount osc <= fuel ->
  exists p, ogreedy fuel thr K osc = Some p /\ length p <= ocount osc.
Proof.
  intros thr K. induction fuel as [|f IH]; intros osc Hsk Hc; cbn [ogreedy];
    destruct (existsb (gabove N thr) osc) eqn:E; cbn [negb];
    try (exists []; split; [reflexivity | cbn [length]; lia]).
  - exfalso. destruct (existsb_gabove_alive _ _ E) as (j & Hj).
    pose proof (alive_ocount_pos _ _ Hj). lia.
  - destruct (oargmax N osc) as [[i v]|] eqn:A; [|exists []; split; [reflexivity | cbn [length]; lia]].
    assert (Hi : alive osc i).
    { unfold alive. destruct (oargmax_nth _ _ _ A) as [_ En]. rewrite En. discriminate. }
    assert (Hdec : ocount (okill K i osc) < ocount osc).
    { apply (ocount_lt_gen osc (okill K i osc)) with (i := i).
      - rewrite okill_length. reflexivity.
      - intros j Hj. exact (proj2 (okill_alive K i osc j Hj)).
      - exact Hi.
      - apply okill_self. apply Hsk. exact Hi. }
    destruct (IH (okill K i osc)) as (p & Hp & Hl).
    + intros j Hj. apply Hsk. exact (proj2 (okill_alive K i osc j Hj)).
    + lia.
    + rewrite Hp. exists (i :: p). split; [reflexivity | cbn [length]; lia].
Qed.

(** a detector reports [f i] for every pick [i] of the loop over candidate indices *)
Lemma ogreedy_map_idx : forall {A} (f : nat -> A) thr K fuel osc picks,
  option_map (map f) (ogreedy fuel thr K osc) = Some picks ->
  exists idx, ogreedy fuel thr K osc = Some idx /\ picks = map f idx.
Proof.
  intros A f thr K fuel osc picks H.
  destruct (ogreedy fuel thr K osc) as [idx|]; cbn [option_map] in H; inversion H.
  exists idx. split; reflexivity.
Qed.

Lemma ogreedy_map_supported : forall {A} (f : nat -> A) thr K fuel osc picks,
  option_map (map f) (ogreedy fuel thr K osc) = Some picks ->
  forall x, In x picks -> exists i, i < length osc /\ f i = x /\ alive osc i.
Proof.
  intros A f thr K fuel osc picks H x Hx. destruct (ogreedy_map_idx _ _ _ _ _ _ H) as (idx & Hg & ->).
  apply in_map_iff in Hx. destruct Hx as (i & E & Hi).
  pose proof (ogreedy_supported _ _ _ _ _ Hg i Hi) as Ha.
  exists i. split; [exact (alive_lt _ _ Ha)|]. split; assumption.
Qed.

Lemma ogreedy_map_terminates : forall {A} (f : nat -> A) thr K fuel osc,
  (forall i, alive osc i -> K i i = true) -> length osc <= fuel ->
  exists picks, option_map (map f) (ogreedy fuel thr K osc) = Some picks /\ length picks <= length osc.
Proof.
  intros A f thr K fuel osc Hsk Hf. pose proof (ocount_le_length osc) as Hc.
  destruct (ogreedy_terminates thr K fuel osc Hsk) as (p & Hp & Hl); [lia|].
  exists (map f p). rewrite Hp. split; [reflexivity | rewrite map_length; lia].
Qed.

Lemma nth_Some_snd : forall {A} (am : list (A * V)) d i, i < length am ->
  nth i (map Some (map snd am)) None = Some (snd (nth i am d)).
Proof.
  intros A am d i H. rewrite (nth_map_lt Some _ i (snd d)) by (rewrite map_length; exact H).
  rewrite (nth_map_lt snd am i d) by exact H. reflexivity.
Qed.

(** ---------- seeded binary segmentation ---------- *)
Lemma ggreedy_cpts_any_gen : forall thr ivs maxs fuel (osc : list OV),
  length ivs = length osc ->
  ggreedy_cpts_any N fuel thr ivs maxs osc =
  option_map (map (nthN maxs)) (ogreedy fuel thr (Ksbs ivs maxs) osc).
Proof.
  intros thr ivs maxs. induction fuel as [|f IH]; intros osc Hlen; cbn [ggreedy_cpts_any ogreedy];
    destruct (negb (existsb (gabove N thr) osc)); cbn [option_map map]; try reflexivity.
  destruct (oargmax N osc) as [[i v]|]; [|reflexivity].
  assert (E : map (fun sv : nat * nat * OV => if contains (fst sv) (nthN maxs i) then None else snd sv)
                  (combine ivs osc) = okill (Ksbs ivs maxs) i osc).
  { rewrite (map_combine_seq _ ivs osc (0, 0) None Hlen). reflexivity. }
  rewrite E. rewrite IH by (rewrite okill_length; exact Hlen).
  destruct (ogreedy f thr (Ksbs ivs maxs) (okill (Ksbs ivs maxs) i osc)); reflexivity.
Qed.

(** never out of fuel, for ANY threshold: it suffices that every interval contains its maximiser *)
Theorem ggreedy_cpts_any_terminates : forall thr ivs maxs (osc : list OV) fuel,
  length osc = length ivs ->
  (forall i, i < length ivs -> contains (nth i ivs (0, 0)) (nthN maxs i) = true) ->
  length ivs <= fuel ->
  exists picks, ggreedy_cpts_any N fuel thr ivs maxs osc = Some picks /\ length picks <= length ivs.
Proof.
  intros thr ivs maxs osc fuel Hlen Hin Hf. rewrite ggreedy_cpts_any_gen by lia. rewrite <- Hlen in *.
  apply ogreedy_map_terminates; [|exact Hf]. intros i Hi. apply Hin. exact (alive_lt _ _ Hi).
Qed.

(** every pick is the maximiser of a candidate interval *)
Theorem ggreedy_cpts_any_supported : forall thr ivs maxs (osc : list OV) fuel picks,
  length ivs = length osc -> ggreedy_cpts_any N fuel thr ivs maxs osc = Some picks ->
  forall c, In c picks -> exists i, i < length ivs /\ nthN maxs i = c /\ alive osc i.
Proof.
  intros thr ivs maxs osc fuel picks Hlen H. rewrite ggreedy_cpts_any_gen in H by exact Hlen.
  rewrite Hlen. exact (ogreedy_map_supported _ _ _ _ _ _ H).
Qed.

Lemma ggreedy_cpts_any_sep : forall m thr ivs maxs (osc : list OV) fuel picks,
  length ivs = length osc ->
  (forall i, i < length ivs -> contains (nth i ivs (0, 0)) (nthN maxs i) = true) ->
  maxs_inside m ivs maxs (length ivs) ->
  ggreedy_cpts_any N fuel thr ivs maxs osc = Some picks ->
  ForallOrdPairs (sep m) picks.
Proof.
  intros m thr ivs maxs osc fuel picks Hlen Hin Hins H.
  rewrite ggreedy_cpts_any_gen in H by exact Hlen. destruct (ogreedy_map_idx _ _ _ _ _ _ H) as (idx & Hg & ->).
  apply FOP_map.
  apply FOP_impl_Forall with (R := fun i j => Ksbs ivs maxs i j = false) (P := fun i => i < length ivs).
  - exact (ogreedy_fop _ _ _ _ _ Hg).
  - rewrite Forall_forall. intros i Hidx.
    pose proof (alive_lt _ _ (ogreedy_supported _ _ _ _ _ Hg i Hidx)). lia.
  - intros i j HiN HjN HK. specialize (Hins j HjN). pose proof (proj1 (contains_iff _ _) (Hin j HjN)). unfold sep.
    assert (C : ~ (fst (nth j ivs (0, 0)) <= nthN maxs i < snd (nth j ivs (0, 0))))
      by (intros C; apply contains_iff in C; unfold Ksbs in HK; congruence).
    lia.
Qed.

(** what [gamocs] guarantees for candidate intervals of length >= 2m *)
Lemma gamocs_any_facts : forall CS m n ivs am,
  1 <= m -> (forall s e, In (s, e) ivs -> s + 2 * m <= e /\ e <= n) ->
  gamocs N CS m ivs = Some am ->
  length am = length ivs /\
  (forall i, i < length ivs -> contains (nth i ivs (0, 0)) (nthN (map fst am) i) = true) /\
  maxs_inside m ivs (map fst am) (length ivs) /\
  (forall i, i < length ivs -> snd (nth i ivs (0, 0)) <= n).
Proof.
  intros CS m n ivs am Hm Hivs A. destruct (gamocs_inv N CS m ivs am A) as [Hl Hn].
  assert (Hins : forall i, i < length ivs ->
            fst (nth i ivs (0, 0)) + m <= nthN (map fst am) i /\
            nthN (map fst am) i + m <= snd (nth i ivs (0, 0)) /\
            snd (nth i ivs (0, 0)) <= n).
  { intros i Hi. specialize (Hn i (0, 0) (0, zero N) Hi). unfold nthN.
    rewrite (nth_map_lt fst am i (0, zero N) 0) by lia.
    assert (Hin : In (nth i ivs (0, 0)) ivs) by (apply nth_In; exact Hi).
    destruct (nth i ivs (0, 0)) as [s e]. destruct (nth i am (0, zero N)) as [k v].
    apply gamoc_inv in Hn. apply Hivs in Hin. cbn [fst snd]. lia. }
  split; [exact Hl|]. split; [|split].
  - intros i Hi. destruct (Hins i Hi) as (A1 & A2 & A3). apply contains_iff. lia.
  - intros i Hi. destruct (Hins i Hi) as (A1 & A2 & A3). split; assumption.
  - intros i Hi. destruct (Hins i Hi) as (A1 & A2 & A3). exact A3.
Qed.

Lemma gsbs_any_inv : forall CS m thr ivs cpts am, gsbs_any N CS m thr ivs = Some (cpts, am) ->
  gamocs N CS m ivs = Some am /\
  exists picks, ggreedy_cpts_any N (length ivs) thr ivs (map fst am) (map Some (map snd am)) = Some picks /\
                cpts = sort_nat picks.
Proof.
  intros CS m thr ivs cpts am H. unfold gsbs_any in H.
  destruct (gamocs N CS m ivs) as [am'|]; [|discriminate].
  destruct (ggreedy_cpts_any N (length ivs) thr ivs (map fst am') (map Some (map snd am'))) as [picks|] eqn:G;
    [|discriminate].
  inversion H; subst. split; [reflexivity|]. exists picks. split; [exact G | reflexivity].
Qed.

(** a run at the level of candidate indices *)
Lemma gsbs_any_idx : forall CS m thr ivs cpts am, gsbs_any N CS m thr ivs = Some (cpts, am) ->
  gamocs N CS m ivs = Some am /\ length am = length ivs /\
  exists idx, ogreedy (length ivs) thr (Ksbs ivs (map fst am)) (map Some (map snd am)) = Some idx /\
              cpts = sort_nat (map (nthN (map fst am)) idx).
Proof.
  intros CS m thr ivs cpts am H. destruct (gsbs_any_inv _ _ _ _ _ _ H) as (A & picks & G & ->).
  destruct (gamocs_inv N _ _ _ _ A) as [Hl _]. split; [exact A|]. split; [exact Hl|].
  assert (Hlen : length ivs = length (map Some (map snd am))) by (rewrite !map_length; lia).
  rewrite ggreedy_cpts_any_gen in G by exact Hlen. destruct (ogreedy_map_idx _ _ _ _ _ _ G) as (idx & Hg & ->).
  exists idx. split; [exact Hg | reflexivity].
Qed.

(** [gsbs_any] is total, for ANY threshold and ANY instance *)
Theorem gsbs_any_total : forall CS m thr n ivs,
  1 <= m -> (forall s e, In (s, e) ivs -> s + 2 * m <= e /\ e <= n) ->
  exists r, gsbs_any N CS m thr ivs = Some r.
Proof.
  intros CS m thr n ivs Hm Hivs. unfold gsbs_any.
  destruct (gamocs N CS m ivs) as [am|] eqn:A.
  - destruct (gamocs_any_facts CS m n ivs am Hm Hivs A) as (Hl & Hin & _ & _).
    destruct (ggreedy_cpts_any_terminates thr ivs (map fst am) (map Some (map snd am)) (length ivs))
      as (picks & G & _); [rewrite !map_length; exact Hl | exact Hin | lia |].
    rewrite G. eauto.
  - exfalso. revert A. clear -Hm Hivs. induction ivs as [|[s e] t IH]; cbn [gamocs]; [discriminate|].
    destruct (gamoc N CS m (s, e)) as [x|] eqn:E.
    + destruct (gamocs N CS m t) as [r|]; [discriminate|]. intros _. apply IH; [|reflexivity].
      intros s' e' Hin. apply Hivs. right. exact Hin.
    + intros _. unfold gamoc in E.
      destruct (gargmax N (map (fun k => CS s k e) (seq (s + m) (e - m + 1 - (s + m))))) as [[i v]|] eqn:G;
        [discriminate|].
      apply gargmax_none in G. apply (f_equal (@length _)) in G. rewrite map_length, seq_length in G.
      cbn [length] in G. specialize (Hivs s e (or_introl eq_refl)). lia.
Qed.

(** the changepoints are well-formed, for ANY threshold and ANY instance *)
Theorem gsbs_any_wellformed : forall CS m thr n ivs cpts am,
  1 <= m -> (forall s e, In (s, e) ivs -> s + 2 * m <= e /\ e <= n) ->
  gsbs_any N CS m thr ivs = Some (cpts, am) ->
  (forall i, S i < length cpts ->
     nthN cpts i < nthN cpts (S i) /\ nthN cpts i + m <= nthN cpts (S i)) /\
  (forall c, In c cpts -> m <= c /\ c + m <= n) /\
  (forall c, In c cpts -> exists i, i < length ivs /\ fst (nth i am (0, zero N)) = c /\
                                    contains (nth i ivs (0, 0)) c = true) /\
  gamocs N CS m ivs = Some am.
Proof.
  intros CS m thr n ivs cpts am Hm Hivs H.
  destruct (gsbs_any_inv _ _ _ _ _ _ H) as (A & picks & G & ->).
  destruct (gamocs_any_facts CS m n ivs am Hm Hivs A) as (Hl & Hin & Hins & Hn).
  assert (Hlen : length ivs = length (map Some (map snd am))) by (rewrite !map_length; lia).
  pose proof (ggreedy_cpts_any_sep m _ _ _ _ _ _ Hlen Hin Hins G) as F.
  pose proof (sort_nat_perm picks) as P.
  assert (Hsup : forall c, In c (sort_nat picks) ->
            exists i, i < length ivs /\ nthN (map fst am) i = c).
  { intros c Hc. assert (Hc' : In c picks) by (eapply Permutation_in; [exact P | exact Hc]).
    destruct (ggreedy_cpts_any_supported _ _ _ _ _ _ Hlen G c Hc') as (i & Hi & E & _). eauto. }
  split; [|split; [|split]].
  - intros i Hi. pose proof (sort_nat_sorted picks i Hi) as Hle.
    assert (S : sep m (nthN (sort_nat picks) i) (nthN (sort_nat picks) (S i))).
    (* the picks are pairwise [m] apart in the order they were made ([F]); [sep m] is symmetric, so
       the same holds of neighbours after sorting *)
    { apply (FOP_perm_consecutive (sep m) 0 picks _ F); [| |exact P | exact Hi].
      - intros x y [A1 B1]. split; [congruence | lia].
      - intros x _ [A1 _]. congruence. }
    destruct S as [Hne S]. lia.
  - intros c Hc. destruct (Hsup c Hc) as (i & Hi & <-).
    destruct (Hins i Hi) as [A1 A2]. specialize (Hn i Hi). lia.
  - intros c Hc. destruct (Hsup c Hc) as (i & Hi & E). exists i. split; [exact Hi|]. split.
    + rewrite <- E. unfold nthN. rewrite (nth_map_lt fst am i (0, zero N) 0) by lia. reflexivity.
    + rewrite <- E. apply Hin. exact Hi.
  - exact A.
Qed.

(** ---------- circular binary segmentation ---------- *)
Lemma ggreedy_anoms_any_gen : forall thr ivs inner fuel (osc : list OV),
  length ivs = length osc ->
  ggreedy_anoms_any N fuel thr ivs inner osc =
  option_map (map (nthP inner)) (ogreedy fuel thr (Kcbs ivs inner) osc).
Proof.
  intros thr ivs inner. induction fuel as [|f IH]; intros osc Hlen; cbn [ggreedy_anoms_any ogreedy];
    destruct (negb (existsb (gabove N thr) osc)); cbn [option_map map]; try reflexivity.
  destruct (oargmax N osc) as [[i v]|]; [|reflexivity].
  assert (E : map (fun sv : nat * nat * OV => if overlaps (nth i inner (0, 0)) (fst sv) then None else snd sv)
                  (combine ivs osc) = okill (Kcbs ivs inner) i osc).
  { rewrite (map_combine_seq _ ivs osc (0, 0) None Hlen). reflexivity. }
  rewrite E. rewrite IH by (rewrite okill_length; exact Hlen).
  destruct (ogreedy f thr (Kcbs ivs inner) (okill (Kcbs ivs inner) i osc)); reflexivity.
Qed.

(** the standing fact of the anomaly loop: every candidate still selectable has an admissible inner
    interval (the others are removed before the loop starts) *)
Definition inner_adm (m : nat) (ivs inner : list (nat * nat)) (osc : list OV) : Prop :=
  forall i, alive osc i ->
    In (nthP inner i) (anomaly_intervals (fst (nthP ivs i)) (snd (nthP ivs i)) m).

Lemma inner_adm_bounds : forall m ivs inner osc i, inner_adm m ivs inner osc -> alive osc i ->
  fst (nthP ivs i) < fst (nthP inner i) /\ fst (nthP inner i) + m <= snd (nthP inner i) /\
  snd (nthP inner i) < snd (nthP ivs i).
Proof.
  intros m ivs inner osc i H Hi. specialize (H i Hi).
  destruct (nthP ivs i) as [s e]. destruct (nthP inner i) as [a z].
  apply anomaly_intervals_spec in H. cbn [fst snd] in *. lia.
Qed.

Theorem ggreedy_anoms_any_terminates : forall m thr ivs inner (osc : list OV) fuel,
  length osc = length ivs -> inner_adm m ivs inner osc -> length ivs <= fuel ->
  exists picks, ggreedy_anoms_any N fuel thr ivs inner osc = Some picks /\ length picks <= length ivs.
Proof.
  intros m thr ivs inner osc fuel Hlen Hadm Hf. rewrite ggreedy_anoms_any_gen by lia. rewrite <- Hlen in *.
  apply ogreedy_map_terminates; [|exact Hf].
  intros i Hi. destruct (inner_adm_bounds _ _ _ _ _ Hadm Hi) as (A & B & C).
  apply overlaps_iff. fold (nthP inner i). fold (nthP ivs i). lia.
Qed.

Theorem ggreedy_anoms_any_supported : forall thr ivs inner (osc : list OV) fuel picks,
  length ivs = length osc -> ggreedy_anoms_any N fuel thr ivs inner osc = Some picks ->
  forall ab, In ab picks -> exists i, i < length ivs /\ nthP inner i = ab /\ alive osc i.
Proof.
  intros thr ivs inner osc fuel picks Hlen H. rewrite ggreedy_anoms_any_gen in H by exact Hlen.
  rewrite Hlen. exact (ogreedy_map_supported _ _ _ _ _ _ H).
Qed.

Lemma ggreedy_anoms_any_fop : forall m thr ivs inner (osc : list OV) fuel picks,
  length ivs = length osc -> inner_adm m ivs inner osc ->
  ggreedy_anoms_any N fuel thr ivs inner osc = Some picks ->
  ForallOrdPairs sepd picks.
Proof.
  intros m thr ivs inner osc fuel picks Hlen Hadm H.
  rewrite ggreedy_anoms_any_gen in H by exact Hlen. destruct (ogreedy_map_idx _ _ _ _ _ _ H) as (idx & Hg & ->).
  apply FOP_map.
  apply FOP_impl_Forall with (R := fun i j => Kcbs ivs inner i j = false) (P := alive osc).
  - exact (ogreedy_fop _ _ _ _ _ Hg).
  - rewrite Forall_forall. intros i Hidx. exact (ogreedy_supported _ _ _ _ _ Hg i Hidx).
  - intros i j Hi Hj HK.
    pose proof (inner_adm_bounds _ _ _ _ _ Hadm Hi) as (A1 & A2 & A3).
    pose proof (inner_adm_bounds _ _ _ _ _ Hadm Hj) as (B1 & B2 & B3).
    assert (C : ~ (fst (nthP ivs j) < snd (nthP inner i) /\ fst (nthP inner i) < snd (nthP ivs j)))
      by (intros C; apply overlaps_iff in C; unfold Kcbs, nthP in *; congruence).
    unfold sepd, disj. split; [intro E; rewrite E in *; lia | lia].
Qed.

(** the table of [gcbs_any]: the candidates that start selectable have an admissible inner interval *)
Lemma cbs_any_table_facts : forall LS m ivs,
  let am := map (ginner_or_zero N LS m) ivs in
  length (map fst am) = length ivs /\ length (map (cbs_initial N) am) = length ivs /\
  inner_adm m ivs (map fst am) (map (cbs_initial N) am).
Proof.
  intros LS m ivs am. unfold am. rewrite !map_length.
  split; [reflexivity|]. split; [reflexivity|].
  intros i Hi. pose proof (alive_lt _ _ Hi) as HiL. rewrite !map_length in HiL.
  unfold alive in Hi. unfold nthP.
  rewrite (nth_map_lt (cbs_initial N) _ i ((0, 0), zero N) None) in Hi by (rewrite map_length; exact HiL).
  rewrite (nth_map_lt fst _ i ((0, 0), zero N) (0, 0)) by (rewrite map_length; exact HiL).
  rewrite (nth_map_lt (ginner_or_zero N LS m) ivs i (0, 0)) in * by exact HiL.
  destruct (nth i ivs (0, 0)) as [s e]. unfold ginner_or_zero in *.
  destruct (gbest_inner N LS m (s, e)) as [[[a z] v]|] eqn:B; cbn [fst snd] in *.
  - apply gbest_inner_inv in B. exact (proj1 B).
  - exfalso. apply Hi. reflexivity.
Qed.

Lemma gcbs_any_inv : forall LS m thr ivs anoms am, gcbs_any N LS m thr ivs = Some (anoms, am) ->
  am = map (ginner_or_zero N LS m) ivs /\
  exists picks, ggreedy_anoms_any N (length ivs) thr ivs (map fst am) (map (cbs_initial N) am) = Some picks /\
                anoms = sort_pairs picks.
Proof.
  intros LS m thr ivs anoms am H. unfold gcbs_any in H.
  destruct (ggreedy_anoms_any N (length ivs) thr ivs _ _) as [picks|] eqn:G; [|discriminate].
  inversion H; subst. split; [reflexivity|]. exists picks. split; [exact G | reflexivity].
Qed.

Lemma gcbs_any_idx : forall LS m thr ivs anoms am, gcbs_any N LS m thr ivs = Some (anoms, am) ->
  am = map (ginner_or_zero N LS m) ivs /\
  exists idx, ogreedy (length ivs) thr (Kcbs ivs (map fst am)) (map (cbs_initial N) am) = Some idx /\
              anoms = sort_pairs (map (nthP (map fst am)) idx).
Proof.
  intros LS m thr ivs anoms am H. destruct (gcbs_any_inv _ _ _ _ _ _ H) as (E & picks & G & ->).
  split; [exact E|].
  assert (Hlen : length ivs = length (map (cbs_initial N) am)) by (rewrite E, !map_length; reflexivity).
  rewrite ggreedy_anoms_any_gen in G by exact Hlen. destruct (ogreedy_map_idx _ _ _ _ _ _ G) as (idx & Hg & ->).
  exists idx. split; [exact Hg | reflexivity].
Qed.

(** [gcbs_any] is total: ANY threshold, ANY instance, ANY candidate intervals *)
Theorem gcbs_any_total : forall LS m thr ivs, exists r, gcbs_any N LS m thr ivs = Some r.
Proof.
  intros LS m thr ivs. unfold gcbs_any.
  destruct (cbs_any_table_facts LS m ivs) as (L1 & L2 & Hadm).
  destruct (ggreedy_anoms_any_terminates m thr ivs _ _ (length ivs) L2 Hadm (le_n _)) as (picks & G & _).
  rewrite G. eauto.
Qed.

(** the anomalies are well-formed, for ANY threshold and ANY instance *)
Theorem gcbs_any_wellformed : forall LS m thr n ivs anoms am,
  1 <= m -> (forall s e, In (s, e) ivs -> e <= n) ->
  gcbs_any N LS m thr ivs = Some (anoms, am) ->
  (forall i, S i < length anoms ->
     fst (nthP anoms i) < fst (nthP anoms (S i)) /\ snd (nthP anoms i) <= fst (nthP anoms (S i))) /\
  (forall a z, In (a, z) anoms -> 1 <= a /\ a + m <= z /\ z <= n - 1) /\
  (forall ab, In ab anoms -> exists i, i < length ivs /\ fst (nth i am ((0, 0), zero N)) = ab /\
     In ab (anomaly_intervals (fst (nthP ivs i)) (snd (nthP ivs i)) m)) /\
  am = map (ginner_or_zero N LS m) ivs.
Proof.
  intros LS m thr n ivs anoms am Hm Hivs H.
  destruct (gcbs_any_inv _ _ _ _ _ _ H) as (-> & picks & G & ->).
  set (am0 := map (ginner_or_zero N LS m) ivs) in *.
  destruct (cbs_any_table_facts LS m ivs) as (L1 & L2 & Hadm). fold am0 in L1, L2, Hadm.
  assert (Hlen : length ivs = length (map (cbs_initial N) am0)) by lia.
  pose proof (ggreedy_anoms_any_fop m _ _ _ _ _ _ Hlen Hadm G) as F.
  pose proof (sort_pairs_perm picks) as P.
  assert (Hsup : forall p, In p picks -> exists i, i < length ivs /\ nthP (map fst am0) i = p /\
            In p (anomaly_intervals (fst (nthP ivs i)) (snd (nthP ivs i)) m) /\ snd (nthP ivs i) <= n).
  { intros p Hp. destruct (ggreedy_anoms_any_supported _ _ _ _ _ _ Hlen G p Hp) as (i & Hi & E & Ha).
    exists i. split; [exact Hi|]. split; [exact E|]. split; [rewrite <- E; apply Hadm; exact Ha|].
    assert (Hin : In (nthP ivs i) ivs) by (apply nth_In; exact Hi).
    destruct (nthP ivs i) as [s e]. apply Hivs in Hin. exact Hin. }
  assert (Hpick : forall p, In p picks -> 1 <= fst p /\ fst p + m <= snd p /\ snd p <= n - 1).
  { intros p Hp. destruct (Hsup p Hp) as (i & Hi & E & Hin & Hn).
    destruct p as [a z]. destruct (nthP ivs i) as [s e].
    apply anomaly_intervals_spec in Hin. cbn [fst snd] in *. lia. }
  split; [|split; [|split]].
  - intros i Hi. pose proof (sort_pairs_sorted picks i Hi) as Hle.
    assert (Hdis : sepd (nthP (sort_pairs picks) i) (nthP (sort_pairs picks) (S i))).
    (* the picks are pairwise disjoint in the order they were made ([F]); disjointness is symmetric,
       so the same holds of neighbours after sorting *)
    { apply (FOP_perm_consecutive sepd (0, 0) picks _ F); [| |exact P | exact Hi].
      - intros x y [A B]. split; [congruence | unfold disj in *; lia].
      - intros x _ [A _]. congruence. }
    destruct Hdis as [_ Hdis].
    assert (I1 : In (nthP (sort_pairs picks) i) picks)
      by (eapply Permutation_in; [exact P | apply nth_In; lia]).
    assert (I2 : In (nthP (sort_pairs picks) (S i)) picks)
      by (eapply Permutation_in; [exact P | apply nth_In; lia]).
    unfold disj in Hdis.
    pose proof (Hpick _ I1) as Q1. pose proof (Hpick _ I2) as Q2. lia.
  - intros a z Hc. assert (Hc' : In (a, z) picks) by (eapply Permutation_in; [exact P | exact Hc]).
    apply Hpick in Hc'. cbn [fst snd] in Hc'. exact Hc'.
  - intros ab Hc. assert (Hc' : In ab picks) by (eapply Permutation_in; [exact P | exact Hc]).
    destruct (Hsup ab Hc') as (i & Hi & E & Hin & _). exists i. split; [exact Hi|]. split; [|exact Hin].
    rewrite <- E. unfold nthP.
    rewrite (nth_map_lt fst am0 i ((0, 0), zero N) (0, 0)) by (unfold am0; rewrite map_length; exact Hi).
    reflexivity.
  - reflexivity.
Qed.

(** ---------- moving window ---------- *)
Lemma StronglySorted_shift : forall b l,
  StronglySorted lt l -> StronglySorted lt (map (fun c => c + b) l).
Proof.
  intros b l H. induction H as [|x l HS IH HF]; cbn [map]; constructor; [exact IH|].
  rewrite Forall_forall in *. intros y Hy. apply in_map_iff in Hy. destruct Hy as (c & <- & Hc).
  specialize (HF c Hc). lia.
Qed.

Theorem gmw_any_scores : forall CS b n thr mdi,
  fst (gmw_any N CS b n thr mdi) = gmw_scores N CS b n.
Proof. reflexivity. Qed.

(** the changepoints lie in [b, n - b], for ANY threshold *)
Theorem gmw_any_in_range : forall CS b n thr mdi c, 2 * b <= n ->
  In c (snd (gmw_any N CS b n thr mdi)) -> b <= c /\ c + b <= n.
Proof.
  intros CS b n thr mdi c Hb H. unfold gmw_any in H. cbn [snd] in H.
  apply in_map_iff in H. destruct H as (c0 & <- & Hc0).
  apply gmw_cpts_above in Hc0. destruct Hc0 as [Hc0 _]. unfold slice in Hc0.
  rewrite firstn_length, skipn_length, gmw_scores_length in Hc0. lia.
Qed.

Theorem gmw_any_sorted : forall CS b n thr mdi,
  StronglySorted lt (snd (gmw_any N CS b n thr mdi)).
Proof.
  intros CS b n thr mdi. unfold gmw_any. cbn [snd]. apply StronglySorted_shift, gmw_cpts_sorted_any.
Qed.

End AnyThr.

(** * Part II: a strict weak order on the admissible values, any threshold *)

(** ---------- the admissible possibly removed scores ---------- *)
Definition ook {N : num} (ok : T N -> Prop) (o : option (T N)) : Prop :=
  match o with Some x => ok x | None => True end.

Lemma swo_Opt : forall N ok, swo N ok -> swo (Opt N) (ook ok).
Proof.
  intros N ok [H1 H2 H3]. constructor; cbn [ltb Opt T].
  - intros [x|] Hx; cbn [oltb]; [apply H1; exact Hx | reflexivity].
  - intros [x|] [y|] [z|] Hx Hy Hz; cbn [oltb ook] in *; try discriminate; try reflexivity.
    apply H2; assumption.
  - intros [x|] [y|] [z|] Hx Hy Hz; cbn [oltb ook] in *; try discriminate; try reflexivity.
    apply H3; assumption.
Qed.

(** ---------- the selection loop under a strict weak order ---------- *)
Section GreedyOrder.
Variable N : num.
Notation V := (T N).
Notation OV := (option (T N)).
Notation "x <! y" := (ltb N x y) (at level 70).
Variable ok : V -> Prop.
Hypothesis Hswo : swo N ok.

Lemma ook_Some : forall l, Forall ok l -> Forall (ook ok) (map Some l).
Proof. intros l H. induction H; cbn [map]; constructor; assumption. Qed.

Lemma okill_ook : forall K i (osc : list OV), Forall (ook ok) osc -> Forall (ook ok) (okill N K i osc).
Proof.
  intros K i osc H. unfold okill. apply Forall_forall. intros o Ho. apply in_map_iff in Ho.
  destruct Ho as (j & <- & _). destruct (K i j); [exact I | apply Forall_nth_default; [exact H | exact I]].
Qed.

(** the chosen candidate is above the threshold as soon as some candidate is: nothing beats a first
    maximum, so the threshold lies below it by co-transitivity *)
Lemma oargmax_above : forall thr (osc : list OV) i v, ok thr -> Forall (ook ok) osc ->
  existsb (gabove N thr) osc = true -> oargmax N osc = Some (i, v) -> thr <! v = true.
Proof.
  intros thr osc i v Hthr Hok E A. apply existsb_exists in E. destruct E as ([x|] & Hin & Ho); [|discriminate].
  cbn [gabove] in Ho. destruct (In_nth _ _ None Hin) as (j & Hj & Ej).
  destruct (oargmax_nth N _ _ _ A) as [Hi Ei].
  rewrite oargmax_Opt in A. destruct (gargmax (Opt N) osc) as [[i' [v'|]]|] eqn:A'; inversion A; subst i' v'.
  destruct (gargmax_first_max (Opt N) (ook ok) (swo_Opt N ok Hswo) None osc i (Some v) Hok A') as (_ & _ & HB & _).
  specialize (HB j Hj). cbn [ltb Opt T] in HB. rewrite Ej in HB. cbn [oltb] in HB.
  rewrite Forall_forall in Hok. pose proof (Hok _ Hin) as Hx.
  assert (Hv : ok v) by (apply (Hok (Some v)); rewrite <- Ei; apply nth_In; exact Hi).
  destruct (swo_cotrans N ok Hswo thr v x Hthr Hv Hx Ho) as [C | C]; [exact C | congruence].
Qed.

(** every pick scored above the threshold when the loop started *)
Theorem ogreedy_above : forall thr K, ok thr -> forall p fuel (osc : list OV), Forall (ook ok) osc ->
  ogreedy N fuel thr K osc = Some p -> forall i, In i p -> gabove N thr (nth i osc None) = true.
Proof.
  intros thr K Hthr. induction p as [|i0 r IH]; intros fuel osc Hok H i Hin; [contradiction|].
  apply ogreedy_step in H. destruct H as [[H _] | (E & f & i1 & v & r1 & _ & Ha & Hrec & Hp)]; [discriminate|].
  inversion Hp; subst i1 r1. destruct Hin as [<- | Hin].
  - destruct (oargmax_nth N _ _ _ Ha) as [_ Ei]. rewrite Ei. exact (oargmax_above thr osc i0 v Hthr Hok E Ha).
  - pose proof (IH _ _ (okill_ook K i0 osc Hok) Hrec i Hin) as Hab.
    pose proof (ogreedy_supported N _ _ _ _ _ Hrec i Hin) as Hal.
    destruct (okill_alive N K i0 osc i Hal) as [HK Hal'].
    rewrite okill_nth, HK in Hab by (apply alive_lt; exact Hal'). exact Hab.
Qed.

Lemma gabove_mono : forall thr thr' (osc : list OV), ok thr -> ok thr' -> thr' <! thr = false ->
  Forall (ook ok) osc -> existsb (gabove N thr') osc = true -> existsb (gabove N thr) osc = true.
Proof.
  intros thr thr' osc Hthr Hthr' Hle Hok E. apply existsb_exists in E. destruct E as ([x|] & Hin & Ho); [|discriminate].
  apply existsb_exists. exists (Some x). split; [exact Hin|]. cbn [gabove] in *.
  rewrite Forall_forall in Hok.
  destruct (swo_cotrans N ok Hswo thr' thr x Hthr' Hthr (Hok _ Hin) Ho) as [C | C]; [congruence | exact C].
Qed.

(** the sequence of picks does not depend on the threshold; a higher one stops earlier *)
Theorem ogreedy_mono : forall thr thr' K, ok thr -> ok thr' -> thr' <! thr = false ->
  forall p' fuel' fuel (osc : list OV) p, Forall (ook ok) osc ->
  ogreedy N fuel thr K osc = Some p -> ogreedy N fuel' thr' K osc = Some p' -> exists rest, p = p' ++ rest.
Proof.
  intros thr thr' K Hthr Hthr' Hle. induction p' as [|i0 r' IH]; intros fuel' fuel osc p Hok H H'; [exists p; reflexivity|].
  apply ogreedy_step in H'. destruct H' as [[H' _] | (E' & f' & i1 & v & r1 & _ & Ha & Hrec' & Hp')]; [discriminate|].
  inversion Hp'; subst i1 r1.
  pose proof (gabove_mono thr thr' osc Hthr Hthr' Hle Hok E') as E.
  apply ogreedy_step in H. destruct H as [[_ H] | (_ & f & i2 & v2 & r & _ & Ha2 & Hrec & ->)]; [congruence|].
  rewrite Ha in Ha2. inversion Ha2; subst i2 v2.
  destruct (IH _ _ _ _ (okill_ook K i0 osc Hok) Hrec Hrec') as (rest & ->). exists rest. reflexivity.
Qed.
End GreedyOrder.

(** ---------- the greedy specification for ANY threshold (strict weak order) ---------- *)
Section AnySpec.
Variable N : num.
Notation V := (T N).
Notation "x <! y" := (ltb N x y) (at level 70).
Variable ok : V -> Prop.
Hypothesis Hswo : swo N ok.

Section SbsAny.
Variables (CS : nat -> nat -> nat -> V) (m n : nat) (thr : V) (ivs : list (nat * nat)).
Hypothesis Htab : sbs_table_ok N ok CS m ivs.
Hypothesis Hokthr : ok thr.
Hypothesis Hm : 1 <= m.
Hypothesis Hivs : forall s e, In (s, e) ivs -> s + 2 * m <= e <= n.
Variables (cpts : list nat) (am : list (nat * V)).
Hypothesis Hrun : gsbs_any N CS m thr ivs = Some (cpts, am).

(** every changepoint is the maximiser of an interval that contains it and scores above the threshold *)
Theorem gsbs_any_supported : forall c, In c cpts ->
  exists i, i < length ivs /\ fst (nth i am (0, zero N)) = c /\
            thr <! snd (nth i am (0, zero N)) = true /\ contains (nth i ivs (0, 0)) c = true.
Proof using Hswo Htab Hokthr Hm Hivs Hrun.
  intros c Hc. destruct (gsbs_any_idx N _ _ _ _ _ _ Hrun) as (A & Hl & idx & G & ->).
  apply (Permutation_in _ (sort_nat_perm _)) in Hc. apply in_map_iff in Hc. destruct Hc as (i & <- & Hi).
  pose proof (ogreedy_above N ok Hswo thr _ Hokthr _ _ _ (ook_Some N ok _ (gamocs_ok N ok CS m ivs am Htab A)) G i Hi) as Hab.
  assert (HiL : i < length am).
  { pose proof (alive_lt N _ _ (ogreedy_supported N _ _ _ _ _ G i Hi)) as L. rewrite !map_length in L. exact L. }
  rewrite (nth_Some_snd N am (0, zero N)) in Hab by exact HiL.
  destruct (gamocs_any_facts N CS m n ivs am Hm Hivs A) as (_ & Hin & _).
  exists i. split; [lia|]. split; [symmetry; exact (map_nth fst am (0, zero N) i)|].
  split; [exact Hab | apply Hin; lia].
Qed.

(** no interval scoring above the threshold is left without a changepoint inside it *)
Theorem gsbs_any_no_interval_left : forall i, i < length ivs ->
  thr <! snd (nth i am (0, zero N)) = true ->
  exists c, In c cpts /\ contains (nth i ivs (0, 0)) c = true.
Proof using Hswo Htab Hokthr Hm Hivs Hrun.
  intros i Hi Hs. destruct (gsbs_any_idx N _ _ _ _ _ _ Hrun) as (A & Hl & idx & G & ->).
  destruct (ogreedy_complete N _ _ _ _ _ G i) as (i0 & Hin0 & HK).
  { rewrite (nth_Some_snd N am (0, zero N)) by lia. exact Hs. }
  exists (nthN (map fst am) i0). split; [|exact HK].
  apply (Permutation_in _ (Permutation_sym (sort_nat_perm _))). apply in_map. exact Hin0.
Qed.

(** raising the threshold -- from ANY threshold -- can only remove changepoints *)
Theorem gsbs_any_threshold_monotone : forall thr' cpts' am', ok thr' -> thr' <! thr = false ->
  gsbs_any N CS m thr' ivs = Some (cpts', am') -> incl cpts' cpts.
Proof using Hswo Htab Hokthr Hm Hivs Hrun.
  intros thr' cpts' am' Hok' Hle Hrun'.
  destruct (gsbs_any_idx N _ _ _ _ _ _ Hrun) as (A & _ & idx & G & ->).
  destruct (gsbs_any_idx N _ _ _ _ _ _ Hrun') as (A' & _ & idx' & G' & ->).
  rewrite A in A'. inversion A'; subst am'.
  destruct (ogreedy_mono N ok Hswo thr thr' _ Hokthr Hok' Hle _ _ _ _ _
              (ook_Some N ok _ (gamocs_ok N ok CS m ivs am Htab A)) G G') as (rest & ->).
  intros c Hc. apply (Permutation_in _ (sort_nat_perm _)) in Hc.
  apply (Permutation_in _ (Permutation_sym (sort_nat_perm _))). rewrite map_app. apply in_or_app. left. exact Hc.
Qed.
End SbsAny.

Section CbsAny.
Variables (LS : nat -> nat -> nat -> nat -> V) (m : nat) (thr : V) (ivs : list (nat * nat)).
Hypothesis Htab : cbs_table_ok N ok LS m ivs.
Hypothesis Hokthr : ok thr.
Hypothesis Hm : 1 <= m.
Variables (anoms : list (nat * nat)) (am : list ((nat * nat) * V)).
Hypothesis Hrun : gcbs_any N LS m thr ivs = Some (anoms, am).

Lemma cbs_initial_ook : Forall (ook ok) (map (cbs_initial N) (map (ginner_or_zero N LS m) ivs)).
Proof using Htab.
  rewrite map_map. apply Forall_forall. intros o Ho. apply in_map_iff in Ho. destruct Ho as ([s e] & <- & Hin).
  unfold ginner_or_zero. destruct (gbest_inner N LS m (s, e)) as [[[a z] v]|] eqn:B; [|exact I].
  apply gbest_inner_inv in B. destruct B as [B ->]. unfold cbs_initial. cbn [fst snd].
  destruct (z <=? a); [exact I | exact (Htab s e a z Hin B)].
Qed.

(** every anomaly is the inner interval of an admissible candidate scoring above the threshold; no
    such candidate is left without an overlapping anomaly *)
Theorem gcbs_any_supported_and_complete :
  (forall ab, In ab anoms -> exists i, i < length ivs /\ fst (nth i am ((0, 0), zero N)) = ab /\
     gabove N thr (cbs_initial N (nth i am ((0, 0), zero N))) = true) /\
  (forall i, i < length ivs -> gabove N thr (cbs_initial N (nth i am ((0, 0), zero N))) = true ->
     exists ab, In ab anoms /\ overlaps ab (nthP ivs i) = true).
Proof using Hswo Htab Hokthr Hm Hrun.
  destruct (gcbs_any_idx N _ _ _ _ _ _ Hrun) as (E & idx & G & ->).
  assert (Hl : length am = length ivs) by (rewrite E; apply map_length).
  assert (Hnth : forall i, i < length ivs ->
            nth i (map (cbs_initial N) am) None = cbs_initial N (nth i am ((0, 0), zero N))).
  { intros i Hi. apply nth_map_lt. lia. }
  split.
  - intros ab Hab. apply (Permutation_in _ (sort_pairs_perm _)) in Hab. apply in_map_iff in Hab.
    destruct Hab as (i & <- & Hi).
    assert (Hok : Forall (ook ok) (map (cbs_initial N) am)) by (rewrite E; exact cbs_initial_ook).
    pose proof (ogreedy_above N ok Hswo thr _ Hokthr _ _ _ Hok G i Hi) as Hab.
    assert (HiL : i < length ivs).
    { pose proof (alive_lt N _ _ (ogreedy_supported N _ _ _ _ _ G i Hi)) as L. rewrite map_length in L. lia. }
    rewrite Hnth in Hab by exact HiL.
    exists i. split; [exact HiL|]. split; [symmetry; exact (map_nth fst am ((0, 0), zero N) i) | exact Hab].
  - intros i Hi Hab. destruct (ogreedy_complete N _ _ _ _ _ G i) as (i0 & Hin0 & HK); [rewrite Hnth by exact Hi; exact Hab|].
    exists (nthP (map fst am) i0). split; [|exact HK].
    apply (Permutation_in _ (Permutation_sym (sort_pairs_perm _))). apply in_map. exact Hin0.
Qed.
End CbsAny.
End AnySpec.

(** * Part III: agreement with Model/Generic.v for a non-negative threshold *)
Section Agree.
Variable N : num.
Notation V := (T N).
Notation OV := (option (T N)).
Notation "x <! y" := (ltb N x y) (at level 70).
Variable ok : V -> Prop.
Hypothesis Hswo : swo N ok.
Hypothesis Hok0 : ok (zero N).
Variable thr : V.
Hypothesis Hokthr : ok thr.
Hypothesis Hthr : thr <! zero N = false.

(** a score of the original loop and the corresponding score of the fixed loop: the same proper
    score, or "removed" on one side and, on the other, a score that does not exceed the threshold
    (the zero placeholder is one) *)
Definition orel1 (v : V) (o : OV) : Prop := o = Some v \/ (o = None /\ thr <! v = false).
Definition orel : list V -> list OV -> Prop := Forall2 orel1.

Lemma orel_length : forall sc osc, orel sc osc -> length sc = length osc.
Proof. intros sc osc H. induction H; cbn [length]; [reflexivity | lia]. Qed.

Lemma orel_nth : forall sc osc, orel sc osc -> forall j, j < length sc ->
  orel1 (nth j sc (zero N)) (nth j osc None).
Proof.
  intros sc osc H. induction H as [|v o sc osc Hv Hr IH]; intros j Hj; cbn [length] in Hj; [lia|].
  destruct j as [|j]; cbn [nth]; [exact Hv | apply IH; lia].
Qed.

Lemma orel_Some : forall sc, orel sc (map Some sc).
Proof. induction sc as [|v t IH]; cbn [map]; constructor; [left; reflexivity | exact IH]. Qed.

Lemma orel_map : forall {A} (f : A -> V) (g : A -> OV) l,
  (forall x, In x l -> orel1 (f x) (g x)) -> orel (map f l) (map g l).
Proof.
  intros A f g. induction l as [|x t IH]; intros H; cbn [map]; constructor.
  - apply H. left. reflexivity.
  - apply IH. intros y Hy. apply H. right. exact Hy.
Qed.

Lemma orel_ook : forall sc osc, orel sc osc -> Forall ok sc -> Forall (ook ok) osc.
Proof.
  intros sc osc H. induction H as [|v o sc osc Hv Hr IH]; intros Hok; [constructor|].
  inversion Hok as [|v' sc' Hv' Hsc']; subst. constructor; [|apply IH; exact Hsc'].
  destruct Hv as [-> | [-> _]]; [exact Hv' | exact I].
Qed.

(** "some score exceeds the threshold" is the same question on both sides: the zero placeholder
    does not exceed a non-negative threshold *)
Lemma orel_existsb : forall sc osc, orel sc osc ->
  existsb (gabove N thr) osc = existsb (fun v => thr <! v) sc.
Proof.
  intros sc osc H. induction H as [|v o sc osc Hv Hr IH]; cbn [existsb]; [reflexivity|].
  rewrite IH. destruct Hv as [-> | [-> E]]; cbn [gabove]; [reflexivity|]. rewrite E. reflexivity.
Qed.

(** ... and then the two argmax calls report the same position and value *)
Lemma orel_argmax : forall sc osc i v, orel sc osc -> Forall ok sc ->
  existsb (fun v => thr <! v) sc = true -> gargmax N sc = Some (i, v) ->
  oargmax N osc = Some (i, v).
Proof.
  intros sc osc i v Hrel Hok Hex A.
  destruct (gargmax_first_max N ok Hswo (zero N) sc i v Hok A) as (Hi & Hv & HB & HC).
  pose proof (orel_length _ _ Hrel) as Hlen.
  (* the maximiser is above the threshold, as some element is *)
  apply existsb_exists in Hex. destruct Hex as (x & Hx & Hlt).
  destruct (In_nth _ _ (zero N) Hx) as (jx & Hjx & Ejx).
  assert (Hokx : ok x) by (rewrite Forall_forall in Hok; apply Hok; exact Hx).
  assert (Htv : thr <! v = true).
  { assert (Hokv : ok v) by (rewrite Hv; apply Forall_nth; assumption).
    specialize (HB jx Hjx). rewrite Ejx in HB.
    destruct (swo_cotrans N ok Hswo thr v x Hokthr Hokv Hokx Hlt) as [C | C]; [exact C | congruence]. }
  (* so it is a proper score on the fixed side *)
  assert (Ei : nth i osc None = Some v).
  { destruct (orel_nth _ _ Hrel i Hi) as [E | [_ E]]; [rewrite E, <- Hv; reflexivity|].
    rewrite <- Hv in E. congruence. }
  rewrite oargmax_Opt.
  destruct (gargmax (Opt N) osc) as [[i' o']|] eqn:A'.
  2:{ apply gargmax_none in A'. subst osc. cbn [length] in Hlen. lia. }
  destruct (gargmax_first_max (Opt N) (ook ok) (swo_Opt N ok Hswo) None osc i' o'
              (orel_ook _ _ Hrel Hok) A') as (Hi' & Hv' & HB' & HC').
  assert (Hio : i < length osc) by lia.
  assert (Eii : i = i').
  { apply (first_max_unique (Opt N) None osc i' i Hi' Hio).
    - intros j Hj. rewrite <- Hv'. apply HB'. exact Hj.
    - intros j Hj. rewrite <- Hv'. apply HC'. exact Hj.
    - intros j Hj. assert (Hjs : j < length sc) by (rewrite Hlen; exact Hj).
      cbn [ltb Opt T]. rewrite Ei.
      destruct (orel_nth _ _ Hrel j Hjs) as [E | [E _]]; rewrite E; cbn [oltb]; [|reflexivity].
      apply HB. exact Hjs.
    - intros j Hj. assert (Hjs : j < length sc) by lia.
      cbn [ltb Opt T]. rewrite Ei.
      destruct (orel_nth _ _ Hrel j Hjs) as [E | [E _]]; rewrite E; cbn [oltb]; [|reflexivity].
      apply HC. exact Hj. }
  subst i'. assert (Eo : o' = Some v) by (rewrite Hv'; exact Ei). rewrite Eo. reflexivity.
Qed.

(** one removal step keeps the two score vectors related *)
Lemma orel_kill : forall (k : nat * nat -> bool) ivs sc osc, orel sc osc ->
  orel (map (fun sv : (nat * nat) * V => if k (fst sv) then zero N else snd sv) (combine ivs sc))
       (map (fun sv : (nat * nat) * OV => if k (fst sv) then None else snd sv) (combine ivs osc)).
Proof.
  intros k. induction ivs as [|iv t IH]; intros sc osc H; cbn [combine map]; [constructor|].
  destruct H as [|v o sc osc Hv Hr]; cbn [map]; constructor.
  - cbn [fst snd]. destruct (k iv); [right; split; [reflexivity | exact Hthr] | exact Hv].
  - apply IH. exact Hr.
Qed.

Lemma gargmax_none_existsb : forall (f : V -> bool) sc,
  gargmax N sc = None -> existsb f sc = true -> False.
Proof. intros f sc H E. apply gargmax_none in H. subst sc. discriminate. Qed.

(** ---------- the selection loops coincide, for every fuel ---------- *)
Lemma ggreedy_cpts_any_agrees : forall ivs maxs fuel sc osc, orel sc osc -> Forall ok sc ->
  ggreedy_cpts_any N fuel thr ivs maxs osc = ggreedy_cpts N fuel thr ivs maxs sc.
Proof.
  intros ivs maxs. induction fuel as [|f IH]; intros sc osc Hrel Hok;
    cbn [ggreedy_cpts_any ggreedy_cpts]; rewrite (orel_existsb _ _ Hrel);
    destruct (existsb (fun v => thr <! v) sc) eqn:E; cbn [negb]; try reflexivity.
  destruct (gargmax N sc) as [[i v]|] eqn:A.
  - rewrite (orel_argmax _ _ _ _ Hrel Hok E A).
    rewrite (IH _ _ (orel_kill (fun iv => contains iv (nthN maxs i)) ivs _ _ Hrel)
                    (kill_ok N ok Hok0 (fun iv => contains iv (nthN maxs i)) ivs sc Hok)).
    reflexivity.
  - exfalso. exact (gargmax_none_existsb _ _ A E).
Qed.

Lemma ggreedy_anoms_any_agrees : forall ivs inner fuel sc osc, orel sc osc -> Forall ok sc ->
  ggreedy_anoms_any N fuel thr ivs inner osc = ggreedy_anoms N fuel thr ivs inner sc.
Proof.
  intros ivs inner. induction fuel as [|f IH]; intros sc osc Hrel Hok;
    cbn [ggreedy_anoms_any ggreedy_anoms]; rewrite (orel_existsb _ _ Hrel);
    destruct (existsb (fun v => thr <! v) sc) eqn:E; cbn [negb]; try reflexivity.
  destruct (gargmax N sc) as [[i v]|] eqn:A.
  - rewrite (orel_argmax _ _ _ _ Hrel Hok E A).
    rewrite (IH _ _ (orel_kill (fun iv => overlaps (nth i inner (0, 0)) iv) ivs _ _ Hrel)
                    (kill_ok N ok Hok0 (fun iv => overlaps (nth i inner (0, 0)) iv) ivs sc Hok)).
    reflexivity.
  - exfalso. exact (gargmax_none_existsb _ _ A E).
Qed.

(** ---------- the original loops at the level of candidate indices ----------
    what they can still select are the scores above the threshold *)
Definition oabove (sc : list V) : list OV := map (fun v => if thr <! v then Some v else None) sc.

Lemma orel_above : forall sc, orel sc (oabove sc).
Proof.
  induction sc as [|v t IH]; cbn [oabove map]; constructor; [|exact IH].
  destruct (thr <! v) eqn:E; [left; reflexivity | right; split; [reflexivity | exact E]].
Qed.

Lemma oabove_alive : forall sc i, alive N (oabove sc) i <-> i < length sc /\ thr <! nth i sc (zero N) = true.
Proof.
  intros sc i. unfold alive, oabove. split.
  - intros H. assert (Hi : i < length sc).
    { destruct (Nat.lt_ge_cases i (length sc)) as [L | L]; [exact L|].
      exfalso. apply H. apply nth_overflow. rewrite map_length. exact L. }
    split; [exact Hi|]. rewrite (nth_map_lt _ sc i (zero N)) in H by exact Hi.
    destruct (thr <! nth i sc (zero N)); [reflexivity | contradiction H; reflexivity].
  - intros [Hi E]. rewrite (nth_map_lt _ sc i (zero N)) by exact Hi. rewrite E. discriminate.
Qed.

Lemma oabove_gabove : forall sc i, i < length sc -> thr <! nth i sc (zero N) = true ->
  gabove N thr (nth i (oabove sc) None) = true.
Proof.
  intros sc i Hi E. unfold oabove. rewrite (nth_map_lt _ sc i (zero N)) by exact Hi. rewrite E. exact E.
Qed.

Theorem ggreedy_anoms_ogreedy : forall ivs inner fuel sc, length ivs = length sc -> Forall ok sc ->
  ggreedy_anoms N fuel thr ivs inner sc =
  option_map (map (nthP inner)) (ogreedy N fuel thr (Kcbs ivs inner) (oabove sc)).
Proof.
  intros ivs inner fuel sc Hlen Hok.
  rewrite <- (ggreedy_anoms_any_agrees ivs inner fuel sc (oabove sc) (orel_above sc) Hok).
  apply ggreedy_anoms_any_gen. rewrite <- (orel_length _ _ (orel_above sc)). exact Hlen.
Qed.

(** ---------- the detectors coincide ---------- *)
Theorem gsbs_any_agrees : forall CS m ivs, sbs_table_ok N ok CS m ivs ->
  gsbs_any N CS m thr ivs = gsbs N CS m thr ivs.
Proof.
  intros CS m ivs Htab. unfold gsbs_any, gsbs.
  destruct (gamocs N CS m ivs) as [am|] eqn:A; [|reflexivity].
  rewrite (ggreedy_cpts_any_agrees ivs (map fst am) (length ivs) (map snd am) _
             (orel_Some _) (gamocs_ok N ok CS m ivs am Htab A)).
  reflexivity.
Qed.

Lemma cbs_initial_rel : forall LS m se, 1 <= m ->
  orel1 (snd (ginner_or_zero N LS m se)) (cbs_initial N (ginner_or_zero N LS m se)).
Proof.
  intros LS m [s e] Hm. unfold ginner_or_zero.
  destruct (gbest_inner N LS m (s, e)) as [[[a z] v]|] eqn:B.
  - apply gbest_inner_inv in B. destruct B as [B _]. apply anomaly_intervals_spec in B.
    unfold cbs_initial. cbn [fst snd].
    replace (z <=? a) with false by (symmetry; apply Nat.leb_gt; lia). left. reflexivity.
  - right. split; [reflexivity | exact Hthr].
Qed.

Theorem gcbs_any_agrees : forall LS m ivs, 1 <= m -> cbs_table_ok N ok LS m ivs ->
  gcbs_any N LS m thr ivs = gcbs N LS m thr ivs.
Proof.
  intros LS m ivs Hm Htab. unfold gcbs_any, gcbs. cbv zeta.
  rewrite (ggreedy_anoms_any_agrees ivs _ (length ivs) (map snd (map (ginner_or_zero N LS m) ivs)) _).
  - reflexivity.
  - apply orel_map. intros x Hx. apply in_map_iff in Hx. destruct Hx as (se & <- & _).
    apply cbs_initial_rel. exact Hm.
  - apply (gcbs_scores_ok N ok Hok0). exact Htab.
Qed.
End Agree.

(** ---------- moving window: runs never touch the zero placeholders ---------- *)
Section WherePad.
Definition shift_run (k : nat) (se : nat * nat) : nat * nat := (fst se + k, snd se + k).

Lemma where_from_shift : forall k l i cur,
  where_from (i + k) (option_map (fun s => s + k) cur) l = map (shift_run k) (where_from i cur l).
Proof.
  intros k. induction l as [|v t IH]; intros i cur.
  - destruct cur as [s|]; reflexivity.
  - destruct v; destruct cur as [s|]; cbn [where_from option_map map].
    + apply (IH (S i) (Some s)).
    + apply (IH (S i) (Some i)).
    + unfold shift_run at 1. cbn [fst snd]. f_equal. apply (IH (S i) None).
    + apply (IH (S i) None).
Qed.

Definition all_false (l : list bool) : Prop := forall x, In x l -> x = false.

Lemma where_from_false_pre : forall pre l i, all_false pre ->
  where_from i None (pre ++ l) = where_from (i + length pre) None l.
Proof.
  induction pre as [|x pre IH]; intros l i H; cbn [app length].
  - rewrite Nat.add_0_r. reflexivity.
  - rewrite (H x (or_introl eq_refl)). cbn [where_from].
    rewrite IH by (intros y Hy; apply H; right; exact Hy). f_equal. lia.
Qed.

Lemma where_from_all_false : forall l i, all_false l -> where_from i None l = [].
Proof.
  induction l as [|x l IH]; intros i H; [reflexivity|].
  rewrite (H x (or_introl eq_refl)). cbn [where_from]. apply IH. intros y Hy. apply H. right. exact Hy.
Qed.

Lemma where_from_false_suf : forall suf l i cur, all_false suf ->
  where_from i cur (l ++ suf) = where_from i cur l.
Proof.
  intros suf. induction l as [|v t IH]; intros i cur H; cbn [app].
  - destruct cur as [s|]; [|apply where_from_all_false; exact H].
    destruct suf as [|x suf]; [reflexivity|]. rewrite (H x (or_introl eq_refl)). cbn [where_from].
    rewrite where_from_all_false by (intros y Hy; apply H; right; exact Hy). reflexivity.
  - destruct v; destruct cur as [s|]; cbn [where_from]; rewrite IH by exact H; reflexivity.
Qed.

Lemma where_runs_pad : forall pre mid suf, all_false pre -> all_false suf ->
  where_runs (pre ++ mid ++ suf) = map (shift_run (length pre)) (where_runs mid).
Proof.
  intros pre mid suf Hp Hs. unfold where_runs.
  rewrite where_from_false_pre by exact Hp. rewrite where_from_false_suf by exact Hs.
  exact (where_from_shift (length pre) mid 0 None).
Qed.

Lemma skipn_add_app : forall {A} (pre X : list A) s, skipn (s + length pre) (pre ++ X) = skipn s X.
Proof.
  intros A. induction pre as [|x pre IH]; intros X s; cbn [length app].
  - rewrite Nat.add_0_r. reflexivity.
  - rewrite Nat.add_succ_r. cbn [skipn]. apply IH.
Qed.

Lemma slice_pad : forall {A} (pre mid suf : list A) s e, e <= length mid ->
  slice (s + length pre) (e + length pre) (pre ++ mid ++ suf) = slice s e mid.
Proof.
  intros A pre mid suf s e He. unfold slice.
  replace (e + length pre - (s + length pre)) with (e - s) by lia.
  rewrite skipn_add_app.
  destruct (le_lt_dec e s) as [L | L].
  - replace (e - s) with 0 by lia. reflexivity.
  - rewrite skipn_app. replace (s - length mid) with 0 by lia. cbn [skipn].
    rewrite firstn_app. rewrite skipn_length. replace (e - s - (length mid - s)) with 0 by lia.
    cbn [firstn]. apply app_nil_r.
Qed.
End WherePad.

Section AgreeMw.
Variable N : num.
Notation V := (T N).
Notation "x <! y" := (ltb N x y) (at level 70).
Variable thr : V.

Lemma gpick_run_pad : forall (pre mid suf : list V) mdi a z, z <= length mid ->
  gpick_run N (pre ++ mid ++ suf) mdi (shift_run (length pre) (a, z)) =
  map (fun c => c + length pre) (gpick_run N mid mdi (a, z)).
Proof.
  intros pre mid suf mdi a z Hz. unfold gpick_run, shift_run. cbn [fst snd].
  replace (z + length pre - (a + length pre)) with (z - a) by lia.
  rewrite slice_pad by exact Hz.
  destruct (mdi <=? z - a); [|reflexivity].
  destruct (gargmax N (slice a z mid)) as [[i v]|]; cbn [map]; [|reflexivity]. f_equal. lia.
Qed.

Lemma gmw_cpts_pad : forall (pre mid suf : list V) mdi,
  (forall v, In v pre -> thr <! v = false) -> (forall v, In v suf -> thr <! v = false) ->
  gmw_cpts N (pre ++ mid ++ suf) thr mdi =
  map (fun c => c + length pre) (gmw_cpts N mid thr mdi).
Proof.
  intros pre mid suf mdi Hp Hs. rewrite !gmw_cpts_unfold. rewrite !map_app.
  rewrite where_runs_pad.
  2:{ intros x Hx. apply in_map_iff in Hx. destruct Hx as (v & <- & Hv). apply Hp. exact Hv. }
  2:{ intros x Hx. apply in_map_iff in Hx. destruct Hx as (v & <- & Hv). apply Hs. exact Hv. }
  rewrite map_length.
  assert (Hr : forall a z, In (a, z) (where_runs (map (fun v => thr <! v) mid)) -> z <= length mid).
  { intros a z Hin. apply gruns_in_range in Hin. lia. }
  revert Hr. generalize (where_runs (map (fun v => thr <! v) mid)) as runs.
  induction runs as [|[a z] runs IH]; intros Hr; [reflexivity|].
  cbn [map flat_map]. rewrite map_app. f_equal.
  - apply gpick_run_pad. apply (Hr a z). left. reflexivity.
  - apply IH. intros a' z' Hin. apply (Hr a' z'). right. exact Hin.
Qed.

Lemma gmw_scores_split : forall CS b n, 1 <= b -> 2 * b <= n ->
  let h := fun t => if (b <=? t) && (t + b <=? n) then CS (t - b) t (t + b) else zero N in
  gmw_scores N CS b n =
  map h (seq 0 b) ++ map h (seq b (n - 2 * b + 1)) ++ map h (seq (b + (n - 2 * b + 1)) (b - 1)).
Proof.
  intros CS b n Hb Hn h. unfold gmw_scores. fold h. rewrite <- !map_app. f_equal.
  rewrite <- seq_app. pose proof (seq_app b (n - 2 * b + 1 + (b - 1)) 0) as E. cbn [Nat.add] in E.
  rewrite <- E. f_equal. lia.
Qed.

(** [gmw_any] = [gmw] as soon as zero does not exceed the threshold: no order law is needed *)
Theorem gmw_any_agrees : forall CS b n mdi, thr <! zero N = false -> 2 * b <= n ->
  gmw_any N CS b n thr mdi = gmw N CS b n thr mdi.
Proof.
  intros CS b n mdi Hthr Hn. unfold gmw_any, gmw. cbv zeta. f_equal.
  destruct (Nat.eq_dec b 0) as [-> | Hb0].
  - unfold slice. cbn [skipn]. rewrite firstn_all2 by (rewrite gmw_scores_length; lia).
    rewrite (map_ext (fun c => c + 0) (fun c => c)) by (intros c; lia). apply map_id.
  - pose proof (gmw_scores_split CS b n ltac:(lia) Hn) as E. cbv zeta in E.
    set (h := fun t => if (b <=? t) && (t + b <=? n) then CS (t - b) t (t + b) else zero N) in E.
    set (pre := map h (seq 0 b)) in E. set (mid := map h (seq b (n - 2 * b + 1))) in E.
    set (suf := map h (seq (b + (n - 2 * b + 1)) (b - 1))) in E.
    assert (Lp : length pre = b) by (unfold pre; rewrite map_length, seq_length; reflexivity).
    assert (Lm : length mid = n - 2 * b + 1) by (unfold mid; rewrite map_length, seq_length; reflexivity).
    rewrite E.
    assert (Es : slice b (n - b + 1) (pre ++ mid ++ suf) = mid).
    { replace (n - b + 1) with (length mid + length pre) by lia.
      rewrite <- Lp at 1. change (length pre) with (0 + length pre) at 1.
      rewrite slice_pad by lia. unfold slice. cbn [skipn]. rewrite Nat.sub_0_r. apply firstn_all. }
    rewrite Es. rewrite gmw_cpts_pad.
    + rewrite Lp. reflexivity.
    + intros v Hv. unfold pre in Hv. apply in_map_iff in Hv. destruct Hv as (t & <- & Ht).
      apply in_seq in Ht. unfold h.
      replace (b <=? t) with false by (symmetry; apply Nat.leb_gt; lia). exact Hthr.
    + intros v Hv. unfold suf in Hv. apply in_map_iff in Hv. destruct Hv as (t & <- & Ht).
      apply in_seq in Ht. unfold h.
      replace (t + b <=? n) with false by (symmetry; apply Nat.leb_gt; lia).
      rewrite andb_false_r. exact Hthr.
Qed.
End AgreeMw.

(** ---------- the Z instance: the fixed loops are the Z models for [0 <= thr] ---------- *)
Theorem sbs_any_Z : forall CS m (thr : Z) ivs, (0 <= thr)%Z ->
  gsbs_any Zn CS m thr ivs = sbs CS m thr ivs.
Proof.
  intros CS m thr ivs H. rewrite <- gsbs_Z.
  apply (gsbs_any_agrees Zn (fun _ => True) swo_Z I thr I (thr_Z thr H)).
  intros s e k _ _ _. exact I.
Qed.

Theorem cbs_any_Z : forall LS m (thr : Z) ivs, (0 <= thr)%Z -> 1 <= m ->
  gcbs_any Zn LS m thr ivs = cbs LS m thr ivs.
Proof.
  intros LS m thr ivs H Hm. rewrite <- gcbs_Z.
  apply (gcbs_any_agrees Zn (fun _ => True) swo_Z I thr I (thr_Z thr H) LS m ivs Hm).
  intros s e a z _ _. exact I.
Qed.

Theorem mw_any_Z : forall CS b n (thr : Z) mdi, (0 <= thr)%Z -> 2 * b <= n ->
  gmw_any Zn CS b n thr mdi = mw CS b n thr mdi.
Proof.
  intros CS b n thr mdi H Hn. rewrite <- gmw_Z. apply gmw_any_agrees; [apply thr_Z; exact H | exact Hn].
Qed.

(** * Executable illustration at the Z instance: a NEGATIVE threshold.
    The original models run out of fuel (the real loop did not terminate) or report the zero
    placeholders; the fixed ones terminate with a well-formed result. *)
Section Illustration.
Local Open Scope Z_scope.
Let CSx (s k e : nat) : Z := if Nat.eqb k 5 then 10 else -3.
Let ivsx : list (nat * nat) := [(0, 10); (0, 4); (6, 10); (2, 8)]%nat.

Example sbs_negative_original : gsbs Zn CSx 1 (-5) ivsx = None.
Proof. vm_compute. reflexivity. Qed.
Example sbs_negative_fixed : option_map fst (gsbs_any Zn CSx 1 (-5) ivsx) = Some [1; 5; 7]%nat.
Proof. vm_compute. reflexivity. Qed.
Example sbs_nonnegative_same : gsbs_any Zn CSx 1 2 ivsx = gsbs Zn CSx 1 2 ivsx.
Proof. vm_compute. reflexivity. Qed.

Let LSx (s a z e : nat) : Z := if (Nat.eqb a 3 && Nat.eqb z 6)%bool then 10 else -3.
Let ivsy : list (nat * nat) := [(0, 10); (0, 2); (5, 10); (2, 8)]%nat.

Example cbs_negative_original : gcbs Zn LSx 2 (-1) ivsy = None.
Proof. vm_compute. reflexivity. Qed.
Example cbs_negative_fixed : option_map fst (gcbs_any Zn LSx 2 (-1) ivsy) = Some [(3, 6)]%nat.
Proof. vm_compute. reflexivity. Qed.

Let CSz (s k e : nat) : Z := if Nat.eqb k 4 then 5 else if Nat.eqb k 5 then 2 else -2.

Example mw_negative_original : snd (gmw Zn CSz 2 10 (-1) 1) = [0; 4; 9]%nat.
Proof. vm_compute. reflexivity. Qed.
Example mw_negative_fixed : snd (gmw_any Zn CSz 2 10 (-1) 1) = [4]%nat.
Proof. vm_compute. reflexivity. Qed.
End Illustration.

Print Assumptions ggreedy_cpts_any_terminates.
Print Assumptions gsbs_any_total.
Print Assumptions gsbs_any_wellformed.
Print Assumptions ggreedy_anoms_any_terminates.
Print Assumptions gcbs_any_total.
Print Assumptions gcbs_any_wellformed.
Print Assumptions gmw_any_in_range.
Print Assumptions gmw_any_sorted.
Print Assumptions ggreedy_cpts_any_agrees.
Print Assumptions ggreedy_anoms_any_agrees.
Print Assumptions gsbs_any_agrees.
Print Assumptions gcbs_any_agrees.
Print Assumptions gmw_any_agrees.
Print Assumptions sbs_any_Z.
Print Assumptions cbs_any_Z.
Print Assumptions mw_any_Z.
Print Assumptions gsbs_any_supported.
Print Assumptions gsbs_any_no_interval_left.
Print Assumptions gsbs_any_threshold_monotone.
Print Assumptions gcbs_any_supported_and_complete.
