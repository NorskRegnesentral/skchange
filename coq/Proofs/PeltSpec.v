(** What PELT (property C02) is measured against: admissible segmentations [Adm] of a prefix
    (every segment at least [m] long), their penalised cost [pencost], and the unpruned
    optimal-partitioning recursion [F], shown to be the minimum of [pencost] over [Adm]. *)
From Coq Require Import ZArith List Lia.
Import ListNotations.
Open Scope Z_scope.

Fixpoint minl (d : Z) (l : list Z) : Z :=
  match l with [] => d | x :: t => Z.min x (minl d t) end.
(* min of a non-empty list given as head + tail *)
Definition min1 (x : Z) (l : list Z) : Z := fold_left Z.min l x.

Lemma min1_le_head x l : min1 x l <= x.
Proof. unfold min1. revert x; induction l as [|a l IH]; intros x; cbn; [lia|]. specialize (IH (Z.min x a)). lia. Qed.
Lemma min1_le_in x l y : In y l -> min1 x l <= y.
Proof. revert x; induction l as [|a l IH]; intros x []; cbn.
  - subst. pose proof (min1_le_head (Z.min x y) l). unfold min1 in *. lia.
  - now apply IH. Qed.
Lemma min1_in x l : min1 x l = x \/ In (min1 x l) l.
Proof. unfold min1. revert x; induction l as [|a l IH]; intros x; cbn; [now left|].
  destruct (IH (Z.min x a)) as [H|H]; [|now right; right].
  rewrite H. destruct (Z.min_spec x a) as [[_ E]|[_ E]]; rewrite E; [now left|now right; left]. Qed.

(** [a] may start the last segment of a segmentation of [0, T) with segments of length >= m *)
Definition last_start (m T a : nat) : Prop := (a = 0 \/ (m <= a /\ a + m <= T))%nat.

Lemma last_start_mono m T a : last_start m T a -> last_start m (S T) a.
Proof. unfold last_start. lia. Qed.
Lemma last_start_lt m T a : (1 <= m)%nat -> (1 <= T)%nat -> last_start m T a -> (a < T)%nat.
Proof. unfold last_start. lia. Qed.

Section Spec.
Variable C : nat -> nat -> Z.
Variable pen : Z.
Variable m : nat.
Hypothesis m_pos : (1 <= m)%nat.

(* admissible last-segment starts other than 0 for end T : m <= s <= T-m *)
Definition adm (T : nat) : list nat := seq m (T + 1 - 2 * m).

Lemma in_adm T s : In s (adm T) <-> (m <= s /\ s + m <= T)%nat.
Proof using. clear m_pos. unfold adm. rewrite in_seq. lia. Qed.

(* [tab] holds F 0 .. F t; the entries below [m] are the dummies (- pen) of the code's opt_cost *)
Definition cand (tab : list Z) (T s : nat) : Z := nth s tab 0 + C s T + pen.
Definition next (tab : list Z) (T : nat) : Z :=
  if (T <? m)%nat then - pen else min1 (cand tab T 0) (map (cand tab T) (adm T)).
Fixpoint Ftab (t : nat) : list Z :=
  match t with O => [- pen] | S t' => Ftab t' ++ [next (Ftab t') (S t')] end.
Definition F (t : nat) : Z := nth t (Ftab t) 0.

Lemma Ftab_length t : length (Ftab t) = S t.
Proof. induction t; cbn; [easy|]. rewrite app_length, IHt. cbn. lia. Qed.
Lemma Ftab_nth s t : (s <= t)%nat -> nth s (Ftab t) 0 = F s.
Proof. induction t as [|t IH]; intros H.
  - now replace s with 0%nat by lia.
  - destruct (Nat.eq_dec s (S t)) as [->|Hn]; [reflexivity|].
    cbn [Ftab]. rewrite app_nth1 by (rewrite Ftab_length; lia). apply IH. lia. Qed.

Definition candF (T s : nat) : Z := F s + C s T + pen.
Lemma F0 : F 0 = - pen. Proof. reflexivity. Qed.
Lemma F_unfold T : (m <= T)%nat ->
  F T = min1 (candF T 0) (map (candF T) (adm T)).
Proof.
  intros HT. destruct T as [|T]; [lia|]. unfold F at 1. cbn [Ftab].
  rewrite app_nth2 by (rewrite Ftab_length; lia). rewrite Ftab_length, Nat.sub_diag. cbn [nth].
  unfold next. replace (S T <? m)%nat with false by (symmetry; apply Nat.ltb_ge; lia).
  unfold cand, candF. rewrite (Ftab_nth 0) by lia.
  f_equal. apply map_ext_in. intros s Hs. apply in_adm in Hs. rewrite Ftab_nth by lia. reflexivity. Qed.

Lemma F_small e : (e < m)%nat -> F e = - pen.
Proof.
  intros He. destruct e as [|e]; [reflexivity|].
  unfold F. cbn [Ftab]. rewrite app_nth2 by (rewrite Ftab_length; lia).
  rewrite Ftab_length, Nat.sub_diag. cbn [nth]. unfold next.
  replace (S e <? m)%nat with true by (symmetry; apply Nat.ltb_lt; lia). reflexivity.
Qed.

Lemma F_mid e : (m <= e < 2 * m)%nat -> F e = C 0 e.
Proof.
  intros He. rewrite F_unfold by lia. unfold adm.
  replace (e + 1 - 2 * m)%nat with 0%nat by lia. cbn [seq map]. unfold min1. cbn [fold_left].
  unfold candF. rewrite F0. lia.
Qed.

(** the recursion over the admissible last starts [0 :: adm T] *)
Lemma F_le_start T a : (m <= T)%nat -> last_start m T a -> F T <= candF T a.
Proof.
  intros HT Ha. rewrite F_unfold by auto. destruct Ha as [->|Ha]; [apply min1_le_head|].
  apply min1_le_in, in_map, in_adm, Ha.
Qed.
Lemma F_attained T : (m <= T)%nat -> exists a, last_start m T a /\ F T = candF T a.
Proof.
  intros HT. rewrite F_unfold by auto.
  destruct (min1_in (candF T 0) (map (candF T) (adm T))) as [H1|H1]; [exists 0%nat; split; [now left|exact H1]|].
  apply in_map_iff in H1 as (s & E & Hs). apply in_adm in Hs. exists s. split; [now right|now rewrite <- E].
Qed.

(* changepoints in increasing order; the segments of the prefix T are 0=c0<c1<..<ck<T, all gaps >= m *)
Fixpoint segcost (prev : nat) (cpts : list nat) (T : nat) : Z :=
  match cpts with [] => C prev T | c :: tl => C prev c + segcost c tl T end.
Fixpoint admseg (prev : nat) (cpts : list nat) (T : nat) : Prop :=
  match cpts with [] => (prev + m <= T)%nat | c :: tl => (prev + m <= c)%nat /\ admseg c tl T end.
Definition pencost (cpts : list nat) (T : nat) : Z := segcost 0 cpts T + pen * Z.of_nat (length cpts).
Definition Adm (cpts : list nat) (T : nat) : Prop := admseg 0 cpts T.

Lemma segcost_snoc p cpts c T : segcost p (cpts ++ [c]) T = segcost p cpts c + C c T.
Proof using. clear m_pos. revert p; induction cpts as [|a l IH]; intros p; cbn; [lia|]. rewrite IH. lia. Qed.
Lemma admseg_snoc p cpts c T : admseg p (cpts ++ [c]) T <-> admseg p cpts c /\ (c + m <= T)%nat.
Proof using.
  revert p; induction cpts as [|a l IH]; intros p; cbn [app admseg]; [reflexivity|].
  rewrite IH. symmetry. apply and_assoc.
Qed.
Lemma admseg_ge p cpts T : admseg p cpts T -> (p + m <= T)%nat.
Proof using m_pos. revert p; induction cpts as [|a l IH]; intros p; cbn; [auto|]. intros [H1 H2]. apply IH in H2. lia. Qed.

Lemma pencost_nil T : pencost [] T = C 0 T.
Proof using. clear m_pos. unfold pencost. cbn. lia. Qed.
Lemma pencost_snoc cpts c T : pencost (cpts ++ [c]) T = pencost cpts c + C c T + pen.
Proof using. clear m_pos. unfold pencost. rewrite segcost_snoc, app_length. cbn [length]. lia. Qed.

Theorem F_lower T cpts : Adm cpts T -> F T <= pencost cpts T.
Proof.
  revert cpts. induction T as [T IH] using lt_wf_ind. intros cpts H.
  assert (HT : (m <= T)%nat) by (apply admseg_ge in H; lia).
  destruct cpts as [|c0 l0] using rev_ind.
  - etransitivity; [apply (F_le_start T 0); [auto|now left]|]. unfold candF. rewrite F0, pencost_nil. lia.
  - clear IHl0. apply admseg_snoc in H as [H1 H2].
    assert (Hc : (m <= c0)%nat) by (apply admseg_ge in H1; lia).
    etransitivity; [apply (F_le_start T c0); [lia|right; lia]|]. unfold candF.
    specialize (IH c0 ltac:(lia) l0 H1). rewrite pencost_snoc. lia.
Qed.

Theorem F_upper T : (m <= T)%nat -> exists cpts, Adm cpts T /\ pencost cpts T = F T.
Proof.
  induction T as [T IH] using lt_wf_ind. intros HT.
  destruct (F_attained T HT) as (s & [->|Hs] & E).
  - exists []. split; [cbn; lia|]. rewrite E. unfold candF. rewrite F0, pencost_nil. lia.
  - destruct (IH s ltac:(lia) ltac:(lia)) as (l & A & P). exists (l ++ [s]). split.
    + apply admseg_snoc. split; [exact A|lia].
    + rewrite pencost_snoc, E, P. reflexivity.
Qed.
End Spec.
Print Assumptions F_lower.
Print Assumptions F_upper.
