(** CAPA / MVCAPA over REAL-valued savings and penalties.

    Model/CapaR.v is the twin of the executable model Model/Capa.v with per-column
    savings [Sc : nat -> nat -> list R], [Sp : nat -> list R] and real penalties.  Parts A
    and B are the theory of Proofs/Penalise.v, Proofs/CapaSpec.v and the specification
    layer of Proofs/CapaDP.v over R (index arithmetic by [lia], value arithmetic by [lra]):
    [penaliseR] against its set-level specification [PbestR], then the unpruned recursion
    [GR] as the optimum of the total penalised saving [totalR].  Part C is the pruned
    dynamic programme [capaR]: it is the loop of Proofs/CapaSkeleton.v, so the structural
    theorems hold for any savings, and optimality for a pruning delay >= m - 1 under
    sub-additivity is the case eps = 0 of Proofs/CapaInexact.v; it ends with the six clauses
    of Properties/C03.v for delay = m - 1.  Part D ties the real model to the executable
    one: [capaR] on the injection [IZR] of integer savings / penalties is the image of the
    integer run ([capaR_of_Z]).  Part E instantiates the optimality theorem with the
    built-in L2 saving [l2_saving_R] on the prefix sums of any list of columns, so that NO
    hypothesis on the savings is left ([capa_l2_end_to_end]).  Part F pushes a concrete
    integer instance through the embedding. *)
From Coq Require Import Reals Lra List Lia Permutation Sorted.
From SK Require Import Lib.Base Proofs.ListFacts Proofs.RealLib Proofs.CapaSpec Proofs.CapaDP
                       Proofs.Penalise Proofs.PeltReal Model.PeltR Model.Capa Model.CapaR
                       Model.CapaA Model.Generic Model.GenericCapa Proofs.GenericCapaR
                       Proofs.CapaInexact.
From SK Require Import Gen.KernelsR Proofs.ScoreKernels.
Import ListNotations.
Open Scope R_scope.

(** * Part A: penalise_savings over R (twin of Proofs/Penalise.v) *)

(** case analysis on every [Rmax] in sight, then linear arithmetic *)
Ltac rmax :=
  unfold Rmax in *;
  repeat (match goal with
          | |- context [Rle_dec ?a ?b] => destruct (Rle_dec a b)
          | H : context [Rle_dec ?a ?b] |- _ => destruct (Rle_dec a b)
          end);
  try lra.

Lemma Reqb_true x y : Reqb x y = true <-> x = y.
Proof.
  unfold Reqb. destruct (Req_EM_T x y) as [H|H]; split; intros H';
    [exact H|reflexivity|discriminate|contradiction].
Qed.

(** ---------- statement-level definitions ([subset_ok] of Proofs/Penalise.v is reused) ---------- *)

Definition pen_kR (betas : list R) (k : nat) : R := sumR (firstn k betas).
Definition subset_valueR (sav : list R) (alpha : R) (betas : list R) (J : list nat) : R :=
  sumR (map (nthR sav) J) - alpha - pen_kR betas (length J).
(** the general branch of penalise_savings *)
Definition PbestR (sav : list R) (alpha : R) (betas : list R) : R :=
  match argmaxR (map (fun c => c - alpha) (cumsumR (sub_listsR (sort_descR sav) betas))) with
  | Some (_, v) => v
  | None => 0
  end.

(** ---------- sums ---------- *)

Lemma sumR_nonneg (l : list R) : (forall x, In x l -> 0 <= x) -> 0 <= sumR l.
Proof.
  induction l as [|x t IH]; simpl; intros H; [lra|].
  assert (0 <= x) by (apply H; left; reflexivity).
  assert (0 <= sumR t) by (apply IH; intros y Hy; apply H; right; exact Hy).
  lra.
Qed.

Lemma sumR_firstn_le (l : list R) :
  (forall x, In x l -> 0 <= x) -> forall k, sumR (firstn k l) <= sumR l.
Proof.
  intros H k.
  rewrite <- (firstn_skipn k l) at 2. rewrite sumR_app.
  assert (0 <= sumR (skipn k l)).
  { apply sumR_nonneg. intros x Hx. apply H.
    rewrite <- (firstn_skipn k l). apply in_or_app. right. exact Hx. }
  lra.
Qed.

(** ---------- argmaxR = first maximum ---------- *)

Definition best_ofR (L : list R) (i : nat) (v : R) : Prop :=
  (i < length L)%nat /\ nth i L 0 = v /\
  (forall j, (j < length L)%nat -> nth j L 0 <= v) /\
  (forall j, (j < i)%nat -> nth j L 0 < v).

Lemma argmaxR_from_best : forall l pre bi b,
  best_ofR pre bi b ->
  best_ofR (pre ++ l) (fst (argmaxR_from bi b (length pre) l))
                      (snd (argmaxR_from bi b (length pre) l)).
Proof.
  induction l as [|x t IH]; intros pre bi b HB.
  - simpl. rewrite app_nil_r. exact HB.
  - cbn [argmaxR_from].
    replace (pre ++ x :: t) with ((pre ++ [x]) ++ t)
      by (rewrite <- app_assoc; reflexivity).
    replace (S (length pre)) with (length (pre ++ [x]))
      by (rewrite app_length; simpl; lia).
    destruct HB as (H1 & H2 & H3 & H4).
    destruct (Rltb b x) eqn:E.
    + apply Rltb_true in E. apply IH. unfold best_ofR. rewrite app_length. cbn [length].
      split; [lia|]. split.
      { rewrite app_nth2 by lia. rewrite Nat.sub_diag. reflexivity. }
      split.
      * intros j Hj. destruct (Nat.lt_ge_cases j (length pre)) as [Hl|Hg].
        -- rewrite app_nth1 by lia. specialize (H3 j Hl). lra.
        -- rewrite app_nth2 by lia.
           replace (j - length pre)%nat with 0%nat by lia. simpl. lra.
      * intros j Hj. rewrite app_nth1 by lia. specialize (H3 j Hj). lra.
    + apply Rltb_false in E. apply IH. unfold best_ofR. rewrite app_length. cbn [length].
      split; [lia|]. split.
      { rewrite app_nth1 by lia. exact H2. }
      split.
      * intros j Hj. destruct (Nat.lt_ge_cases j (length pre)) as [Hl|Hg].
        -- rewrite app_nth1 by lia. apply H3. exact Hl.
        -- rewrite app_nth2 by lia.
           replace (j - length pre)%nat with 0%nat by lia. simpl. lra.
      * intros j Hj. rewrite app_nth1 by lia. apply H4. exact Hj.
Qed.

Lemma argmaxR_spec (l : list R) (i : nat) (v : R) :
  argmaxR l = Some (i, v) -> best_ofR l i v.
Proof.
  destruct l as [|x t]; simpl; intros H; [discriminate|].
  inversion H as [H1].
  pose proof (argmaxR_from_best t [x] 0%nat x) as HB.
  cbn [length app] in HB. rewrite H1 in HB. cbn [fst snd] in HB.
  apply HB. unfold best_ofR. cbn [length].
  split; [lia|]. split; [reflexivity|]. split.
  - intros j Hj. destruct j as [|j]; [simpl; lra|lia].
  - intros j Hj. lia.
Qed.

Lemma argmaxR_some (l : list R) : l <> [] -> exists i v, argmaxR l = Some (i, v).
Proof.
  destruct l as [|x t]; intros H; [congruence|].
  simpl. destruct (argmaxR_from 0 x 1 t) as [i v]. exists i, v. reflexivity.
Qed.

Lemma argmaxR_none (l : list R) : argmaxR l = None -> l = [].
Proof. destruct l; simpl; [reflexivity|discriminate]. Qed.

(** ---------- cumsum, sub_lists, the penalised-savings vector ---------- *)

Lemma cumsumR_from_length (l : list R) : forall acc, length (cumsumR_from acc l) = length l.
Proof. induction l as [|x t IH]; intros acc; simpl; [reflexivity|]. rewrite IH. reflexivity. Qed.

Lemma cumsumR_from_nth (l : list R) : forall acc k, (k < length l)%nat ->
  nth k (cumsumR_from acc l) 0 = acc + sumR (firstn (S k) l).
Proof.
  induction l as [|x t IH]; intros acc k H; cbn [length] in H; [lia|].
  cbn [cumsumR_from]. rewrite firstn_cons. cbn [sumR].
  destruct k as [|k].
  - rewrite firstn_O. simpl. lra.
  - cbn [nth]. rewrite IH by lia. lra.
Qed.

Lemma sub_listsR_cons x a y b : sub_listsR (x :: a) (y :: b) = (x - y) :: sub_listsR a b.
Proof. reflexivity. Qed.

Lemma sub_listsR_length (a b : list R) : length a = length b -> length (sub_listsR a b) = length a.
Proof. intros H. unfold sub_listsR. rewrite map_length, combine_length. lia. Qed.

Lemma sub_listsR_firstn_sum : forall (a b : list R) k, length a = length b ->
  sumR (firstn k (sub_listsR a b)) = sumR (firstn k a) - sumR (firstn k b).
Proof.
  induction a as [|x a IH]; intros b k H; destruct b as [|y b]; try discriminate.
  - rewrite !firstn_nil. simpl. lra.
  - rewrite sub_listsR_cons. destruct k as [|k].
    + rewrite !firstn_O. simpl. lra.
    + rewrite !firstn_cons. cbn [sumR]. rewrite IH by (simpl in H; lia). lra.
Qed.

Definition pensavR (s : list R) (alpha : R) (betas : list R) : list R :=
  map (fun c => c - alpha) (cumsumR (sub_listsR s betas)).

Lemma pensavR_length s alpha betas : length s = length betas ->
  length (pensavR s alpha betas) = length s.
Proof.
  intros H. unfold pensavR, cumsumR.
  rewrite map_length, cumsumR_from_length. apply sub_listsR_length. exact H.
Qed.

Lemma pensavR_nth s alpha betas k : length s = length betas -> (k < length s)%nat ->
  nth k (pensavR s alpha betas) 0 = sumR (firstn (S k) s) - alpha - pen_kR betas (S k).
Proof.
  intros H Hk. unfold pensavR, cumsumR, pen_kR.
  rewrite (nth_map_lt _ _ _ 0 0)
    by (rewrite cumsumR_from_length, sub_listsR_length; assumption).
  rewrite cumsumR_from_nth by (rewrite sub_listsR_length; assumption).
  rewrite sub_listsR_firstn_sum by exact H. lra.
Qed.

Lemma PbestR_unfold sav alpha betas :
  PbestR sav alpha betas =
  match argmaxR (pensavR (sort_descR sav) alpha betas) with Some (_, v) => v | None => 0 end.
Proof. reflexivity. Qed.

(** ---------- decreasing insertion sort ---------- *)

Definition descR (l : list R) : Prop := StronglySorted (fun a b => b <= a) l.

Lemma insert_descR_perm x l : Permutation (insert_descR x l) (x :: l).
Proof.
  induction l as [|y t IH]; simpl; [apply Permutation_refl|].
  destruct (Rltb y x); [apply Permutation_refl|].
  eapply Permutation_trans; [apply perm_skip; exact IH|apply perm_swap].
Qed.

Lemma sort_descR_perm l : Permutation (sort_descR l) l.
Proof.
  induction l as [|x t IH]; simpl; [apply perm_nil|].
  eapply Permutation_trans; [apply insert_descR_perm|apply perm_skip; exact IH].
Qed.

Lemma sort_descR_length l : length (sort_descR l) = length l.
Proof. apply Permutation_length, sort_descR_perm. Qed.

Lemma insert_descR_sorted x l : descR l -> descR (insert_descR x l).
Proof.
  unfold descR. induction l as [|y t IH]; intros HS; simpl.
  - constructor; constructor.
  - apply StronglySorted_inv in HS. destruct HS as [HS HF].
    destruct (Rltb y x) eqn:E.
    + apply Rltb_true in E. constructor.
      * constructor; assumption.
      * constructor; [lra|].
        eapply Forall_impl; [|exact HF]. intros a Ha; simpl in Ha; lra.
    + apply Rltb_false in E. constructor.
      * apply IH; exact HS.
      * rewrite Forall_forall. intros a Ha.
        apply (Permutation_in _ (insert_descR_perm x t)) in Ha.
        destruct Ha as [Ha|Ha]; [lra|].
        rewrite Forall_forall in HF. apply HF; exact Ha.
Qed.

Lemma sort_descR_sorted l : descR (sort_descR l).
Proof.
  induction l as [|x t IH]; simpl; [constructor|].
  apply insert_descR_sorted; exact IH.
Qed.

Lemma descR_nth (s : list R) : descR s -> forall i i', (i <= i')%nat -> (i' < length s)%nat ->
  nth i' s 0 <= nth i s 0.
Proof.
  unfold descR. induction s as [|x t IH]; intros HS i i' Hle Hlt; cbn [length] in Hlt; [lia|].
  apply StronglySorted_inv in HS. destruct HS as [HS HF].
  destruct i' as [|i'].
  - replace i with 0%nat by lia. lra.
  - destruct i as [|i].
    + cbn [nth]. rewrite Forall_forall in HF. apply HF. apply nth_In. lia.
    + cbn [nth]. apply IH; [exact HS|lia|lia].
Qed.

(** ---------- the k largest entries dominate any k distinct entries ---------- *)

Lemma topk_boundR : forall s, descR s -> forall l' rest,
  Permutation (l' ++ rest) s -> sumR l' <= sumR (firstn (length l') s).
Proof.
  unfold descR. induction s as [|x s IH]; intros HS l' rest HP.
  - apply Permutation_sym, Permutation_nil in HP.
    apply app_eq_nil in HP. destruct HP as [-> _]. simpl. lra.
  - apply StronglySorted_inv in HS. destruct HS as [HS HF].
    rewrite Forall_forall in HF.
    assert (Hin : In x (l' ++ rest)).
    { apply (Permutation_in _ (Permutation_sym HP)). left; reflexivity. }
    apply in_app_or in Hin. destruct Hin as [Hin|Hin].
    + apply in_split in Hin. destruct Hin as (a & b & ->).
      rewrite <- app_assoc in HP. cbn [app] in HP.
      apply Permutation_sym, Permutation_cons_app_inv, Permutation_sym in HP.
      rewrite app_assoc in HP.
      specialize (IH HS (a ++ b) rest HP).
      rewrite sumR_app in *. cbn [sumR].
      rewrite app_length in *. cbn [length].
      replace (length a + S (length b))%nat with (S (length a + length b)) by lia.
      rewrite firstn_cons. cbn [sumR]. lra.
    + apply in_split in Hin. destruct Hin as (a & b & ->).
      rewrite app_assoc in HP.
      apply Permutation_sym, Permutation_cons_app_inv, Permutation_sym in HP.
      rewrite <- app_assoc in HP.
      destruct l' as [|y l'']; [simpl; lra|].
      cbn [app] in HP.
      assert (HP' : Permutation (l'' ++ (y :: a ++ b)) s).
      { eapply Permutation_trans; [|exact HP].
        apply Permutation_sym.
        apply (Permutation_middle l'' (a ++ b) y). }
      assert (Hy : y <= x).
      { apply HF. apply (Permutation_in _ HP). left; reflexivity. }
      specialize (IH HS l'' (y :: a ++ b) HP').
      cbn [length sumR]. rewrite firstn_cons. cbn [sumR]. lra.
Qed.

Lemma map_nthR_seq (sav : list R) : map (nthR sav) (seq 0 (length sav)) = sav.
Proof. exact (map_nth_seq sav 0). Qed.

Lemma index_subset_permR (sav : list R) (J : list nat) :
  NoDup J -> (forall j, In j J -> (j < length sav)%nat) ->
  exists rest, Permutation (map (nthR sav) J ++ rest) sav.
Proof.
  intros HJ Hlt.
  destruct (nodup_incl_split J (seq 0 (length sav)) HJ (seq_NoDup _ _)) as [R0 HR].
  { intros j Hj. apply in_seq. specialize (Hlt j Hj). lia. }
  exists (map (nthR sav) R0).
  rewrite <- map_app. rewrite <- (map_nthR_seq sav) at 2.
  apply Permutation_map. exact HR.
Qed.

Lemma subset_sum_le_topkR (sav : list R) (J : list nat) :
  NoDup J -> (forall j, In j J -> (j < length sav)%nat) ->
  sumR (map (nthR sav) J) <= sumR (firstn (length J) (sort_descR sav)).
Proof.
  intros HJ Hlt.
  destruct (index_subset_permR sav J HJ Hlt) as [rest HP].
  rewrite <- (map_length (nthR sav) J).
  apply (topk_boundR (sort_descR sav) (sort_descR_sorted sav) _ rest).
  eapply Permutation_trans; [exact HP|]. apply Permutation_sym, sort_descR_perm.
Qed.

(** value of the best entry of the penalised-savings vector *)
Lemma PbestR_ge_nth sav alpha betas k :
  length betas = length sav -> (k < length sav)%nat ->
  nth k (pensavR (sort_descR sav) alpha betas) 0 <= PbestR sav alpha betas.
Proof.
  intros HL Hk. rewrite PbestR_unfold.
  assert (Hlen : length (pensavR (sort_descR sav) alpha betas) = length sav).
  { rewrite pensavR_length; rewrite sort_descR_length; [reflexivity|lia]. }
  destruct (argmaxR (pensavR (sort_descR sav) alpha betas)) as [[i v]|] eqn:E.
  - apply argmaxR_spec in E. destruct E as (_ & _ & Hmax & _).
    apply Hmax. lia.
  - apply argmaxR_none in E. rewrite E in Hlen. simpl in Hlen. lia.
Qed.

Lemma PbestR_is_nth sav alpha betas :
  length betas = length sav -> (1 <= length sav)%nat ->
  exists k, (k < length sav)%nat /\
    argmaxR (pensavR (sort_descR sav) alpha betas) = Some (k, PbestR sav alpha betas) /\
    PbestR sav alpha betas = nth k (pensavR (sort_descR sav) alpha betas) 0.
Proof.
  intros HL Hp. rewrite PbestR_unfold.
  assert (Hlen : length (pensavR (sort_descR sav) alpha betas) = length sav).
  { rewrite pensavR_length; rewrite sort_descR_length; [reflexivity|lia]. }
  destruct (argmaxR (pensavR (sort_descR sav) alpha betas)) as [[i v]|] eqn:E.
  - pose proof (argmaxR_spec _ _ _ E) as (Hi & Hv & _ & _).
    exists i. split; [lia|]. split; [reflexivity|]. symmetry; exact Hv.
  - apply argmaxR_none in E. rewrite E in Hlen. simpl in Hlen. lia.
Qed.

(** ---------- no admissible component set beats PbestR ---------- *)

Theorem PbestR_upper sav alpha betas J :
  length betas = length sav ->
  subset_ok (length sav) J ->
  subset_valueR sav alpha betas J <= PbestR sav alpha betas.
Proof.
  intros HL HJ.
  pose proof (subset_ok_length _ _ HJ) as [H1 Hp].
  destruct HJ as (Hne & Hnd & Hlt).
  pose proof (subset_sum_le_topkR sav J Hnd Hlt) as Hsum.
  pose proof (PbestR_ge_nth sav alpha betas (length J - 1) HL ltac:(lia)) as Hb.
  rewrite pensavR_nth in Hb by (rewrite sort_descR_length; lia).
  replace (S (length J - 1)) with (length J) in Hb by lia.
  unfold subset_valueR. lra.
Qed.

(** ---------- decreasing argsort ---------- *)

Lemma insert_idxR_map sav j l :
  map (nthR sav) (insert_idxR sav j l) = insert_descR (nthR sav j) (map (nthR sav) l).
Proof.
  induction l as [|k t IH]; simpl; [reflexivity|].
  destruct (Rltb (nthR sav k) (nthR sav j)); simpl; [reflexivity|].
  rewrite IH. reflexivity.
Qed.

Lemma argsortR_gen_map sav idx :
  map (nthR sav) (fold_right (insert_idxR sav) [] idx) = sort_descR (map (nthR sav) idx).
Proof.
  induction idx as [|j t IH]; simpl; [reflexivity|].
  rewrite insert_idxR_map, IH. reflexivity.
Qed.

(** the two insertion sorts agree, ties included *)
Lemma argsort_descR_values sav : map (nthR sav) (argsort_descR sav) = sort_descR sav.
Proof. unfold argsort_descR. rewrite argsortR_gen_map, map_nthR_seq. reflexivity. Qed.

Lemma insert_idxR_perm sav j l : Permutation (insert_idxR sav j l) (j :: l).
Proof.
  induction l as [|k t IH]; simpl; [apply Permutation_refl|].
  destruct (Rltb (nthR sav k) (nthR sav j)); [apply Permutation_refl|].
  eapply Permutation_trans; [apply perm_skip; exact IH|apply perm_swap].
Qed.

Lemma argsortR_gen_perm sav idx : Permutation (fold_right (insert_idxR sav) [] idx) idx.
Proof.
  induction idx as [|j t IH]; simpl; [apply perm_nil|].
  eapply Permutation_trans; [apply insert_idxR_perm|apply perm_skip; exact IH].
Qed.

Theorem argsort_descR_perm sav : Permutation (argsort_descR sav) (seq 0 (length sav)).
Proof. apply argsortR_gen_perm. Qed.

Lemma argsort_descR_length sav : length (argsort_descR sav) = length sav.
Proof. rewrite (Permutation_length (argsort_descR_perm sav)). apply seq_length. Qed.

Lemma argsort_descR_NoDup sav : NoDup (argsort_descR sav).
Proof.
  apply (Permutation_NoDup (Permutation_sym (argsort_descR_perm sav))). apply seq_NoDup.
Qed.

Lemma argsort_descR_In sav j : In j (argsort_descR sav) <-> (j < length sav)%nat.
Proof.
  split; intros H.
  - apply (Permutation_in _ (argsort_descR_perm sav)) in H. apply in_seq in H. lia.
  - apply (Permutation_in _ (Permutation_sym (argsort_descR_perm sav))).
    apply in_seq. lia.
Qed.

(** prefixes of the decreasing order: admissible sets whose value is an entry of the
    penalised-savings vector *)
Lemma prefixR_length sav k : (k <= length sav)%nat ->
  length (firstn k (argsort_descR sav)) = k.
Proof. intros H. apply firstn_length_le. rewrite argsort_descR_length. exact H. Qed.

Lemma prefixR_ok sav k : (1 <= k <= length sav)%nat ->
  subset_ok (length sav) (firstn k (argsort_descR sav)).
Proof.
  intros [H1 H2]. split; [|split].
  - intros E. pose proof (prefixR_length sav k H2) as HL. rewrite E in HL. simpl in HL. lia.
  - apply NoDup_firstn, argsort_descR_NoDup.
  - intros j Hj. apply argsort_descR_In. eapply In_firstn; exact Hj.
Qed.

Lemma prefixR_value sav alpha betas k :
  length betas = length sav -> (1 <= k <= length sav)%nat ->
  subset_valueR sav alpha betas (firstn k (argsort_descR sav)) =
  nth (k - 1) (pensavR (sort_descR sav) alpha betas) 0.
Proof.
  intros HL [H1 H2]. unfold subset_valueR.
  rewrite prefixR_length by exact H2.
  rewrite <- firstn_map, argsort_descR_values.
  rewrite pensavR_nth by (rewrite sort_descR_length; lia).
  replace (S (k - 1)) with k by lia. reflexivity.
Qed.

(** ---------- PbestR is attained by an admissible component set ---------- *)

Theorem PbestR_attained sav alpha betas :
  length betas = length sav -> (1 <= length sav)%nat ->
  exists J, subset_ok (length sav) J /\
            subset_valueR sav alpha betas J = PbestR sav alpha betas.
Proof.
  intros HL Hp.
  destruct (PbestR_is_nth sav alpha betas HL Hp) as (k & Hk & _ & Hv).
  exists (firstn (S k) (argsort_descR sav)). split.
  - apply prefixR_ok. lia.
  - rewrite prefixR_value by (try exact HL; lia).
    replace (S k - 1)%nat with k by lia. symmetry; exact Hv.
Qed.

(** find_affected_components returns such a set *)
Lemma affectedR_unfold sav alpha betas :
  affectedR sav alpha betas =
  match argmaxR (pensavR (sort_descR sav) alpha betas) with
  | Some (k, _) => firstn (S k) (argsort_descR sav)
  | None => []
  end.
Proof. unfold affectedR. cbv zeta. rewrite argsort_descR_values. reflexivity. Qed.

Theorem affectedR_optimal sav alpha betas :
  length betas = length sav -> (1 <= length sav)%nat ->
  subset_ok (length sav) (affectedR sav alpha betas) /\
  subset_valueR sav alpha betas (affectedR sav alpha betas) = PbestR sav alpha betas.
Proof.
  intros HL Hp. destruct (PbestR_is_nth sav alpha betas HL Hp) as (k & Hk & Harg & Hv).
  rewrite affectedR_unfold, Harg. split.
  - apply prefixR_ok. lia.
  - rewrite prefixR_value by (try exact HL; lia).
    replace (S k - 1)%nat with k by lia. symmetry; exact Hv.
Qed.

(** ---------- the three penalty shapes ---------- *)

Theorem penaliseR_general sav alpha betas :
  all_tinyR betas = false -> all_equalR betas = false ->
  penaliseR sav alpha betas = PbestR sav alpha betas.
Proof. intros H1 H2. unfold penaliseR. rewrite H1, H2. reflexivity. Qed.

Lemma pen_kR_const (l : list R) (c : R) : (forall b, In b l -> b = c) ->
  forall k, (k <= length l)%nat -> pen_kR l k = INR k * c.
Proof.
  unfold pen_kR. induction l as [|x t IH]; intros Hc k Hk.
  - cbn [length] in Hk. replace k with 0%nat by lia. simpl. lra.
  - destruct k as [|k]; [rewrite firstn_O; simpl; lra|].
    rewrite firstn_cons. cbn [sumR].
    rewrite IH; [|intros b Hb; apply Hc; right; exact Hb|cbn [length] in Hk; lia].
    rewrite (Hc x) by (left; reflexivity). rewrite S_INR. lra.
Qed.

Lemma pen_kR_nonneg betas k : (forall b, In b betas -> 0 <= b) -> 0 <= pen_kR betas k.
Proof.
  intros H. unfold pen_kR. apply sumR_nonneg.
  intros x Hx. apply H. eapply In_firstn; exact Hx.
Qed.

Lemma pen_kR_le_sum betas k : (forall b, In b betas -> 0 <= b) -> pen_kR betas k <= sumR betas.
Proof. intros H. unfold pen_kR. apply sumR_firstn_le. exact H. Qed.

Lemma all_tinyR_zero betas :
  all_tinyR betas = true -> (forall b, In b betas -> 0 <= b) -> forall b, In b betas -> b = 0.
Proof.
  intros Ht Hn b Hb. unfold all_tinyR in Ht. rewrite forallb_forall in Ht.
  specialize (Ht b Hb). apply Rleb_true in Ht. specialize (Hn b Hb). lra.
Qed.

(** constant penalty (all betas = 0, "dense" regime): the plain sum is the best subset *)
Theorem penaliseR_tiny sav alpha betas :
  length betas = length sav -> (1 <= length sav)%nat ->
  all_tinyR betas = true -> (forall b, In b betas -> 0 <= b) ->
  (forall x, In x sav -> 0 <= x) ->
  penaliseR sav alpha betas = PbestR sav alpha betas.
Proof.
  intros HL Hp Ht Hb Hs. unfold penaliseR. rewrite Ht.
  pose proof (all_tinyR_zero betas Ht Hb) as Hz.
  assert (Hpen : forall k, (k <= length sav)%nat -> pen_kR betas k = 0).
  { intros k Hk. rewrite (pen_kR_const betas 0 Hz) by lia. lra. }
  assert (Hsum : sumR (sort_descR sav) = sumR sav) by (apply sumR_perm, sort_descR_perm).
  assert (Hnn : forall x, In x (sort_descR sav) -> 0 <= x).
  { intros x Hx. apply Hs. apply (Permutation_in _ (sort_descR_perm sav)). exact Hx. }
  destruct (PbestR_is_nth sav alpha betas HL Hp) as (k & Hk & _ & Hv).
  rewrite pensavR_nth in Hv by (rewrite sort_descR_length; lia).
  rewrite Hpen in Hv by lia.
  pose proof (sumR_firstn_le (sort_descR sav) Hnn (S k)) as Hle.
  pose proof (PbestR_ge_nth sav alpha betas (length sav - 1) HL ltac:(lia)) as Hge.
  rewrite pensavR_nth in Hge by (rewrite sort_descR_length; lia).
  rewrite Hpen in Hge by lia.
  rewrite firstn_all2 in Hge by (rewrite sort_descR_length; lia).
  lra.
Qed.

(** sum of the positive parts of (s - c) *)
Definition posumR (c : R) (l : list R) : R := sumR (map (fun s => Rmax (s - c) 0) l).

Lemma posumR_perm c l1 l2 : Permutation l1 l2 -> posumR c l1 = posumR c l2.
Proof. intros H. unfold posumR. apply sumR_perm, Permutation_map. exact H. Qed.

Lemma posumR_nonneg c l : 0 <= posumR c l.
Proof.
  unfold posumR. apply sumR_nonneg. intros x Hx. apply in_map_iff in Hx.
  destruct Hx as (s & <- & _). apply Rmax_r.
Qed.

Lemma posumR_cons c x t : posumR c (x :: t) = Rmax (x - c) 0 + posumR c t.
Proof. reflexivity. Qed.

Lemma posumR_upper c : forall s k, (k <= length s)%nat ->
  sumR (firstn k s) - INR k * c <= posumR c s.
Proof.
  induction s as [|x t IH]; intros k Hk.
  - cbn [length] in Hk. replace k with 0%nat by lia. simpl. unfold posumR. simpl. lra.
  - destruct k as [|k].
    + rewrite firstn_O. pose proof (posumR_nonneg c (x :: t)). simpl. lra.
    + rewrite firstn_cons. cbn [sumR]. cbn [length] in Hk.
      specialize (IH k ltac:(lia)). rewrite posumR_cons, S_INR.
      pose proof (Rmax_l (x - c) 0). lra.
Qed.

Lemma posumR_zero c l : (forall x, In x l -> x <= c) -> posumR c l = 0.
Proof.
  induction l as [|x t IH]; intros H; [reflexivity|].
  rewrite posumR_cons.
  rewrite IH by (intros y Hy; apply H; right; exact Hy).
  specialize (H x (or_introl eq_refl)). rewrite Rmax_right by lra. lra.
Qed.

Lemma posumR_attained c : forall s, descR s ->
  exists k, (k <= length s)%nat /\ sumR (firstn k s) - INR k * c = posumR c s.
Proof.
  unfold descR. induction s as [|x t IH]; intros HS.
  - exists 0%nat. split; [simpl; lia|]. unfold posumR. simpl. lra.
  - apply StronglySorted_inv in HS. destruct HS as [HS HF].
    rewrite Forall_forall in HF.
    destruct (Rle_dec x c) as [Hle|Hgt].
    + exists 0%nat. split; [simpl; lia|].
      rewrite posumR_zero; [rewrite firstn_O; simpl; lra|].
      intros y [Hy|Hy]; [lra|]. specialize (HF y Hy). lra.
    + destruct (IH HS) as (k & Hk & Hv).
      exists (S k). split; [simpl; lia|].
      rewrite firstn_cons, posumR_cons, S_INR. cbn [sumR].
      rewrite Rmax_left by lra. lra.
Qed.

Lemma all_equalR_hd betas :
  all_equalR betas = true -> forall b, In b betas -> b = hd 0 betas.
Proof.
  destruct betas as [|b0 t]; intros H b Hb; [destruct Hb|].
  unfold all_equalR in H. rewrite forallb_forall in H.
  specialize (H b Hb). apply Reqb_true in H. exact H.
Qed.

Lemma all_tinyR_false_nonempty betas : all_tinyR betas = false -> (1 <= length betas)%nat.
Proof. destruct betas; simpl; [discriminate|lia]. Qed.

(** linear penalty (all betas equal, "sparse" regime): componentwise thresholding is the
    best subset, except that the code's value is floored at - alpha *)
Theorem penaliseR_equal sav alpha betas :
  length betas = length sav ->
  all_tinyR betas = false -> all_equalR betas = true ->
  penaliseR sav alpha betas = Rmax (PbestR sav alpha betas) (- alpha).
Proof.
  intros HL Ht He. unfold penaliseR. rewrite Ht, He.
  pose proof (all_tinyR_false_nonempty betas Ht) as Hp. rewrite HL in Hp.
  set (c := hd 0 betas).
  change (sumR (map (fun s => Rmax (s - c) 0) sav)) with (posumR c sav).
  rewrite <- (posumR_perm c _ _ (sort_descR_perm sav)).
  pose proof (all_equalR_hd betas He) as Hc. fold c in Hc.
  assert (Hpen : forall k, (k <= length sav)%nat -> pen_kR betas k = INR k * c).
  { intros k Hk. apply pen_kR_const; [exact Hc|lia]. }
  apply Rle_antisym.
  - destruct (posumR_attained c (sort_descR sav) (sort_descR_sorted sav)) as (k & Hk & Hv).
    rewrite sort_descR_length in Hk.
    destruct k as [|k].
    + rewrite firstn_O in Hv. simpl in Hv.
      pose proof (Rmax_r (PbestR sav alpha betas) (- alpha)). lra.
    + pose proof (PbestR_ge_nth sav alpha betas k HL ltac:(lia)) as Hge.
      rewrite pensavR_nth in Hge by (rewrite sort_descR_length; lia).
      rewrite Hpen in Hge by lia.
      pose proof (Rmax_l (PbestR sav alpha betas) (- alpha)). lra.
  - pose proof (posumR_nonneg c (sort_descR sav)) as Hnn.
    destruct (PbestR_is_nth sav alpha betas HL Hp) as (k & Hk & _ & Hv).
    rewrite pensavR_nth in Hv by (rewrite sort_descR_length; lia).
    rewrite Hpen in Hv by lia.
    pose proof (posumR_upper c (sort_descR sav) (S k)
                  ltac:(rewrite sort_descR_length; lia)) as Hup.
    apply Rmax_lub; lra.
Qed.

Theorem penaliseR_spec sav alpha betas :
  length betas = length sav -> (1 <= length sav)%nat ->
  (forall b, In b betas -> 0 <= b) -> (forall x, In x sav -> 0 <= x) ->
  PbestR sav alpha betas <= penaliseR sav alpha betas <= Rmax (PbestR sav alpha betas) (- alpha).
Proof.
  intros HL Hp Hb Hs. destruct (all_tinyR betas) eqn:Ht.
  - rewrite penaliseR_tiny by assumption. split; [lra|apply Rmax_l].
  - destruct (all_equalR betas) eqn:He.
    + rewrite penaliseR_equal by assumption. split; [apply Rmax_l|lra].
    + rewrite penaliseR_general by assumption. split; [lra|apply Rmax_l].
Qed.

(** the value computed by the code's sort-and-cumulate rule
    (whichever of the three branches runs) is the best over non-empty component sets,
    floored at - alpha in the linear branch only *)
Theorem penaliseR_eq_Pbest sav alpha betas :
  length betas = length sav -> (1 <= length sav)%nat ->
  (forall b, In b betas -> 0 <= b) -> (forall x, In x sav -> 0 <= x) ->
  penaliseR sav alpha betas =
    if all_tinyR betas then PbestR sav alpha betas
    else if all_equalR betas then Rmax (PbestR sav alpha betas) (- alpha)
    else PbestR sav alpha betas.
Proof.
  intros HL Hp Hb Hs.
  destruct (all_tinyR betas) eqn:Ht; [apply penaliseR_tiny; assumption|].
  destruct (all_equalR betas) eqn:He;
    [apply penaliseR_equal; assumption|apply penaliseR_general; assumption].
Qed.

Theorem PbestR_is_best_subset sav alpha betas :
  length betas = length sav -> (1 <= length sav)%nat ->
  (forall J, subset_ok (length sav) J -> subset_valueR sav alpha betas J <= PbestR sav alpha betas) /\
  (exists J, subset_ok (length sav) J /\ subset_valueR sav alpha betas J = PbestR sav alpha betas).
Proof. intros; split; [intros; apply PbestR_upper; auto|apply PbestR_attained; auto]. Qed.

(** ---------- sub-additivity lifts from the savings to the penalised savings ---------- *)

Lemma sumR_map_le3 (f g h : nat -> R) (J : list nat) :
  (forall j, In j J -> f j <= g j + h j) ->
  sumR (map f J) <= sumR (map g J) + sumR (map h J).
Proof.
  induction J as [|j J IH]; intros H; cbn [map sumR]; [lra|].
  assert (f j <= g j + h j) by (apply H; left; reflexivity).
  assert (sumR (map f J) <= sumR (map g J) + sumR (map h J))
    by (apply IH; intros k Hk; apply H; right; exact Hk).
  lra.
Qed.

Theorem PbestR_subadditive a l r alpha betas :
  length a = length betas -> length l = length betas -> length r = length betas ->
  (1 <= length betas)%nat ->
  (forall b, In b betas -> 0 <= b) ->
  (forall j, (j < length betas)%nat -> nthR a j <= nthR l j + nthR r j) ->
  PbestR a alpha betas <= PbestR l alpha betas + (alpha + sumR betas) + PbestR r alpha betas.
Proof.
  intros Ha Hl Hr Hp Hb Hsub.
  destruct (PbestR_attained a alpha betas ltac:(lia) ltac:(lia)) as (J & HJ & HV).
  assert (HJl : subset_ok (length l) J) by (rewrite Hl, <- Ha; exact HJ).
  assert (HJr : subset_ok (length r) J) by (rewrite Hr, <- Ha; exact HJ).
  pose proof (PbestR_upper l alpha betas J ltac:(lia) HJl) as Hul.
  pose proof (PbestR_upper r alpha betas J ltac:(lia) HJr) as Hur.
  pose proof (pen_kR_le_sum betas (length J) Hb) as Hpen.
  assert (Hsum : sumR (map (nthR a) J) <= sumR (map (nthR l) J) + sumR (map (nthR r) J)).
  { apply sumR_map_le3. intros j Hj. apply Hsub.
    destruct HJ as (_ & _ & Hlt). specialize (Hlt j Hj). lia. }
  rewrite <- HV. unfold subset_valueR in *. lra.
Qed.

Theorem penaliseR_subadditive a l r alpha betas :
  length a = length betas -> length l = length betas -> length r = length betas ->
  (1 <= length betas)%nat ->
  (forall b, In b betas -> 0 <= b) ->
  (forall x, In x a -> 0 <= x) -> (forall x, In x l -> 0 <= x) -> (forall x, In x r -> 0 <= x) ->
  (forall j, (j < length betas)%nat -> nthR a j <= nthR l j + nthR r j) ->
  penaliseR a alpha betas <= penaliseR l alpha betas + (alpha + sumR betas) + penaliseR r alpha betas.
Proof.
  intros Ha Hl Hr Hp Hb Hna Hnl Hnr Hsub.
  pose proof (PbestR_subadditive a l r alpha betas Ha Hl Hr Hp Hb Hsub) as HP.
  pose proof (sumR_nonneg betas Hb) as HS.
  destruct (all_tinyR betas) eqn:Ht.
  - rewrite !penaliseR_tiny by (assumption || lia). exact HP.
  - destruct (all_equalR betas) eqn:He.
    + rewrite !penaliseR_equal by (assumption || lia).
      pose proof (Rmax_l (PbestR l alpha betas) (- alpha)).
      pose proof (Rmax_r (PbestR l alpha betas) (- alpha)).
      pose proof (Rmax_l (PbestR r alpha betas) (- alpha)).
      pose proof (Rmax_r (PbestR r alpha betas) (- alpha)).
      apply Rmax_lub; lra.
    + rewrite !penaliseR_general by assumption. exact HP.
Qed.

(** * Part B: the unpruned recursion over R (twin of Proofs/CapaSpec.v and of the
      specification layer of Proofs/CapaDP.v)                            *)

(** [anom], [a_start], [a_end], [a_ok], [valid_from], [Valid], [coll_starts], [to_anom],
    [is_point] of Proofs/CapaSpec.v only talk about nat and are reused. *)

Lemma maxlR_ge_head d l : d <= maxlR d l.
Proof.
  unfold maxlR. revert d; induction l as [|a l IH]; intros d; cbn [fold_left]; [lra|].
  specialize (IH (Rmax d a)). pose proof (Rmax_l d a). lra.
Qed.
Lemma maxlR_ge_in d l y : In y l -> y <= maxlR d l.
Proof.
  revert d; induction l as [|a l IH]; intros d Hin; [destruct Hin|].
  destruct Hin as [->|Hin].
  - pose proof (maxlR_ge_head (Rmax d y) l) as H. pose proof (Rmax_r d y).
    unfold maxlR in *. cbn [fold_left]. lra.
  - unfold maxlR in *. cbn [fold_left]. now apply IH.
Qed.
Lemma maxlR_in d l : maxlR d l = d \/ In (maxlR d l) l.
Proof.
  unfold maxlR. revert d; induction l as [|a l IH]; intros d; cbn [fold_left]; [now left|].
  destruct (IH (Rmax d a)) as [H|H]; [|now right; right].
  rewrite H. unfold Rmax. destruct (Rle_dec d a); [right; left; reflexivity|left; reflexivity].
Qed.
Lemma maxlR_le_iff (l : list R) : forall d z,
  maxlR d l <= z <-> d <= z /\ forall x, In x l -> x <= z.
Proof.
  intros d z. split.
  - intros H. split.
    + pose proof (maxlR_ge_head d l). lra.
    + intros x Hx. pose proof (maxlR_ge_in d l x Hx). lra.
  - intros [H1 H2]. destruct (maxlR_in d l) as [E|E]; [rewrite E; exact H1|now apply H2].
Qed.

Lemma app_nthR_lt l r i : (i < length l)%nat -> nthR (l ++ r) i = nthR l i.
Proof. intros H. unfold nthR. now apply app_nth1. Qed.
Lemma app_nthR_last l x k : length l = k -> nthR (l ++ [x]) k = x.
Proof.
  intros <-. unfold nthR. rewrite app_nth2 by lia. now rewrite Nat.sub_diag.
Qed.

Section SpecR.
Variable pc : nat -> nat -> R.   (* penalised saving of the collective anomaly [s,e) *)
Variable pp : nat -> R.          (* penalised saving of the point anomaly at t *)
Variables m M : nat.

Definition a_valR (a : anom) : R := match a with Coll s e => pc s e | Pt t => pp t end.
(** total penalised saving of an anomaly set (twin of [value]) *)
Definition totalR (l : list anom) : R := sumR (map a_valR l).

(** unpruned recursion: GR 0 = 0,
    GR (S t) = max (GR t) (GR t + pp t) (max_{s : m <= S t - s <= M} GR s + pc s (S t)) *)
Definition gnextR (tab : list R) (T : nat) : R :=
  let gt := nthR tab (T - 1) in
  maxlR (Rmax gt (gt + pp (T - 1)))
        (map (fun s => nthR tab s + pc s T) (coll_starts m M T)).
Fixpoint GRtab (t : nat) : list R :=
  match t with O => [0] | S t' => GRtab t' ++ [gnextR (GRtab t') (S t')] end.
Definition GR (t : nat) : R := nthR (GRtab t) t.

Hypothesis Hm1 : (1 <= m)%nat.

Notation Valid := (Valid m M).
Notation valid_from := (valid_from m M).

Lemma in_coll_startsR T s :
  In s (coll_starts m M T) <-> (s + m <= T /\ T <= s + M)%nat.
Proof. apply in_coll_starts. exact Hm1. Qed.

Lemma GRtab_length t : length (GRtab t) = S t.
Proof using.
  clear Hm1.
  induction t as [|t IHt]; cbn [GRtab]; [reflexivity|]. rewrite app_length, IHt. cbn [length]. lia.
Qed.

Lemma GRtab_nth s t : (s <= t)%nat -> nthR (GRtab t) s = GR s.
Proof using.
  clear Hm1.
  induction t as [|t IH]; intros H.
  - now replace s with 0%nat by lia.
  - destruct (Nat.eq_dec s (S t)) as [->|Hn]; [reflexivity|].
    cbn [GRtab]. rewrite app_nthR_lt by (rewrite GRtab_length; lia).
    apply IH. lia.
Qed.

Lemma GR_0 : GR 0 = 0.
Proof using. clear Hm1. reflexivity. Qed.

Lemma GR_S t :
  GR (S t) = maxlR (Rmax (GR t) (GR t + pp t))
                   (map (fun s => GR s + pc s (S t)) (coll_starts m M (S t))).
Proof.
  unfold GR at 1. cbn [GRtab].
  rewrite app_nthR_last by apply GRtab_length.
  unfold gnextR. replace (S t - 1)%nat with t by lia.
  rewrite GRtab_nth by lia. f_equal.
  apply map_ext_in. intros s Hs. apply in_coll_startsR in Hs.
  rewrite GRtab_nth by lia. reflexivity.
Qed.

Lemma GR_step_id t : GR t <= GR (S t).
Proof.
  rewrite GR_S. eapply Rle_trans; [|apply maxlR_ge_head]. apply Rmax_l.
Qed.
Lemma GR_step_pt t : GR t + pp t <= GR (S t).
Proof.
  rewrite GR_S. eapply Rle_trans; [|apply maxlR_ge_head]. apply Rmax_r.
Qed.
Lemma GR_step_coll s e : (s + m <= e)%nat -> (e <= s + M)%nat -> GR s + pc s e <= GR e.
Proof.
  intros H1 H2. destruct e as [|e]; [lia|]. rewrite GR_S. apply maxlR_ge_in.
  apply (in_map (fun s => GR s + pc s (S e))). apply in_coll_startsR. lia.
Qed.

Lemma GR_attained_step t :
  GR (S t) = GR t \/ GR (S t) = GR t + pp t \/
  exists s, (s + m <= S t)%nat /\ (S t <= s + M)%nat /\ GR (S t) = GR s + pc s (S t).
Proof.
  rewrite GR_S.
  destruct (maxlR_in (Rmax (GR t) (GR t + pp t))
              (map (fun s => GR s + pc s (S t)) (coll_starts m M (S t)))) as [H|H].
  - rewrite H. unfold Rmax. destruct (Rle_dec (GR t) (GR t + pp t)); auto.
  - right; right. apply in_map_iff in H as (s & E & Hs). apply in_coll_startsR in Hs.
    exists s. split; [lia|]. split; [lia|]. now rewrite <- E.
Qed.

Theorem GR_mono T : GR T <= GR (S T).
Proof. apply GR_step_id. Qed.

Lemma GR_mono_le s t : (s <= t)%nat -> GR s <= GR t.
Proof.
  induction t as [|t IH]; intros H.
  - replace s with 0%nat by lia. lra.
  - destruct (Nat.eq_dec s (S t)) as [->|Hn]; [lra|].
    eapply Rle_trans; [apply IH; lia|apply GR_step_id].
Qed.

Theorem GR_nonneg T : 0 <= GR T.
Proof. rewrite <- GR_0. apply GR_mono_le. lia. Qed.

Lemma totalR_snoc l a : totalR (l ++ [a]) = totalR l + a_valR a.
Proof using. clear Hm1. unfold totalR. rewrite map_app, sumR_app. cbn [map sumR]. lra. Qed.

Lemma aR_step a : a_ok m M a -> GR (a_start a) + a_valR a <= GR (a_end a).
Proof.
  destruct a as [s e|t]; cbn [a_ok a_start a_end a_valR].
  - intros [H1 H2]. now apply GR_step_coll.
  - intros _. apply GR_step_pt.
Qed.

Lemma GR_upper_from l : forall lo T, valid_from lo l T -> GR lo + totalR l <= GR T.
Proof.
  induction l as [|a l IH]; intros lo T; cbn [CapaSpec.valid_from].
  - intros H. unfold totalR. cbn [map sumR]. pose proof (GR_mono_le lo T H). lra.
  - intros (H1 & H2 & H3). apply IH in H3. pose proof (aR_step a H2) as Ha.
    pose proof (GR_mono_le lo (a_start a) H1) as Hlo.
    unfold totalR in *. cbn [map sumR]. lra.
Qed.

(** no admissible anomaly set beats GR *)
Theorem GR_upper : forall T l, Valid l T -> totalR l <= GR T.
Proof.
  intros T l H. apply GR_upper_from in H. rewrite GR_0 in H. lra.
Qed.

Theorem GR_attained : forall T, exists l, Valid l T /\ totalR l = GR T.
Proof.
  induction T as [T IH] using lt_wf_ind.
  destruct T as [|t].
  - exists []. split; [cbn; lia|reflexivity].
  - destruct (GR_attained_step t) as [E|[E|(s & H1 & H2 & E)]].
    + destruct (IH t ltac:(lia)) as (l & V & P). exists l. split.
      * apply valid_from_weaken with (T := t); [exact V|lia].
      * now rewrite E.
    + destruct (IH t ltac:(lia)) as (l & V & P). exists (l ++ [Pt t]). split.
      * apply valid_from_snoc. cbn [a_start a_end a_ok]. split; [exact V|]. split; [exact I|lia].
      * rewrite totalR_snoc, E, P. reflexivity.
    + destruct (IH s ltac:(lia)) as (l & V & P). exists (l ++ [Coll s (S t)]). split.
      * apply valid_from_snoc. cbn [a_start a_end a_ok]. split; [exact V|]. split; [lia|lia].
      * rewrite totalR_snoc, E, P. reflexivity.
Qed.
End SpecR.

(** ---------- the recursion ignores changes of non-positive options ---------- *)
Section InsensitiveR.
Variables (Pc Pc' : nat -> nat -> R) (Pp Pp' : nat -> R) (m M : nat).
Hypothesis HPc : forall s e, Pc s e <= Pc' s e <= Rmax (Pc s e) 0.
Hypothesis HPp : forall t, Pp t <= Pp' t <= Rmax (Pp t) 0.

Lemma coll_startsR_lt T s : In s (coll_starts m M T) -> (s < T)%nat.
Proof using.
  unfold coll_starts. intros H. apply filter_In in H. destruct H as [H _].
  apply in_seq in H. lia.
Qed.

Lemma GRtab_nth_stable (P : nat -> nat -> R) (Q : nat -> R) t i : (i <= t)%nat ->
  nthR (GRtab P Q m M (S t)) i = nthR (GRtab P Q m M t) i.
Proof using.
  intros H. cbn [GRtab]. apply app_nthR_lt. rewrite GRtab_length. lia.
Qed.

Lemma GRtab_nth_last (P : nat -> nat -> R) (Q : nat -> R) t :
  nthR (GRtab P Q m M (S t)) (S t) = gnextR P Q m M (GRtab P Q m M t) (S t).
Proof using. cbn [GRtab]. apply app_nthR_last. apply GRtab_length. Qed.

Lemma gnextR_ge_prev (P : nat -> nat -> R) (Q : nat -> R) tab T :
  nthR tab (T - 1) <= gnextR P Q m M tab T.
Proof using.
  unfold gnextR. cbv zeta.
  eapply Rle_trans; [|apply maxlR_ge_head]. apply Rmax_l.
Qed.

(** the table of optimal values is non-decreasing *)
Lemma GRtab_mono (P : nat -> nat -> R) (Q : nat -> R) : forall t i j, (i <= j <= t)%nat ->
  nthR (GRtab P Q m M t) i <= nthR (GRtab P Q m M t) j.
Proof using.
  induction t as [|t IH]; intros i j Hij.
  - replace i with 0%nat by lia. replace j with 0%nat by lia. lra.
  - destruct (Nat.eq_dec j (S t)) as [->|Hne].
    + destruct (Nat.eq_dec i (S t)) as [->|Hne']; [lra|].
      rewrite GRtab_nth_last, (GRtab_nth_stable P Q t i) by lia.
      eapply Rle_trans; [|apply gnextR_ge_prev].
      replace (S t - 1)%nat with t by lia. apply IH. lia.
    + rewrite !GRtab_nth_stable by lia. apply IH. lia.
Qed.

Lemma gnextR_insensitive tab T :
  (forall s, (s < T)%nat -> nthR tab s <= nthR tab (T - 1)) ->
  gnextR Pc' Pp' m M tab T = gnextR Pc Pp m M tab T.
Proof.
  intros Hmono. unfold gnextR. cbv zeta.
  set (gt := nthR tab (T - 1)).
  set (d := Rmax gt (gt + Pp (T - 1))).
  set (d' := Rmax gt (gt + Pp' (T - 1))).
  set (L := map (fun s => nthR tab s + Pc s T) (coll_starts m M T)).
  set (L' := map (fun s => nthR tab s + Pc' s T) (coll_starts m M T)).
  assert (Hd : d' = d).
  { unfold d, d'. pose proof (HPp (T - 1)%nat) as Hq. clear - Hq. rmax. }
  apply Rle_antisym; apply maxlR_le_iff; split.
  - rewrite Hd. apply maxlR_ge_head.
  - intros x Hx. unfold L' in Hx. apply in_map_iff in Hx. destruct Hx as (s & <- & Hs).
    assert (H1 : nthR tab s + Pc s T <= maxlR d L).
    { apply maxlR_ge_in. unfold L. apply in_map_iff. exists s. split; [reflexivity|exact Hs]. }
    assert (H2 : nthR tab s <= maxlR d L).
    { eapply Rle_trans; [apply Hmono, coll_startsR_lt; exact Hs|].
      eapply Rle_trans; [|apply maxlR_ge_head]. unfold d. fold gt. apply Rmax_l. }
    pose proof (HPc s T) as Hq. clear - Hq H1 H2. rmax.
  - rewrite <- Hd. apply maxlR_ge_head.
  - intros x Hx. unfold L in Hx. apply in_map_iff in Hx. destruct Hx as (s & <- & Hs).
    assert (H1 : nthR tab s + Pc' s T <= maxlR d' L').
    { apply maxlR_ge_in. unfold L'. apply in_map_iff. exists s. split; [reflexivity|exact Hs]. }
    pose proof (HPc s T) as Hq. lra.
Qed.

Lemma GRtab_insensitive : forall T, GRtab Pc' Pp' m M T = GRtab Pc Pp m M T.
Proof.
  induction T as [|t IH]; [reflexivity|].
  cbn [GRtab]. rewrite IH. f_equal. f_equal.
  apply gnextR_insensitive. intros s Hs.
  replace (S t - 1)%nat with t by lia. apply GRtab_mono. lia.
Qed.

Theorem GR_insensitive : forall T, GR Pc' Pp' m M T = GR Pc Pp m M T.
Proof. intros T. unfold GR. rewrite GRtab_insensitive. reflexivity. Qed.
End InsensitiveR.

(** with alpha >= 0 the optimal values are the same whether an anomaly is valued by the
    implemented [penaliseR] or by the set-level optimum [PbestR] *)
Corollary GR_penalise_eq_Pbest
  (Sc : nat -> nat -> list R) (Sp : nat -> list R) (ac : R) (bc : list R) (ap : R) (bp : list R)
  (m M : nat) :
  0 <= ac -> 0 <= ap -> (1 <= length bc)%nat -> (1 <= length bp)%nat ->
  (forall s e, length (Sc s e) = length bc) -> (forall t, length (Sp t) = length bp) ->
  (forall b, In b bc -> 0 <= b) -> (forall b, In b bp -> 0 <= b) ->
  (forall s e x, In x (Sc s e) -> 0 <= x) -> (forall t x, In x (Sp t) -> 0 <= x) ->
  forall T,
    GR (PcR Sc ac bc) (PpR Sp ap bp) m M T =
    GR (fun s e => PbestR (Sc s e) ac bc) (fun t => PbestR (Sp t) ap bp) m M T.
Proof.
  intros Hac Hap Hbc Hbp HLc HLp Hnbc Hnbp Hnc Hnp T.
  apply GR_insensitive.
  - intros s e. unfold PcR.
    pose proof (penaliseR_spec (Sc s e) ac bc ltac:(rewrite HLc; reflexivity)
                  ltac:(rewrite HLc; exact Hbc) Hnbc (Hnc s e)) as H.
    clear - H Hac. rmax.
  - intros t. unfold PpR.
    pose proof (penaliseR_spec (Sp t) ap bp ltac:(rewrite HLp; reflexivity)
                  ltac:(rewrite HLp; exact Hbp) Hnbp (Hnp t)) as H.
    clear - H Hap. rmax.
Qed.

(** * Part C: the pruned dynamic programme over R *)

(** [capaR] is the loop of Proofs/CapaSkeleton.v over R with exact sums ([capaR_C]): the
    structural theorems are those of the skeleton, and optimality is the robustness
    analysis of Proofs/CapaInexact.v at eps = 0. *)

Section ModelR.
Variable Sc : nat -> nat -> list R.
Variable Sp : nat -> list R.
Variables (ac : R) (bc : list R) (ap : R) (bp : list R).
Variables (m M delay : nat).
Hypothesis Hm2 : (2 <= m)%nat.
Hypothesis HmM : (m <= M)%nat.

Notation PC := (PcR Sc ac bc).
Notation PP := (PpR Sp ap bp).
Notation K := (ac + sumR bc).
Notation capaM := (capaR Sc Sp ac bc ap bp m M delay).
Notation GG := (GR PC PP m M).
Notation ValidM := (Valid m M).
Notation totalM := (totalR PC PP).
Notation VcR := (fun (a T : nat) (g : R) => g + PC a T).
Notation VpR := (fun (t : nat) (g : R) => g + PP t).
Notation WkR := (fun (_ _ : nat) (c : R) => c + K).
Notation runK := (crun Rn VcR VpR WkR m M delay).
Notation Gk := (cG Rn VcR VpR WkR m M delay).

Lemma capaR_C n : capaM n = ccapa Rn VcR VpR WkR m M delay n.
Proof using. symmetry. rewrite <- capaA_exact. now apply ccapa_A. Qed.

Lemma scoresR_nth n scores c p t : capaM n = (scores, c, p) -> (t < n)%nat ->
  nthR scores t = Gk (S t).
Proof using. rewrite capaR_C. apply (cscores_nth Rn). Qed.

(** the chain from any [e <= n] has total opt[e] *)
Lemma chainR_value n fuel e : (e <= fuel)%nat -> (e <= n)%nat ->
  totalM (map to_anom (chain fuel (gcastart Rn (runK n)) e)) = Gk e.
Proof using Hm2 HmM.
  apply (crun_chain_value Rn VcR VpR WkR m M delay Hm2 HmM totalM); [reflexivity| |];
    intros; apply totalR_snoc.
Qed.

Theorem capaR_scores_length n scores c p : capaM n = (scores, c, p) -> length scores = n.
Proof using Hm2 HmM. rewrite capaR_C. apply (ccapa_scores_length Rn). Qed.

Theorem capaR_wellformed n scores c p : capaM n = (scores, c, p) ->
  ValidM (map to_anom (capa_predict false c p)) n.
Proof using Hm2 HmM. rewrite capaR_C. now apply (ccapa_valid Rn). Qed.

Theorem capaR_value_is_final_score n scores c p : capaM n = (scores, c, p) ->
  totalM (map to_anom (capa_predict false c p)) = nthR (0 :: scores) n.
Proof using Hm2 HmM.
  intros Hc. destruct n as [|n].
  - rewrite capaR_C in Hc. rewrite (ccapa_predict_chain Rn _ _ _ _ _ _ _ _ _ _ Hc).
    unfold totalR. reflexivity.
  - change (nthR (0 :: scores) (S n)) with (nthR scores n).
    rewrite (scoresR_nth _ _ _ _ n Hc) by lia. rewrite capaR_C in Hc.
    rewrite (ccapa_predict_chain Rn _ _ _ _ _ _ _ _ _ _ Hc). now apply chainR_value.
Qed.

Theorem capaR_ignore_points n scores c p : capaM n = (scores, c, p) ->
  capa_predict true c p = filter (fun se => negb (is_point se)) (capa_predict false c p).
Proof using. rewrite capaR_C. apply (ccapa_ignore_points Rn). Qed.

Lemma GkR_mono t : Gk t <= Gk (S t).
Proof using Hm2 HmM.
  exact (cG_mono Rn VcR VpR WkR m M delay Rle Rle_refl Rle_trans
           Rltb_true_le Rltb_false_le t).
Qed.

Theorem capaR_scores_monotone n scores c p : capaM n = (scores, c, p) ->
  forall t, (S t < n)%nat -> nthR scores t <= nthR scores (S t).
Proof using Hm2 HmM.
  intros Hc t Ht. rewrite !(scoresR_nth n scores c p) by (try exact Hc; lia). apply GkR_mono.
Qed.

Lemma GkR_nonneg i : 0 <= Gk i.
Proof using Hm2 HmM.
  induction i as [|i IH]; [apply Rle_refl|]. pose proof (GkR_mono i). lra.
Qed.

Theorem capaR_scores_nonneg n scores c p : capaM n = (scores, c, p) ->
  forall t, (t < n)%nat -> 0 <= nthR scores t.
Proof using Hm2 HmM.
  intros Hc t Ht. rewrite (scoresR_nth n scores c p) by assumption. apply GkR_nonneg.
Qed.

(** ** Optimality of the pruned programme *)
Hypothesis Hd : (m <= delay + 1)%nat.
Hypothesis Hsub : forall s k e, (s + m <= k)%nat -> (k + m <= e)%nat -> (e <= s + M)%nat ->
  PC s e <= PC s k + K + PC k e.

Lemma one_le_mR : (1 <= m)%nat.
Proof using Hm2. clear - Hm2. lia. Qed.

(** the stored values are the optima of the prefixes: from below by [Gk_lower] with
    eps = 0, from above because the stored value is the total of its own chain *)
Lemma GkR_opt i : Gk i = GG i.
Proof using Hm2 HmM Hd Hsub.
  destruct (exact_steps_ok PC PP K 0 (Rle_refl 0)) as (H1 & H2 & H3).
  apply Rle_antisym.
  - rewrite <- (chainR_value i i i) by lia. apply (GR_upper PC PP m M one_le_mR i).
    apply (chain_valid_from m M Hm2 _ i); [|lia|lia].
    intros j Hj. apply (crun_ptr Rn); assumption.
  - pose proof (Gk_lower VcR VpR WkR m M delay PC PP K 0 i GG Hm2 HmM eq_refl
                  (GR_attained_step PC PP m M one_le_mR) (Rle_refl 0)
                  (fun a T _ => H1 a T _) (fun t _ => H2 t _) Hd Hsub
                  (fun a T _ => H3 a T _) i (le_n i)) as H.
    unfold Eb in H. lra.
Qed.

Theorem capaR_scores_optimal n scores c p : capaM n = (scores, c, p) ->
  forall t, (t < n)%nat -> nthR scores t = GG (S t).
Proof using Hm2 HmM Hd Hsub.
  intros Hc t Ht. rewrite (scoresR_nth n scores c p) by assumption. apply GkR_opt.
Qed.

(** the predicted anomaly set attains the optimum GR n *)
Corollary capaR_value_optimal n scores c p : capaM n = (scores, c, p) ->
  totalM (map to_anom (capa_predict false c p)) = GG n.
Proof using Hm2 HmM Hd Hsub.
  intros Hc. rewrite capaR_C in Hc.
  rewrite (ccapa_predict_chain Rn _ _ _ _ _ _ _ _ _ _ Hc), chainR_value by lia.
  apply GkR_opt.
Qed.

Theorem capaR_optimal n scores c p : capaM n = (scores, c, p) ->
  forall l, ValidM l n -> totalM l <= totalM (map to_anom (capa_predict false c p)).
Proof using Hm2 HmM Hd Hsub.
  intros Hc l Hl. rewrite (capaR_value_optimal n scores c p Hc).
  now apply (GR_upper PC PP m M one_le_mR).
Qed.

End ModelR.

(** * Part C (continued): the main theorems in closed form, delay = m - 1 *)

(** run_base_capa applies a pruning decision m - 1 iterations after it is taken *)
Definition capaR_code Sc Sp ac bc ap bp m M n := capaR Sc Sp ac bc ap bp m M (m - 1) n.

Section MainR.
Variables (Sc : nat -> nat -> list R) (Sp : nat -> list R) (ac : R) (bc : list R) (ap : R) (bp : list R).
Variables (m M n : nat).
Hypothesis Hm : (2 <= m)%nat.
Hypothesis HM : (m <= M)%nat.

Notation PC := (PcR Sc ac bc).
Notation PP := (PpR Sp ap bp).

(** hypotheses of the property, word for word those of Properties/C03.v: p >= 1 columns,
    non-negative penalties, non-negative savings that are sub-additive under splitting
    (column by column) *)
Definition penalties_okR : Prop :=
  (1 <= length bc)%nat /\ (1 <= length bp)%nat /\ 0 <= ac /\ 0 <= ap /\
  (forall b, In b bc -> 0 <= b) /\ (forall b, In b bp -> 0 <= b).
Definition savings_okR : Prop :=
  (forall s e, length (Sc s e) = length bc) /\ (forall t, length (Sp t) = length bp) /\
  (forall s e x, In x (Sc s e) -> 0 <= x) /\ (forall t x, In x (Sp t) -> 0 <= x).
Definition subadditiveR : Prop :=
  forall s k e j, (s + m <= k)%nat -> (k + m <= e)%nat -> (e <= s + M)%nat -> (j < length bc)%nat ->
    nthR (Sc s e) j <= nthR (Sc s k) j + nthR (Sc k e) j.

Lemma HsubR_from_columns : penalties_okR -> savings_okR -> subadditiveR ->
  forall s k e, (s + m <= k)%nat -> (k + m <= e)%nat -> (e <= s + M)%nat ->
    PC s e <= PC s k + (ac + sumR bc) + PC k e.
Proof.
  intros (Hb1 & _ & _ & _ & Hbc & _) (Hl & _ & Hnn & _) Hsa s k e H1 H2 H3.
  unfold PcR. apply penaliseR_subadditive; auto.
  - intros x Hx. eapply Hnn; eauto.
  - intros x Hx. eapply Hnn; eauto.
  - intros x Hx. eapply Hnn; eauto.
Qed.

Variables (scores : list R) (c p : list (nat * nat)).
Hypothesis Hrun : capaR_code Sc Sp ac bc ap bp m M n = (scores, c, p).

(** (1) the cumulative score at every time is the optimum for that prefix, the optimum
        being taken w.r.t. the TRUE best-subset penalised saving [PbestR] *)
Theorem capaR_scores_are_prefix_optima : penalties_okR -> savings_okR -> subadditiveR ->
  forall t, (t < n)%nat ->
    nthR scores t = GR (fun s e => PbestR (Sc s e) ac bc) (fun t => PbestR (Sp t) ap bp) m M (S t).
Proof.
  intros Hp Hs Hsa t Ht.
  pose proof Hp as (B1 & B2 & A1 & A2 & N1 & N2). pose proof Hs as (L1 & L2 & S1 & S2).
  rewrite <- GR_penalise_eq_Pbest by assumption.
  eapply (capaR_scores_optimal Sc Sp ac bc ap bp m M (m - 1)); eauto; [lia|].
  apply HsubR_from_columns; auto.
Qed.

(** (2) the reported anomalies are a valid anomaly set (any savings) *)
Theorem capaR_output_valid :
  Valid m M (map to_anom (capa_predict false c p)) n.
Proof. eapply capaR_wellformed; eauto. Qed.

(** (3) re-evaluating the reported anomalies gives exactly the final score (any savings) *)
Theorem capaR_reevaluation_gives_final_score :
  totalR PC PP (map to_anom (capa_predict false c p)) = nthR (0 :: scores) n.
Proof. eapply capaR_value_is_final_score; eauto. Qed.

(** (4) the reported anomalies maximise the total penalised saving over ALL valid sets *)
Theorem capaR_output_is_maximiser : penalties_okR -> savings_okR -> subadditiveR ->
  forall l, Valid m M l n ->
    totalR PC PP l <= totalR PC PP (map to_anom (capa_predict false c p)).
Proof.
  intros Hp Hs Hsa. eapply capaR_optimal; eauto; [lia|]. apply HsubR_from_columns; auto.
Qed.

(** (5) scores are non-negative and non-decreasing (any savings) *)
Theorem capaR_scores_nonneg_monotone :
  (forall t, (t < n)%nat -> 0 <= nthR scores t) /\
  (forall t, (S t < n)%nat -> nthR scores t <= nthR scores (S t)).
Proof. split; [eapply capaR_scores_nonneg|eapply capaR_scores_monotone]; eauto. Qed.

(** (6) ignore_point_anomalies drops exactly the point anomalies *)
Theorem capaR_ignore_point_anomalies :
  capa_predict true c p = filter (fun se => negb (is_point se)) (capa_predict false c p).
Proof. eapply capaR_ignore_points; eauto. Qed.
End MainR.

(** * Part D: embedding -- the real model on integer savings / penalties is the image
      of the executable model                                            *)

Lemma Reqb_IZR x y : Reqb (IZR x) (IZR y) = (x =? y)%Z.
Proof.
  destruct (x =? y)%Z eqn:E.
  - apply Reqb_true. apply Z.eqb_eq in E. now subst.
  - apply Z.eqb_neq in E. unfold Reqb. destruct (Req_EM_T (IZR x) (IZR y)) as [H|H]; [|reflexivity].
    apply eq_IZR in H. contradiction.
Qed.

Lemma Rmax_IZR x y : Rmax (IZR x) (IZR y) = IZR (Z.max x y).
Proof.
  destruct (Z.max_spec x y) as [[H ->]|[H ->]].
  - apply Rmax_right. apply IZR_le. lia.
  - apply Rmax_left. apply IZR_le. lia.
Qed.

Lemma sumR_IZR l : sumR (map IZR l) = IZR (sumZ l).
Proof. induction l as [|x t IH]; cbn [map sumR sumZ]; [reflexivity|]. now rewrite IH, plus_IZR. Qed.

Lemma hd_IZR l : hd 0 (map IZR l) = IZR (hd 0%Z l).
Proof. destruct l; reflexivity. Qed.

Lemma insert_descR_IZR x l : insert_descR (IZR x) (map IZR l) = map IZR (insert_desc x l).
Proof.
  induction l as [|y t IH]; cbn [map insert_descR insert_desc]; [reflexivity|].
  rewrite Rltb_IZR. destruct (y <? x)%Z; cbn [map]; [reflexivity|]. now rewrite IH.
Qed.

Lemma sort_descR_IZR l : sort_descR (map IZR l) = map IZR (sort_desc l).
Proof.
  induction l as [|x t IH]; cbn [map sort_descR sort_desc]; [reflexivity|].
  now rewrite IH, insert_descR_IZR.
Qed.

Lemma cumsumR_from_IZR l : forall acc,
  cumsumR_from (IZR acc) (map IZR l) = map IZR (cumsum_from acc l).
Proof.
  induction l as [|x t IH]; intros acc; cbn [map cumsumR_from cumsum_from]; [reflexivity|].
  rewrite <- plus_IZR. now rewrite IH.
Qed.

Lemma cumsumR_IZR l : cumsumR (map IZR l) = map IZR (cumsum l).
Proof. exact (cumsumR_from_IZR l 0%Z). Qed.

Lemma sub_listsR_IZR : forall a b, sub_listsR (map IZR a) (map IZR b) = map IZR (sub_lists a b).
Proof.
  induction a as [|x a IH]; intros b; [reflexivity|].
  destruct b as [|y b]; [reflexivity|].
  cbn [map]. rewrite sub_listsR_cons, sub_lists_cons. cbn [map]. now rewrite IH, minus_IZR.
Qed.

Lemma forallb_map {A B} (f : B -> bool) (g : A -> B) l : forallb f (map g l) = forallb (fun x => f (g x)) l.
Proof. induction l as [|x t IH]; cbn [map forallb]; [reflexivity|]. now rewrite IH. Qed.

Lemma forallb_ext_all {A} (f g : A -> bool) l : (forall x, f x = g x) -> forallb f l = forallb g l.
Proof. intros H. induction l as [|x t IH]; cbn [forallb]; [reflexivity|]. now rewrite H, IH. Qed.

Lemma all_tinyR_IZR l : all_tinyR (map IZR l) = all_tiny l.
Proof.
  unfold all_tinyR, all_tiny. rewrite forallb_map. apply forallb_ext_all. intros b.
  apply (Rleb_IZR b 0).
Qed.

Lemma all_equalR_IZR l : all_equalR (map IZR l) = all_equal l.
Proof.
  destruct l as [|b0 t]; [reflexivity|].
  change (all_equalR (map IZR (b0 :: t)))
    with (forallb (fun b => Reqb b (IZR b0)) (map IZR (b0 :: t))).
  change (all_equal (b0 :: t)) with (forallb (fun b => (b =? b0)%Z) (b0 :: t)).
  rewrite forallb_map. apply forallb_ext_all. intros b. apply Reqb_IZR.
Qed.

Lemma argmaxR_from_IZR l : forall bi b i,
  argmaxR_from bi (IZR b) i (map IZR l) = liftp (argmax_from bi b i l).
Proof.
  induction l as [|x t IH]; intros bi b i; cbn [map argmaxR_from argmax_from]; [reflexivity|].
  rewrite Rltb_IZR. destruct (b <? x)%Z; apply IH.
Qed.

Lemma argmaxR_IZR l : argmaxR (map IZR l) = option_map liftp (argmax l).
Proof.
  destruct l as [|x t]; cbn [map argmaxR argmax option_map]; [reflexivity|].
  now rewrite argmaxR_from_IZR.
Qed.

(** penalise_savings commutes with the injection of Z into R *)
Theorem penaliseR_IZR sav alpha betas :
  penaliseR (map IZR sav) (IZR alpha) (map IZR betas) = IZR (penalise sav alpha betas).
Proof.
  unfold penaliseR, penalise. rewrite all_tinyR_IZR, all_equalR_IZR.
  destruct (all_tiny betas).
  - now rewrite sumR_IZR, minus_IZR.
  - destruct (all_equal betas).
    + rewrite hd_IZR, map_map.
      rewrite (map_ext _ (fun s => IZR (Z.max (s - hd 0%Z betas) 0))).
      * rewrite <- (map_map (fun s => Z.max (s - hd 0%Z betas) 0) IZR), sumR_IZR, minus_IZR.
        reflexivity.
      * intros s. rewrite <- minus_IZR. apply (Rmax_IZR (s - hd 0%Z betas) 0).
    + rewrite sort_descR_IZR, sub_listsR_IZR, cumsumR_IZR, map_map.
      rewrite (map_ext _ (fun c => IZR (c - alpha))) by (intros c; now rewrite minus_IZR).
      rewrite <- (map_map (fun c => (c - alpha)%Z) IZR), argmaxR_IZR.
      destruct (argmax (map (fun c => (c - alpha)%Z) (cumsum (sub_lists (sort_desc sav) betas))))
        as [[i v]|]; reflexivity.
Qed.

(** both models are the loop of Proofs/CapaSkeleton.v, which commutes with [IZR] *)
Theorem capaR_of_Z : forall (Sc : nat -> nat -> list Z) (Sp : nat -> list Z)
    (ac : Z) (bc : list Z) (ap : Z) (bp : list Z) (m M d n : nat)
    (scores : list Z) (c p : list (nat * nat)),
  capa Sc Sp ac bc ap bp m M d n = (scores, c, p) ->
  capaR (fun s e => map IZR (Sc s e)) (fun t => map IZR (Sp t))
        (IZR ac) (map IZR bc) (IZR ap) (map IZR bp) m M d n
  = (map IZR scores, c, p).
Proof.
  intros Sc Sp ac bc ap bp m M d n scores c p H.
  rewrite capa_C in H. rewrite capaR_C.
  rewrite (ccapa_map Zn Rn IZR (fun _ => True) eq_refl (fun x y _ _ => Rltb_IZR x y)
             (fun a T g => (g + Pc Sc ac bc a T)%Z) _ (fun t g => (g + Pp Sp ap bp t)%Z) _
             (fun _ _ c => (c + (ac + sumZ bc))%Z) _ m M d);
    [change (T Zn) with Z; now rewrite H|].
  intros k _. apply step_ok_all; [exact (fun _ => I)| | |]; clear k.
  - intros a T g. unfold PcR, Pc. now rewrite penaliseR_IZR, <- plus_IZR.
  - intros t g. unfold PpR, Pp. now rewrite penaliseR_IZR, <- plus_IZR.
  - intros a T c0. now rewrite sumR_IZR, <- !plus_IZR.
Qed.

(** the specification objects commute with the injection as well *)
Lemma maxlR_IZR l : forall d, maxlR (IZR d) (map IZR l) = IZR (maxl d l).
Proof.
  unfold maxlR, maxl. induction l as [|a l IH]; intros d; cbn [map fold_left]; [reflexivity|].
  rewrite Rmax_IZR. apply IH.
Qed.

Lemma GRtab_of_Z (pc : nat -> nat -> Z) (pp : nat -> Z) m M t :
  GRtab (fun s e => IZR (pc s e)) (fun t => IZR (pp t)) m M t = map IZR (Gtab pc pp m M t).
Proof.
  induction t as [|t IH]; [reflexivity|].
  cbn [GRtab Gtab]. rewrite IH, map_app. cbn [map]. f_equal. f_equal.
  unfold gnextR, gnext. cbv zeta. rewrite nthR_map_IZR, <- plus_IZR, Rmax_IZR.
  rewrite <- maxlR_IZR. f_equal. rewrite map_map. apply map_ext. intros s.
  now rewrite nthR_map_IZR, <- plus_IZR.
Qed.

Theorem GR_of_Z (pc : nat -> nat -> Z) (pp : nat -> Z) m M T :
  GR (fun s e => IZR (pc s e)) (fun t => IZR (pp t)) m M T = IZR (G pc pp m M T).
Proof. unfold GR, G. rewrite GRtab_of_Z. apply nthR_map_IZR. Qed.

Theorem totalR_of_Z (pc : nat -> nat -> Z) (pp : nat -> Z) l :
  totalR (fun s e => IZR (pc s e)) (fun t => IZR (pp t)) l = IZR (value pc pp l).
Proof.
  unfold totalR, value. induction l as [|a l IH]; cbn [map sumR sumZ]; [reflexivity|].
  rewrite IH, plus_IZR. destruct a; reflexivity.
Qed.

(** * Part E: end to end -- the built-in L2 saving, any number of columns *)

(** the saving kernel is non-negative on EVERY pair of indices: for an empty or reversed
    interval the code's division by the length 0 is [x * / 0 = 0] in Coq's reals *)
Lemma l2_saving_nonneg_all S1 s e : 0 <= l2_saving_R S1 s e.
Proof.
  destruct (lt_dec s e) as [H|H]; [now apply l2_saving_nonneg|].
  unfold l2_saving_R. replace (e - s)%nat with 0%nat by lia. cbn [INR].
  unfold Rdiv. rewrite Rinv_0. lra.
Qed.

Section L2Columns.
Variable xss : list (list R).       (* the columns of the data *)

(** what collective_saving.evaluate / point_saving.evaluate return for one interval:
    one L2 saving per column, computed from the column's prefix sums *)
Definition l2Sc (s e : nat) : list R := map (fun xs => l2_saving_R (prefix xs) s e) xss.
Definition l2Sp (t : nat) : list R := map (fun xs => l2_saving_R (prefix xs) t (S t)) xss.

Lemma l2Sc_length s e : length (l2Sc s e) = length xss.
Proof. apply map_length. Qed.
Lemma l2Sp_length t : length (l2Sp t) = length xss.
Proof. apply map_length. Qed.

Lemma l2Sc_nonneg s e x : In x (l2Sc s e) -> 0 <= x.
Proof. intros H. apply in_map_iff in H as (xs & <- & _). apply l2_saving_nonneg_all. Qed.
Lemma l2Sp_nonneg t x : In x (l2Sp t) -> 0 <= x.
Proof. intros H. apply in_map_iff in H as (xs & <- & _). apply l2_saving_nonneg_all. Qed.

Lemma l2Sc_nth s e j : (j < length xss)%nat ->
  nthR (l2Sc s e) j = l2_saving_R (prefix (nth j xss [])) s e.
Proof.
  intros H. unfold nthR, l2Sc.
  rewrite (nth_indep _ 0 (l2_saving_R (prefix []) s e)) by (rewrite map_length; exact H).
  apply (map_nth (fun xs => l2_saving_R (prefix xs) s e)).
Qed.

Lemma l2Sc_subadditive m s k e j : (1 <= m)%nat -> (s + m <= k)%nat -> (k + m <= e)%nat ->
  (j < length xss)%nat ->
  nthR (l2Sc s e) j <= nthR (l2Sc s k) j + nthR (l2Sc k e) j.
Proof.
  intros Hm H1 H2 Hj. rewrite !l2Sc_nth by exact Hj. apply l2_saving_subadditive; lia.
Qed.

Variables (ac : R) (bc : list R) (ap : R) (bp : list R).
Variables (m M n : nat).

(** CAPA / MVCAPA run on the per-column L2 savings of ANY data [xss] (p >= 1 columns),
    with one non-negative penalty component per column: the reported anomalies are a
    valid anomaly set, re-evaluating them gives the final score, every score is the
    optimum for its prefix, and no valid anomaly set has a larger total penalised saving.
    No hypothesis about the savings is left. *)
Theorem capa_l2_end_to_end (scores : list R) (c p : list (nat * nat)) :
  (2 <= m)%nat -> (m <= M)%nat -> (1 <= length xss)%nat ->
  length bc = length xss -> length bp = length xss ->
  0 <= ac -> 0 <= ap -> (forall b, In b bc -> 0 <= b) -> (forall b, In b bp -> 0 <= b) ->
  capaR l2Sc l2Sp ac bc ap bp m M (m - 1) n = (scores, c, p) ->
  let PC := PcR l2Sc ac bc in
  let PP := PpR l2Sp ap bp in
  let out := map to_anom (capa_predict false c p) in
  Valid m M out n /\
  totalR PC PP out = nthR (0 :: scores) n /\
  (forall l, Valid m M l n -> totalR PC PP l <= totalR PC PP out) /\
  (forall t, (t < n)%nat ->
     nthR scores t = GR (fun s e => PbestR (l2Sc s e) ac bc) (fun t => PbestR (l2Sp t) ap bp) m M (S t)).
Proof.
  intros Hm HM Hp Hlc Hlp Hac Hap Hbc Hbp Hrun PC PP out.
  assert (HPen : penalties_okR ac bc ap bp) by (unfold penalties_okR; repeat split; auto; lia).
  assert (HSav : savings_okR l2Sc l2Sp bc bp).
  { unfold savings_okR. repeat split.
    - intros s e. now rewrite l2Sc_length.
    - intros t. now rewrite l2Sp_length.
    - apply l2Sc_nonneg.
    - apply l2Sp_nonneg. }
  assert (HSub : subadditiveR l2Sc bc m M).
  { intros s k e j H1 H2 _ Hj. apply (l2Sc_subadditive m); [lia|exact H1|exact H2|].
    rewrite <- Hlc. exact Hj. }
  split; [|split; [|split]].
  - exact (capaR_output_valid l2Sc l2Sp ac bc ap bp m M n Hm HM scores c p Hrun).
  - exact (capaR_reevaluation_gives_final_score l2Sc l2Sp ac bc ap bp m M n Hm HM scores c p Hrun).
  - exact (capaR_output_is_maximiser l2Sc l2Sp ac bc ap bp m M n Hm HM scores c p Hrun HPen HSav HSub).
  - exact (capaR_scores_are_prefix_optima l2Sc l2Sp ac bc ap bp m M n Hm HM scores c p Hrun HPen HSav HSub).
Qed.
End L2Columns.

(** * Part F: non-vacuity -- a concrete integer instance, computed on the executable side *)

(** two columns, two candidate levels each, ten observations; the saving of a
    column on [s,e) is [lsav] of Proofs/CapaDP.v (loss at the baseline level minus the
    smallest summed loss), which is non-negative and sub-additive.  Penalties with
    distinct components, so that the general sort-and-cumulate branch runs. *)
Definition ex_la : list (list Z) :=
  [[0;3];[1;2];[4;0];[5;0];[3;1];[0;2];[0;6];[9;0];[0;4];[1;3]]%Z.
Definition ex_lb : list (list Z) :=
  [[0;1];[0;2];[3;0];[2;0];[4;0];[1;1];[0;3];[0;0];[0;5];[0;2]]%Z.
Definition exSc (s e : nat) : list Z := [lsav ex_la 1 s e; lsav ex_lb 1 s e].
Definition exSp (t : nat) : list Z := [lsav ex_la 1 t (S t); lsav ex_lb 1 t (S t)].

Lemma ex_capa_Z :
  capa exSc exSp 1 [1; 2]%Z 3 [1; 2]%Z 2 5 1 10
  = ([0; 0; 1; 10; 16; 16; 16; 21; 21; 21]%Z, [(2, 5)]%nat, [(7, 8)]%nat).
Proof. vm_compute. reflexivity. Qed.

Notation exScR := (fun s e : nat => map IZR (exSc s e)).
Notation exSpR := (fun t : nat => map IZR (exSp t)).

(** the real model on that instance, through the embedding: one collective anomaly
    [2,5) and one point anomaly at 7 *)
Example capaR_of_Z_example :
  capaR exScR exSpR 1 (map IZR [1; 2]%Z) 3 (map IZR [1; 2]%Z) 2 5 1 10
  = (map IZR [0; 0; 1; 10; 16; 16; 16; 21; 21; 21]%Z, [(2, 5)]%nat, [(7, 8)]%nat).
Proof. exact (capaR_of_Z exSc exSp 1 [1; 2]%Z 3 [1; 2]%Z 2 5 1 10 _ _ _ ex_capa_Z). Qed.

Lemma minover_le_0 (f : nat -> Z) q : (minover f q <= f 0%nat)%Z.
Proof. induction q as [|q IH]; cbn [minover]; lia. Qed.

Lemma lsav_nonneg loss Q s e : (0 <= lsav loss Q s e)%Z.
Proof.
  unfold lsav. pose proof (minover_le_0 (fun th => segsum loss th s e) Q) as H. cbv beta in H. lia.
Qed.

(** the hypotheses of the real optimality theorem are satisfiable and its conclusion is
    the expected one on that instance: no valid anomaly set has a total penalised saving
    above 21, and the reported set {[2,5), point 7} attains it *)
Example capaR_optimal_example :
  let PC := PcR exScR 1 (map IZR [1; 2]%Z) in
  let PP := PpR exSpR 3 (map IZR [1; 2]%Z) in
  totalR PC PP [Coll 2 5; Pt 7] = 21 /\
  forall l, Valid 2 5 l 10 -> totalR PC PP l <= 21.
Proof.
  intros PC PP.
  assert (Hpen : penalties_okR 1 (map IZR [1; 2]%Z) 3 (map IZR [1; 2]%Z)).
  { unfold penalties_okR. cbn [map length In]. repeat split; try lia; try lra;
      intros b [<-|[<-|[]]]; lra. }
  assert (Hsav : savings_okR exScR exSpR (map IZR [1; 2]%Z) (map IZR [1; 2]%Z)).
  { unfold savings_okR. repeat split.
    - intros s e x Hx. apply in_map_iff in Hx as (z & <- & Hz). apply IZR_le.
      destruct Hz as [<-|[<-|[]]]; apply lsav_nonneg.
    - intros t x Hx. apply in_map_iff in Hx as (z & <- & Hz). apply IZR_le.
      destruct Hz as [<-|[<-|[]]]; apply lsav_nonneg. }
  assert (Hsub : subadditiveR exScR (map IZR [1; 2]%Z) 2 5).
  { intros s k e j H1 H2 _ Hj. rewrite !nthR_map_IZR, <- plus_IZR. apply IZR_le.
    cbn [map length] in Hj. unfold exSc, nthZ.
    destruct j as [|[|j]]; [| |lia]; cbn [nth]; apply lsav_subadd; lia. }
  pose proof (capaR_reevaluation_gives_final_score exScR exSpR 1 (map IZR [1; 2]%Z) 3
                (map IZR [1; 2]%Z) 2 5 10 ltac:(lia) ltac:(lia) _ _ _ capaR_of_Z_example) as Hval.
  pose proof (capaR_output_is_maximiser exScR exSpR 1 (map IZR [1; 2]%Z) 3
                (map IZR [1; 2]%Z) 2 5 10 ltac:(lia) ltac:(lia) _ _ _ capaR_of_Z_example
                Hpen Hsav Hsub) as Hopt.
  assert (Hout : map to_anom (capa_predict false [(2, 5)]%nat [(7, 8)]%nat) = [Coll 2 5; Pt 7])
    by reflexivity.
  rewrite Hout in Hval, Hopt. fold PC PP in Hval, Hopt.
  assert (Hfin : nthR (0 :: map IZR [0; 0; 1; 10; 16; 16; 16; 21; 21; 21]%Z) 10 = 21) by reflexivity.
  rewrite Hfin in Hval. split; [exact Hval|].
  intros l Hl. rewrite <- Hval. now apply Hopt.
Qed.

Print Assumptions PbestR_upper.
Print Assumptions PbestR_attained.
Print Assumptions penaliseR_eq_Pbest.
Print Assumptions penaliseR_spec.
Print Assumptions penaliseR_subadditive.
Print Assumptions GR_upper.
Print Assumptions GR_attained.
Print Assumptions GR_penalise_eq_Pbest.
Print Assumptions capaR_scores_are_prefix_optima.
Print Assumptions capaR_output_valid.
Print Assumptions capaR_reevaluation_gives_final_score.
Print Assumptions capaR_output_is_maximiser.
Print Assumptions capaR_scores_nonneg_monotone.
Print Assumptions capaR_ignore_point_anomalies.
Print Assumptions penaliseR_IZR.
Print Assumptions capaR_of_Z.
Print Assumptions GR_of_Z.
Print Assumptions capa_l2_end_to_end.
Print Assumptions capaR_of_Z_example.
Print Assumptions capaR_optimal_example.
