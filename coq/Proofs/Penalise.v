(** penalise_savings / find_affected_components (Model/Capa.v) against their
    set-level specification.

    A non-empty set J of components of one interval costs
    alpha + betas[0] + ... + betas[|J|-1]; [subset_value] is the penalised saving
    of the set J, [Pbest] is the value computed by the general branch of
    [penalise_savings].  [Pbest] is the maximum of [subset_value] over the admissible sets
    ([Pbest_upper], [Pbest_attained]); whichever branch of the code runs,
    Pbest <= penalise <= max Pbest (- alpha) ([penalise_spec]: the "all betas tiny" branch
    (betas = 0, savings >= 0) and the general branch return Pbest, the "all betas equal" branch max Pbest (- alpha));
    sub-additivity lifts from the savings to [Pbest] and [penalise]; the CAPA recursion [G]
    ignores changes of non-positive options ([G_insensitive]); and
    find_affected_components returns a set that attains [Pbest] (property C16). *)
From Coq Require Import ZArith List Lia Permutation Sorted.
From SK Require Import Lib.Base Model.Capa Proofs.CapaSpec Proofs.ArgmaxLemmas Proofs.CapaDP.
Import ListNotations.
Open Scope Z_scope.

(** ---------- statement-level definitions ---------- *)

Definition subset_ok (p : nat) (J : list nat) : Prop :=
  J <> [] /\ NoDup J /\ forall j, In j J -> (j < p)%nat.
Definition pen_k (betas : list Z) (k : nat) : Z := sumZ (firstn k betas).
Definition subset_value (sav : list Z) (alpha : Z) (betas : list Z) (J : list nat) : Z :=
  sumZ (map (nthZ sav) J) - alpha - pen_k betas (length J).
(** the general branch of penalise_savings *)
Definition Pbest (sav : list Z) (alpha : Z) (betas : list Z) : Z :=
  match argmax (map (fun c => c - alpha) (cumsum (sub_lists (sort_desc sav) betas))) with
  | Some (_, v) => v
  | None => 0
  end.

(** ---------- sums ---------- *)

Lemma sumZ_perm (l1 l2 : list Z) : Permutation l1 l2 -> sumZ l1 = sumZ l2.
Proof. intros HP; induction HP; simpl; lia. Qed.

Lemma sumZ_nonneg (l : list Z) : (forall x, In x l -> 0 <= x) -> 0 <= sumZ l.
Proof.
  induction l as [|x t IH]; simpl; intros H; [lia|].
  assert (0 <= x) by (apply H; left; reflexivity).
  assert (0 <= sumZ t) by (apply IH; intros y Hy; apply H; right; exact Hy).
  lia.
Qed.

Lemma sumZ_firstn_le (l : list Z) :
  (forall x, In x l -> 0 <= x) -> forall k, sumZ (firstn k l) <= sumZ l.
Proof.
  intros H k.
  rewrite <- (firstn_skipn k l) at 2. rewrite sumZ_app.
  assert (0 <= sumZ (skipn k l)).
  { apply sumZ_nonneg. intros x Hx. apply H.
    rewrite <- (firstn_skipn k l). apply in_or_app. right. exact Hx. }
  lia.
Qed.

(** ---------- argmax = first maximum ---------- *)

Definition best_of (L : list Z) (i : nat) (v : Z) : Prop :=
  (i < length L)%nat /\ nth i L 0 = v /\
  (forall j, (j < length L)%nat -> nth j L 0 <= v) /\
  (forall j, (j < i)%nat -> nth j L 0 < v).

Lemma argmax_spec (l : list Z) (i : nat) (v : Z) :
  argmax l = Some (i, v) -> best_of l i v.
Proof. exact (ArgmaxLemmas.argmax_spec l i v). Qed.

Lemma argmax_facts (l : list Z) (i : nat) (v : Z) :
  argmax l = Some (i, v) ->
  (i < length l)%nat /\ nth i l 0 = v /\
  (forall j, (j < length l)%nat -> nth j l 0 <= v) /\
  (forall j, (j < i)%nat -> nth j l 0 < v).
Proof. exact (argmax_spec l i v). Qed.

Lemma argmax_some (l : list Z) : l <> [] -> exists i v, argmax l = Some (i, v).
Proof. exact (ArgmaxLemmas.argmax_some l). Qed.

(** ---------- cumsum, sub_lists, the penalised-savings vector ---------- *)

Lemma cumsum_from_length (l : list Z) : forall acc, length (cumsum_from acc l) = length l.
Proof. induction l as [|x t IH]; intros acc; simpl; [reflexivity|]. rewrite IH. reflexivity. Qed.

Lemma cumsum_from_nth (l : list Z) : forall acc k, (k < length l)%nat ->
  nth k (cumsum_from acc l) 0 = acc + sumZ (firstn (S k) l).
Proof.
  induction l as [|x t IH]; intros acc k H; cbn [length] in H; [lia|].
  cbn [cumsum_from]. rewrite firstn_cons. cbn [sumZ].
  destruct k as [|k].
  - rewrite firstn_O. simpl. lia.
  - cbn [nth]. rewrite IH by lia. lia.
Qed.

Lemma sub_lists_cons x a y b : sub_lists (x :: a) (y :: b) = (x - y) :: sub_lists a b.
Proof. reflexivity. Qed.

Lemma sub_lists_length (a b : list Z) : length a = length b -> length (sub_lists a b) = length a.
Proof. intros H. unfold sub_lists. rewrite map_length, combine_length. lia. Qed.

Lemma sub_lists_firstn_sum : forall (a b : list Z) k, length a = length b ->
  sumZ (firstn k (sub_lists a b)) = sumZ (firstn k a) - sumZ (firstn k b).
Proof.
  induction a as [|x a IH]; intros b k H; destruct b as [|y b]; try discriminate.
  - rewrite !firstn_nil. reflexivity.
  - rewrite sub_lists_cons. destruct k as [|k].
    + rewrite !firstn_O. reflexivity.
    + rewrite !firstn_cons. cbn [sumZ]. rewrite IH by (simpl in H; lia). lia.
Qed.

Definition pensav (s : list Z) (alpha : Z) (betas : list Z) : list Z :=
  map (fun c => c - alpha) (cumsum (sub_lists s betas)).

Lemma pensav_length s alpha betas : length s = length betas ->
  length (pensav s alpha betas) = length s.
Proof.
  intros H. unfold pensav, cumsum.
  rewrite map_length, cumsum_from_length. apply sub_lists_length. exact H.
Qed.

Lemma pensav_nth s alpha betas k : length s = length betas -> (k < length s)%nat ->
  nth k (pensav s alpha betas) 0 = sumZ (firstn (S k) s) - alpha - pen_k betas (S k).
Proof.
  intros H Hk. unfold pensav, cumsum, pen_k.
  rewrite (nth_map_lt _ _ _ 0 0)
    by (rewrite cumsum_from_length, sub_lists_length; assumption).
  rewrite cumsum_from_nth by (rewrite sub_lists_length; assumption).
  rewrite sub_lists_firstn_sum by exact H. lia.
Qed.

Lemma Pbest_unfold sav alpha betas :
  Pbest sav alpha betas =
  match argmax (pensav (sort_desc sav) alpha betas) with Some (_, v) => v | None => 0 end.
Proof. reflexivity. Qed.

(** ---------- decreasing insertion sort ---------- *)

Definition desc (l : list Z) : Prop := StronglySorted (fun a b => b <= a) l.

Lemma insert_desc_perm x l : Permutation (insert_desc x l) (x :: l).
Proof.
  induction l as [|y t IH]; simpl; [apply Permutation_refl|].
  destruct (y <? x); [apply Permutation_refl|].
  eapply Permutation_trans; [apply perm_skip; exact IH|apply perm_swap].
Qed.

Lemma sort_desc_perm l : Permutation (sort_desc l) l.
Proof.
  induction l as [|x t IH]; simpl; [apply perm_nil|].
  eapply Permutation_trans; [apply insert_desc_perm|apply perm_skip; exact IH].
Qed.

Lemma sort_desc_length l : length (sort_desc l) = length l.
Proof. apply Permutation_length, sort_desc_perm. Qed.

Lemma insert_desc_sorted x l : desc l -> desc (insert_desc x l).
Proof.
  unfold desc. induction l as [|y t IH]; intros HS; simpl.
  - constructor; constructor.
  - apply StronglySorted_inv in HS. destruct HS as [HS HF].
    destruct (Z.ltb_spec y x) as [Hlt|Hge].
    + constructor.
      * constructor; assumption.
      * constructor; [lia|].
        eapply Forall_impl; [|exact HF]. intros a Ha; simpl in Ha; lia.
    + constructor.
      * apply IH; exact HS.
      * rewrite Forall_forall. intros a Ha.
        apply (Permutation_in _ (insert_desc_perm x t)) in Ha.
        destruct Ha as [Ha|Ha]; [lia|].
        rewrite Forall_forall in HF. apply HF; exact Ha.
Qed.

Lemma sort_desc_sorted l : desc (sort_desc l).
Proof.
  induction l as [|x t IH]; simpl; [constructor|].
  apply insert_desc_sorted; exact IH.
Qed.

Lemma desc_nth (s : list Z) : desc s -> forall i i', (i <= i')%nat -> (i' < length s)%nat ->
  nth i' s 0 <= nth i s 0.
Proof.
  unfold desc. induction s as [|x t IH]; intros HS i i' Hle Hlt; cbn [length] in Hlt; [lia|].
  apply StronglySorted_inv in HS. destruct HS as [HS HF].
  destruct i' as [|i'].
  - replace i with 0%nat by lia. lia.
  - destruct i as [|i].
    + cbn [nth]. rewrite Forall_forall in HF. apply HF. apply nth_In. lia.
    + cbn [nth]. apply IH; [exact HS|lia|lia].
Qed.

(** ---------- the k largest entries dominate any k distinct entries ---------- *)

Lemma topk_bound : forall s, desc s -> forall l' rest,
  Permutation (l' ++ rest) s -> sumZ l' <= sumZ (firstn (length l') s).
Proof.
  unfold desc. induction s as [|x s IH]; intros HS l' rest HP.
  - apply Permutation_sym, Permutation_nil in HP.
    apply app_eq_nil in HP. destruct HP as [-> _]. simpl. lia.
  - apply StronglySorted_inv in HS. destruct HS as [HS HF].
    rewrite Forall_forall in HF.
    assert (Hin : In x (l' ++ rest)).
    { apply (Permutation_in _ (Permutation_sym HP)). left; reflexivity. }
    apply in_app_or in Hin. destruct Hin as [Hin|Hin].
    + apply in_split in Hin. destruct Hin as (a & b & ->).
      rewrite <- app_assoc in HP. cbn [app] in HP.
      apply Permutation_sym, Permutation_cons_app_inv, Permutation_sym in HP.
      rewrite app_assoc in HP.
      specialize (IH HS (a ++ b) rest HP).
      rewrite sumZ_app in *. cbn [sumZ].
      rewrite app_length in *. cbn [length].
      replace (length a + S (length b))%nat with (S (length a + length b)) by lia.
      rewrite firstn_cons. cbn [sumZ]. lia.
    + apply in_split in Hin. destruct Hin as (a & b & ->).
      rewrite app_assoc in HP.
      apply Permutation_sym, Permutation_cons_app_inv, Permutation_sym in HP.
      rewrite <- app_assoc in HP.
      destruct l' as [|y l'']; [simpl; lia|].
      cbn [app] in HP.
      assert (HP' : Permutation (l'' ++ (y :: a ++ b)) s).
      { eapply Permutation_trans; [|exact HP].
        apply Permutation_sym.
        apply (Permutation_middle l'' (a ++ b) y). }
      assert (Hy : y <= x).
      { apply HF. apply (Permutation_in _ HP). left; reflexivity. }
      specialize (IH HS l'' (y :: a ++ b) HP').
      cbn [length sumZ]. rewrite firstn_cons. cbn [sumZ]. lia.
Qed.

Lemma nodup_incl_split : forall (J U : list nat),
  NoDup J -> NoDup U -> (forall j, In j J -> In j U) ->
  exists R, Permutation (J ++ R) U.
Proof.
  induction J as [|j J IH]; intros U HJ HU Hincl.
  - exists U. apply Permutation_refl.
  - assert (HjU : In j U) by (apply Hincl; left; reflexivity).
    apply in_split in HjU. destruct HjU as (U1 & U2 & ->).
    inversion HJ as [|? ? Hnotin HJ']; subst.
    destruct (IH (U1 ++ U2) HJ' (NoDup_remove_1 _ _ _ HU)) as [R HR].
    { intros k Hk. assert (Hk' : In k (U1 ++ j :: U2)) by (apply Hincl; right; exact Hk).
      apply in_app_or in Hk'. apply in_or_app.
      destruct Hk' as [Hk'|[Hk'|Hk']]; [left; exact Hk'| |right; exact Hk'].
      subst k. contradiction. }
    exists R. cbn [app]. apply Permutation_cons_app. exact HR.
Qed.

Lemma map_nth_seq {A} (l : list A) (d : A) :
  map (fun j => nth j l d) (seq 0 (length l)) = l.
Proof.
  apply (nth_ext _ _ d d).
  - now rewrite map_length, seq_length.
  - intros n Hn. rewrite map_length, seq_length in Hn.
    rewrite (nth_indep _ d (nth 0 l d)) by now rewrite map_length, seq_length.
    rewrite (map_nth (fun j => nth j l d)), seq_nth by exact Hn. reflexivity.
Qed.

Lemma map_nthZ_seq (sav : list Z) : map (nthZ sav) (seq 0 (length sav)) = sav.
Proof. exact (map_nth_seq sav 0). Qed.

Lemma index_subset_perm (sav : list Z) (J : list nat) :
  NoDup J -> (forall j, In j J -> (j < length sav)%nat) ->
  exists rest, Permutation (map (nthZ sav) J ++ rest) sav.
Proof.
  intros HJ Hlt.
  destruct (nodup_incl_split J (seq 0 (length sav)) HJ (seq_NoDup _ _)) as [R HR].
  { intros j Hj. apply in_seq. specialize (Hlt j Hj). lia. }
  exists (map (nthZ sav) R).
  rewrite <- map_app. rewrite <- (map_nthZ_seq sav) at 2.
  apply Permutation_map. exact HR.
Qed.

Lemma subset_sum_le_topk (sav : list Z) (J : list nat) :
  NoDup J -> (forall j, In j J -> (j < length sav)%nat) ->
  sumZ (map (nthZ sav) J) <= sumZ (firstn (length J) (sort_desc sav)).
Proof.
  intros HJ Hlt.
  destruct (index_subset_perm sav J HJ Hlt) as [rest HP].
  rewrite <- (map_length (nthZ sav) J).
  apply (topk_bound (sort_desc sav) (sort_desc_sorted sav) _ rest).
  eapply Permutation_trans; [exact HP|]. apply Permutation_sym, sort_desc_perm.
Qed.

Lemma subset_ok_length (p : nat) (J : list nat) :
  subset_ok p J -> (1 <= length J <= p)%nat.
Proof.
  intros (Hne & Hnd & Hlt). split.
  - destruct J; [congruence|simpl; lia].
  - rewrite <- (seq_length p 0). apply NoDup_incl_length; [exact Hnd|].
    intros j Hj. apply in_seq. specialize (Hlt j Hj). lia.
Qed.

(** value of the best entry of the penalised-savings vector *)
Lemma Pbest_ge_nth sav alpha betas k :
  length betas = length sav -> (k < length sav)%nat ->
  nth k (pensav (sort_desc sav) alpha betas) 0 <= Pbest sav alpha betas.
Proof.
  intros HL Hk. rewrite Pbest_unfold.
  assert (Hlen : length (pensav (sort_desc sav) alpha betas) = length sav).
  { rewrite pensav_length; rewrite sort_desc_length; [reflexivity|lia]. }
  destruct (argmax (pensav (sort_desc sav) alpha betas)) as [[i v]|] eqn:E.
  - apply argmax_spec in E. destruct E as (_ & _ & Hmax & _).
    apply Hmax. lia.
  - apply argmax_none in E. rewrite E in Hlen. simpl in Hlen. lia.
Qed.

Lemma Pbest_is_nth sav alpha betas :
  length betas = length sav -> (1 <= length sav)%nat ->
  exists k, (k < length sav)%nat /\
    argmax (pensav (sort_desc sav) alpha betas) = Some (k, Pbest sav alpha betas) /\
    Pbest sav alpha betas = nth k (pensav (sort_desc sav) alpha betas) 0.
Proof.
  intros HL Hp. rewrite Pbest_unfold.
  assert (Hlen : length (pensav (sort_desc sav) alpha betas) = length sav).
  { rewrite pensav_length; rewrite sort_desc_length; [reflexivity|lia]. }
  destruct (argmax (pensav (sort_desc sav) alpha betas)) as [[i v]|] eqn:E.
  - pose proof (argmax_spec _ _ _ E) as (Hi & Hv & _ & _).
    exists i. split; [lia|]. split; [reflexivity|]. symmetry; exact Hv.
  - apply argmax_none in E. rewrite E in Hlen. simpl in Hlen. lia.
Qed.

(** ---------- no admissible component set beats Pbest ---------- *)

Theorem Pbest_upper sav alpha betas J :
  length betas = length sav ->
  subset_ok (length sav) J ->
  subset_value sav alpha betas J <= Pbest sav alpha betas.
Proof.
  intros HL HJ.
  pose proof (subset_ok_length _ _ HJ) as [H1 Hp].
  destruct HJ as (Hne & Hnd & Hlt).
  pose proof (subset_sum_le_topk sav J Hnd Hlt) as Hsum.
  pose proof (Pbest_ge_nth sav alpha betas (length J - 1) HL ltac:(lia)) as Hb.
  rewrite pensav_nth in Hb by (rewrite sort_desc_length; lia).
  replace (S (length J - 1)) with (length J) in Hb by lia.
  unfold subset_value. lia.
Qed.

(** ---------- decreasing argsort ---------- *)

Lemma insert_idx_map sav j l :
  map (nthZ sav) (insert_idx sav j l) = insert_desc (nthZ sav j) (map (nthZ sav) l).
Proof.
  induction l as [|k t IH]; simpl; [reflexivity|].
  destruct (nthZ sav k <? nthZ sav j); simpl; [reflexivity|].
  rewrite IH. reflexivity.
Qed.

Lemma argsort_gen_map sav idx :
  map (nthZ sav) (fold_right (insert_idx sav) [] idx) = sort_desc (map (nthZ sav) idx).
Proof.
  induction idx as [|j t IH]; simpl; [reflexivity|].
  rewrite insert_idx_map, IH. reflexivity.
Qed.

(** NOTE on ties: [insert_idx] moves the new column past every entry whose saving is
    >= its own, and columns are inserted from p-1 down to 0, so among equal savings
    the LARGER column comes first (the comment in Model/Capa.v says the opposite). *)
Example argsort_desc_ties : argsort_desc [3; 5; 3; 5] = [3; 1; 2; 0]%nat.
Proof. reflexivity. Qed.

(** p = 0 is excluded below: penalise [] alpha [] = - alpha but Pbest [] alpha [] = 0. *)
Example penalise_p0 : penalise [] 3 [] = -3 /\ Pbest [] 3 [] = 0.
Proof. split; reflexivity. Qed.

(** the two insertion sorts agree, ties included *)
Lemma argsort_desc_values sav : map (nthZ sav) (argsort_desc sav) = sort_desc sav.
Proof. unfold argsort_desc. rewrite argsort_gen_map, map_nthZ_seq. reflexivity. Qed.

Lemma insert_idx_perm sav j l : Permutation (insert_idx sav j l) (j :: l).
Proof.
  induction l as [|k t IH]; simpl; [apply Permutation_refl|].
  destruct (nthZ sav k <? nthZ sav j); [apply Permutation_refl|].
  eapply Permutation_trans; [apply perm_skip; exact IH|apply perm_swap].
Qed.

Lemma argsort_gen_perm sav idx : Permutation (fold_right (insert_idx sav) [] idx) idx.
Proof.
  induction idx as [|j t IH]; simpl; [apply perm_nil|].
  eapply Permutation_trans; [apply insert_idx_perm|apply perm_skip; exact IH].
Qed.

Theorem argsort_desc_perm sav : Permutation (argsort_desc sav) (seq 0 (length sav)).
Proof. apply argsort_gen_perm. Qed.

Lemma argsort_desc_length sav : length (argsort_desc sav) = length sav.
Proof. rewrite (Permutation_length (argsort_desc_perm sav)). apply seq_length. Qed.

Lemma argsort_desc_NoDup sav : NoDup (argsort_desc sav).
Proof.
  apply (Permutation_NoDup (Permutation_sym (argsort_desc_perm sav))). apply seq_NoDup.
Qed.

Lemma argsort_desc_In sav j : In j (argsort_desc sav) <-> (j < length sav)%nat.
Proof.
  split; intros H.
  - apply (Permutation_in _ (argsort_desc_perm sav)) in H. apply in_seq in H. lia.
  - apply (Permutation_in _ (Permutation_sym (argsort_desc_perm sav))).
    apply in_seq. lia.
Qed.

Lemma argsort_desc_nth sav i : (i < length sav)%nat ->
  nthZ sav (nth i (argsort_desc sav) 0%nat) = nth i (sort_desc sav) 0.
Proof.
  intros H. rewrite <- argsort_desc_values.
  symmetry. apply nth_map_lt. rewrite argsort_desc_length. exact H.
Qed.

Theorem argsort_desc_sorted sav : forall i i', (i <= i' < length sav)%nat ->
  nthZ sav (nth i' (argsort_desc sav) 0%nat) <= nthZ sav (nth i (argsort_desc sav) 0%nat).
Proof.
  intros i i' [H1 H2]. rewrite !argsort_desc_nth by lia.
  apply desc_nth; [apply sort_desc_sorted|exact H1|rewrite sort_desc_length; exact H2].
Qed.

Lemma In_firstn {A} (x : A) (l : list A) n : In x (firstn n l) -> In x l.
Proof.
  intros H. rewrite <- (firstn_skipn n l). apply in_or_app. left; exact H.
Qed.

Lemma NoDup_firstn {A} (l : list A) : NoDup l -> forall n, NoDup (firstn n l).
Proof.
  induction l as [|x t IH]; intros HN n.
  - rewrite firstn_nil. constructor.
  - destruct n as [|n]; [rewrite firstn_O; constructor|].
    rewrite firstn_cons. inversion HN as [|? ? Hnotin HN']; subst.
    constructor; [|apply IH; exact HN'].
    intros Hin. apply Hnotin. eapply In_firstn; exact Hin.
Qed.

(** prefixes of the decreasing order: admissible sets whose value is an entry of the
    penalised-savings vector *)
Lemma prefix_length sav k : (k <= length sav)%nat ->
  length (firstn k (argsort_desc sav)) = k.
Proof. intros H. apply firstn_length_le. rewrite argsort_desc_length. exact H. Qed.

Lemma prefix_ok sav k : (1 <= k <= length sav)%nat ->
  subset_ok (length sav) (firstn k (argsort_desc sav)).
Proof.
  intros [H1 H2]. split; [|split].
  - intros E. pose proof (prefix_length sav k H2) as HL. rewrite E in HL. simpl in HL. lia.
  - apply NoDup_firstn, argsort_desc_NoDup.
  - intros j Hj. apply argsort_desc_In. eapply In_firstn; exact Hj.
Qed.

Lemma prefix_value sav alpha betas k :
  length betas = length sav -> (1 <= k <= length sav)%nat ->
  subset_value sav alpha betas (firstn k (argsort_desc sav)) =
  nth (k - 1) (pensav (sort_desc sav) alpha betas) 0.
Proof.
  intros HL [H1 H2]. unfold subset_value.
  rewrite prefix_length by exact H2.
  rewrite <- firstn_map, argsort_desc_values.
  rewrite pensav_nth by (rewrite sort_desc_length; lia).
  replace (S (k - 1)) with k by lia. reflexivity.
Qed.

(** ---------- Pbest is attained by an admissible component set ---------- *)

Theorem Pbest_attained sav alpha betas :
  length betas = length sav -> (1 <= length sav)%nat ->
  exists J, subset_ok (length sav) J /\
            subset_value sav alpha betas J = Pbest sav alpha betas.
Proof.
  intros HL Hp.
  destruct (Pbest_is_nth sav alpha betas HL Hp) as (k & Hk & _ & Hv).
  exists (firstn (S k) (argsort_desc sav)). split.
  - apply prefix_ok. lia.
  - rewrite prefix_value by (try exact HL; lia).
    replace (S k - 1)%nat with k by lia. symmetry; exact Hv.
Qed.

(** ---------- the three branches of penalise_savings ---------- *)

Theorem penalise_general sav alpha betas :
  all_tiny betas = false -> all_equal betas = false ->
  penalise sav alpha betas = Pbest sav alpha betas.
Proof. intros H1 H2. unfold penalise. rewrite H1, H2. reflexivity. Qed.

Lemma pen_k_const (l : list Z) (c : Z) : (forall b, In b l -> b = c) ->
  forall k, (k <= length l)%nat -> pen_k l k = Z.of_nat k * c.
Proof.
  unfold pen_k. induction l as [|x t IH]; intros Hc k Hk.
  - cbn [length] in Hk. replace k with 0%nat by lia. simpl. lia.
  - destruct k as [|k]; [rewrite firstn_O; simpl; lia|].
    rewrite firstn_cons. cbn [sumZ].
    rewrite IH; [|intros b Hb; apply Hc; right; exact Hb|cbn [length] in Hk; lia].
    rewrite (Hc x) by (left; reflexivity). lia.
Qed.

Lemma pen_k_nonneg betas k : (forall b, In b betas -> 0 <= b) -> 0 <= pen_k betas k.
Proof.
  intros H. unfold pen_k. apply sumZ_nonneg.
  intros x Hx. apply H. eapply In_firstn; exact Hx.
Qed.

Lemma pen_k_le_sum betas k : (forall b, In b betas -> 0 <= b) -> pen_k betas k <= sumZ betas.
Proof. intros H. unfold pen_k. apply sumZ_firstn_le. exact H. Qed.

Lemma all_tiny_zero betas :
  all_tiny betas = true -> (forall b, In b betas -> 0 <= b) -> forall b, In b betas -> b = 0.
Proof.
  intros Ht Hn b Hb. unfold all_tiny in Ht. rewrite forallb_forall in Ht.
  specialize (Ht b Hb). apply Z.leb_le in Ht. specialize (Hn b Hb). lia.
Qed.

Theorem penalise_tiny sav alpha betas :
  length betas = length sav -> (1 <= length sav)%nat ->
  all_tiny betas = true -> (forall b, In b betas -> 0 <= b) ->
  (forall x, In x sav -> 0 <= x) ->
  penalise sav alpha betas = Pbest sav alpha betas.
Proof.
  intros HL Hp Ht Hb Hs. unfold penalise. rewrite Ht.
  pose proof (all_tiny_zero betas Ht Hb) as Hz.
  assert (Hpen : forall k, (k <= length sav)%nat -> pen_k betas k = 0).
  { intros k Hk. rewrite (pen_k_const betas 0 Hz) by lia. lia. }
  assert (Hsum : sumZ (sort_desc sav) = sumZ sav) by (apply sumZ_perm, sort_desc_perm).
  assert (Hnn : forall x, In x (sort_desc sav) -> 0 <= x).
  { intros x Hx. apply Hs. apply (Permutation_in _ (sort_desc_perm sav)). exact Hx. }
  destruct (Pbest_is_nth sav alpha betas HL Hp) as (k & Hk & _ & Hv).
  rewrite pensav_nth in Hv by (rewrite sort_desc_length; lia).
  rewrite Hpen in Hv by lia.
  pose proof (sumZ_firstn_le (sort_desc sav) Hnn (S k)) as Hle.
  pose proof (Pbest_ge_nth sav alpha betas (length sav - 1) HL ltac:(lia)) as Hge.
  rewrite pensav_nth in Hge by (rewrite sort_desc_length; lia).
  rewrite Hpen in Hge by lia.
  rewrite firstn_all2 in Hge by (rewrite sort_desc_length; lia).
  lia.
Qed.

(** sum of the positive parts of (s - c) *)
Definition posum (c : Z) (l : list Z) : Z := sumZ (map (fun s => Z.max (s - c) 0) l).

Lemma posum_perm c l1 l2 : Permutation l1 l2 -> posum c l1 = posum c l2.
Proof. intros H. unfold posum. apply sumZ_perm, Permutation_map. exact H. Qed.

Lemma posum_nonneg c l : 0 <= posum c l.
Proof.
  unfold posum. apply sumZ_nonneg. intros x Hx. apply in_map_iff in Hx.
  destruct Hx as (s & <- & _). lia.
Qed.

Lemma posum_upper c : forall s k, (k <= length s)%nat ->
  sumZ (firstn k s) - Z.of_nat k * c <= posum c s.
Proof.
  induction s as [|x t IH]; intros k Hk.
  - cbn [length] in Hk. replace k with 0%nat by lia. simpl. unfold posum. simpl. lia.
  - destruct k as [|k].
    + rewrite firstn_O. pose proof (posum_nonneg c (x :: t)). simpl. lia.
    + rewrite firstn_cons. cbn [sumZ]. cbn [length] in Hk.
      specialize (IH k ltac:(lia)). unfold posum in *. cbn [map sumZ]. lia.
Qed.

Lemma posum_zero c l : (forall x, In x l -> x <= c) -> posum c l = 0.
Proof.
  unfold posum. induction l as [|x t IH]; intros H; cbn [map sumZ]; [reflexivity|].
  rewrite IH by (intros y Hy; apply H; right; exact Hy).
  specialize (H x (or_introl eq_refl)). lia.
Qed.

Lemma posum_attained c : forall s, desc s ->
  exists k, (k <= length s)%nat /\ sumZ (firstn k s) - Z.of_nat k * c = posum c s.
Proof.
  unfold desc. induction s as [|x t IH]; intros HS.
  - exists 0%nat. split; [simpl; lia|reflexivity].
  - apply StronglySorted_inv in HS. destruct HS as [HS HF].
    rewrite Forall_forall in HF.
    destruct (Z_le_gt_dec x c) as [Hle|Hgt].
    + exists 0%nat. split; [simpl; lia|].
      rewrite posum_zero; [rewrite firstn_O; simpl; lia|].
      intros y [Hy|Hy]; [lia|]. specialize (HF y Hy). lia.
    + destruct (IH HS) as (k & Hk & Hv).
      exists (S k). split; [simpl; lia|].
      rewrite firstn_cons. unfold posum in *. cbn [map sumZ]. lia.
Qed.

Lemma all_equal_hd betas :
  all_equal betas = true -> forall b, In b betas -> b = hd 0 betas.
Proof.
  destruct betas as [|b0 t]; intros H b Hb; [destruct Hb|].
  unfold all_equal in H. rewrite forallb_forall in H.
  specialize (H b Hb). apply Z.eqb_eq in H. exact H.
Qed.

Lemma all_tiny_false_nonempty betas : all_tiny betas = false -> (1 <= length betas)%nat.
Proof. destruct betas; simpl; [discriminate|lia]. Qed.

Theorem penalise_equal sav alpha betas :
  length betas = length sav ->
  all_tiny betas = false -> all_equal betas = true ->
  penalise sav alpha betas = Z.max (Pbest sav alpha betas) (- alpha).
Proof.
  intros HL Ht He. unfold penalise. rewrite Ht, He.
  pose proof (all_tiny_false_nonempty betas Ht) as Hp. rewrite HL in Hp.
  set (c := hd 0 betas).
  change (sumZ (map (fun s => Z.max (s - c) 0) sav)) with (posum c sav).
  rewrite <- (posum_perm c _ _ (sort_desc_perm sav)).
  pose proof (all_equal_hd betas He) as Hc. fold c in Hc.
  assert (Hpen : forall k, (k <= length sav)%nat -> pen_k betas k = Z.of_nat k * c).
  { intros k Hk. apply pen_k_const; [exact Hc|lia]. }
  apply Z.le_antisymm.
  - destruct (posum_attained c (sort_desc sav) (sort_desc_sorted sav)) as (k & Hk & Hv).
    rewrite sort_desc_length in Hk.
    destruct k as [|k].
    + rewrite firstn_O in Hv. simpl in Hv. lia.
    + pose proof (Pbest_ge_nth sav alpha betas k HL ltac:(lia)) as Hge.
      rewrite pensav_nth in Hge by (rewrite sort_desc_length; lia).
      rewrite Hpen in Hge by lia. lia.
  - pose proof (posum_nonneg c (sort_desc sav)) as Hnn.
    destruct (Pbest_is_nth sav alpha betas HL Hp) as (k & Hk & _ & Hv).
    rewrite pensav_nth in Hv by (rewrite sort_desc_length; lia).
    rewrite Hpen in Hv by lia.
    pose proof (posum_upper c (sort_desc sav) (S k)
                  ltac:(rewrite sort_desc_length; lia)) as Hup.
    lia.
Qed.

Theorem penalise_spec sav alpha betas :
  length betas = length sav -> (1 <= length sav)%nat ->
  (forall b, In b betas -> 0 <= b) -> (forall x, In x sav -> 0 <= x) ->
  Pbest sav alpha betas <= penalise sav alpha betas <= Z.max (Pbest sav alpha betas) (- alpha).
Proof.
  intros HL Hp Hb Hs. destruct (all_tiny betas) eqn:Ht.
  - rewrite penalise_tiny by assumption. lia.
  - destruct (all_equal betas) eqn:He.
    + rewrite penalise_equal by assumption. lia.
    + rewrite penalise_general by assumption. lia.
Qed.

(** ---------- find_affected_components (property C16) ---------- *)

Lemma affected_unfold sav alpha betas :
  affected sav alpha betas =
  match argmax (pensav (sort_desc sav) alpha betas) with
  | Some (k, _) => firstn (S k) (argsort_desc sav)
  | None => []
  end.
Proof. unfold affected. cbv zeta. rewrite argsort_desc_values. reflexivity. Qed.

(** the returned set is the prefix of the decreasing order that ends at the FIRST
    maximum of the penalised-savings vector *)
Lemma affected_char sav alpha betas :
  length betas = length sav -> (1 <= length sav)%nat ->
  exists k, (k < length sav)%nat /\
    best_of (pensav (sort_desc sav) alpha betas) k (Pbest sav alpha betas) /\
    affected sav alpha betas = firstn (S k) (argsort_desc sav).
Proof.
  intros HL Hp.
  destruct (Pbest_is_nth sav alpha betas HL Hp) as (k & Hk & Harg & _).
  exists k. split; [exact Hk|]. split; [apply argmax_spec; exact Harg|].
  rewrite affected_unfold, Harg. reflexivity.
Qed.

Theorem affected_prefix sav alpha betas :
  length betas = length sav -> (1 <= length sav)%nat ->
  exists k, (1 <= k <= length sav)%nat /\
            affected sav alpha betas = firstn k (argsort_desc sav).
Proof.
  intros HL Hp. destruct (affected_char sav alpha betas HL Hp) as (k & Hk & _ & HJ).
  exists (S k). split; [lia|exact HJ].
Qed.

Theorem affected_ok sav alpha betas :
  length betas = length sav -> (1 <= length sav)%nat ->
  subset_ok (length sav) (affected sav alpha betas).
Proof.
  intros HL Hp. destruct (affected_prefix sav alpha betas HL Hp) as (k & Hk & ->).
  apply prefix_ok. exact Hk.
Qed.

(** J is listed in order of non-increasing saving *)
Theorem affected_decreasing sav alpha betas :
  length betas = length sav -> (1 <= length sav)%nat ->
  forall i i', (i <= i' < length (affected sav alpha betas))%nat ->
    nthZ sav (nth i' (affected sav alpha betas) 0%nat) <=
    nthZ sav (nth i (affected sav alpha betas) 0%nat).
Proof.
  intros HL Hp. destruct (affected_prefix sav alpha betas HL Hp) as (k & Hk & ->).
  rewrite prefix_length by lia. intros i i' Hi.
  rewrite !nth_firstn_lt by lia. apply argsort_desc_sorted. lia.
Qed.

Theorem affected_excluded_not_larger sav alpha betas :
  length betas = length sav -> (1 <= length sav)%nat ->
  forall j j', In j (affected sav alpha betas) -> (j' < length sav)%nat ->
    ~ In j' (affected sav alpha betas) -> nthZ sav j' <= nthZ sav j.
Proof.
  intros HL Hp. destruct (affected_prefix sav alpha betas HL Hp) as (k & Hk & ->).
  intros j j' Hj Hj' Hnot.
  destruct (In_nth _ _ 0%nat Hj) as (i & Hi & Hij).
  rewrite prefix_length in Hi by lia.
  rewrite nth_firstn_lt in Hij by exact Hi.
  apply argsort_desc_In in Hj'.
  destruct (In_nth _ _ 0%nat Hj') as (i' & Hi' & Hij').
  rewrite argsort_desc_length in Hi'.
  assert (Hge : (k <= i')%nat).
  { destruct (Nat.lt_ge_cases i' k) as [Hlt|Hge]; [|exact Hge].
    exfalso. apply Hnot. rewrite <- Hij'.
    rewrite <- (nth_firstn_lt k (argsort_desc sav) i' 0%nat Hlt).
    apply nth_In. rewrite prefix_length by lia. exact Hlt. }
  rewrite <- Hij, <- Hij'. apply argsort_desc_sorted. lia.
Qed.

Theorem affected_value sav alpha betas :
  length betas = length sav -> (1 <= length sav)%nat ->
  subset_value sav alpha betas (affected sav alpha betas) = Pbest sav alpha betas.
Proof.
  intros HL Hp. destruct (affected_char sav alpha betas HL Hp) as (k & Hk & HB & ->).
  rewrite prefix_value by (try exact HL; lia).
  replace (S k - 1)%nat with k by lia.
  destruct HB as (_ & Hv & _). exact Hv.
Qed.

Theorem affected_optimal sav alpha betas :
  length betas = length sav -> (1 <= length sav)%nat ->
  subset_value sav alpha betas (affected sav alpha betas) = Pbest sav alpha betas /\
  forall J', subset_ok (length sav) J' ->
    subset_value sav alpha betas J' <= subset_value sav alpha betas (affected sav alpha betas).
Proof.
  intros HL Hp. split; [apply affected_value; assumption|].
  intros J' HJ'. rewrite affected_value by assumption.
  apply Pbest_upper; assumption.
Qed.

(** first argmax = smallest optimal size: every shorter prefix is strictly worse *)
Theorem affected_smallest_k sav alpha betas :
  length betas = length sav -> (1 <= length sav)%nat ->
  forall k', (1 <= k' < length (affected sav alpha betas))%nat ->
    subset_value sav alpha betas (firstn k' (argsort_desc sav)) <
    subset_value sav alpha betas (affected sav alpha betas).
Proof.
  intros HL Hp k' Hk'. rewrite affected_value by assumption.
  destruct (affected_char sav alpha betas HL Hp) as (k & Hk & HB & HJ).
  rewrite HJ in Hk'. rewrite prefix_length in Hk' by lia.
  rewrite prefix_value by (try exact HL; lia).
  destruct HB as (_ & _ & _ & Hfirst). apply Hfirst. lia.
Qed.

(** ---------- sub-additivity lifts from the savings to the penalised savings ---------- *)

Lemma sum_map_le3 (f g h : nat -> Z) (J : list nat) :
  (forall j, In j J -> f j <= g j + h j) ->
  sumZ (map f J) <= sumZ (map g J) + sumZ (map h J).
Proof.
  induction J as [|j J IH]; intros H; cbn [map sumZ]; [lia|].
  assert (f j <= g j + h j) by (apply H; left; reflexivity).
  assert (sumZ (map f J) <= sumZ (map g J) + sumZ (map h J))
    by (apply IH; intros k Hk; apply H; right; exact Hk).
  lia.
Qed.

Theorem Pbest_subadditive a l r alpha betas :
  length a = length betas -> length l = length betas -> length r = length betas ->
  (1 <= length betas)%nat ->
  (forall b, In b betas -> 0 <= b) ->
  (forall j, (j < length betas)%nat -> nthZ a j <= nthZ l j + nthZ r j) ->
  Pbest a alpha betas <= Pbest l alpha betas + (alpha + sumZ betas) + Pbest r alpha betas.
Proof.
  intros Ha Hl Hr Hp Hb Hsub.
  destruct (Pbest_attained a alpha betas ltac:(lia) ltac:(lia)) as (J & HJ & HV).
  assert (HJl : subset_ok (length l) J) by (rewrite Hl, <- Ha; exact HJ).
  assert (HJr : subset_ok (length r) J) by (rewrite Hr, <- Ha; exact HJ).
  pose proof (Pbest_upper l alpha betas J ltac:(lia) HJl) as Hul.
  pose proof (Pbest_upper r alpha betas J ltac:(lia) HJr) as Hur.
  pose proof (pen_k_le_sum betas (length J) Hb) as Hpen.
  assert (Hsum : sumZ (map (nthZ a) J) <= sumZ (map (nthZ l) J) + sumZ (map (nthZ r) J)).
  { apply sum_map_le3. intros j Hj. apply Hsub.
    destruct HJ as (_ & _ & Hlt). specialize (Hlt j Hj). lia. }
  rewrite <- HV. unfold subset_value in *. lia.
Qed.

Theorem penalise_subadditive a l r alpha betas :
  length a = length betas -> length l = length betas -> length r = length betas ->
  (1 <= length betas)%nat ->
  (forall b, In b betas -> 0 <= b) ->
  (forall x, In x a -> 0 <= x) -> (forall x, In x l -> 0 <= x) -> (forall x, In x r -> 0 <= x) ->
  (forall j, (j < length betas)%nat -> nthZ a j <= nthZ l j + nthZ r j) ->
  penalise a alpha betas <= penalise l alpha betas + (alpha + sumZ betas) + penalise r alpha betas.
Proof.
  intros Ha Hl Hr Hp Hb Hna Hnl Hnr Hsub.
  pose proof (Pbest_subadditive a l r alpha betas Ha Hl Hr Hp Hb Hsub) as HP.
  pose proof (sumZ_nonneg betas Hb) as HS.
  destruct (all_tiny betas) eqn:Ht.
  - rewrite !penalise_tiny by (assumption || lia). exact HP.
  - destruct (all_equal betas) eqn:He.
    + rewrite !penalise_equal by (assumption || lia). lia.
    + rewrite !penalise_general by assumption. exact HP.
Qed.

(** ---------- the CAPA recursion ignores changes of non-positive options ---------- *)

Lemma maxl_le_iff (l : list Z) : forall d z,
  maxl d l <= z <-> d <= z /\ forall x, In x l -> x <= z.
Proof.
  unfold maxl. induction l as [|a t IH]; intros d z; cbn [fold_left].
  - split; [intros H; split; [exact H|intros x []]|intros [H _]; exact H].
  - rewrite IH. split.
    + intros [H1 H2]. split; [lia|]. intros x [<-|Hx]; [lia|apply H2; exact Hx].
    + intros [H1 H2]. split.
      * specialize (H2 a (or_introl eq_refl)). lia.
      * intros x Hx. apply H2. right; exact Hx.
Qed.

Section Insensitive.
Variables (Pc Pc' : nat -> nat -> Z) (Pp Pp' : nat -> Z) (m M : nat).
Hypothesis HPc : forall s e, Pc s e <= Pc' s e <= Z.max (Pc s e) 0.
Hypothesis HPp : forall t, Pp t <= Pp' t <= Z.max (Pp t) 0.

Lemma gnext_insensitive tab T :
  (forall s, (s < T)%nat -> nthZ tab s <= nthZ tab (T - 1)) ->
  gnext Pc' Pp' m M tab T = gnext Pc Pp m M tab T.
Proof.
  intros Hmono. unfold gnext. cbv zeta.
  set (gt := nthZ tab (T - 1)).
  set (d := Z.max gt (gt + Pp (T - 1))).
  set (d' := Z.max gt (gt + Pp' (T - 1))).
  set (L := map (fun s => nthZ tab s + Pc s T) (coll_starts m M T)).
  set (L' := map (fun s => nthZ tab s + Pc' s T) (coll_starts m M T)).
  assert (Hd : d' = d) by (unfold d, d'; specialize (HPp (T - 1)%nat); lia).
  apply Z.le_antisymm; apply maxl_le_iff; split.
  - rewrite Hd. apply maxl_ge_default.
  - intros x Hx. unfold L' in Hx. apply in_map_iff in Hx. destruct Hx as (s & <- & Hs).
    assert (H1 : nthZ tab s + Pc s T <= maxl d L).
    { apply maxl_ge. unfold L. apply in_map_iff. exists s. split; [reflexivity|exact Hs]. }
    assert (H2 : nthZ tab s <= maxl d L).
    { eapply Z.le_trans; [apply Hmono, (coll_starts_lt m M); exact Hs|].
      eapply Z.le_trans; [|apply maxl_ge_default]. unfold d. fold gt. lia. }
    specialize (HPc s T). lia.
  - rewrite <- Hd. apply maxl_ge_default.
  - intros x Hx. unfold L in Hx. apply in_map_iff in Hx. destruct Hx as (s & <- & Hs).
    assert (H1 : nthZ tab s + Pc' s T <= maxl d' L').
    { apply maxl_ge. unfold L'. apply in_map_iff. exists s. split; [reflexivity|exact Hs]. }
    specialize (HPc s T). lia.
Qed.

Lemma Gtab_insensitive : forall T, Gtab Pc' Pp' m M T = Gtab Pc Pp m M T.
Proof.
  induction T as [|t IH]; [reflexivity|].
  cbn [Gtab]. rewrite IH. f_equal. f_equal.
  apply gnext_insensitive. intros s Hs.
  replace (S t - 1)%nat with t by lia. rewrite !Gtab_nth by lia. apply G_mono_le. lia.
Qed.

Theorem G_insensitive : forall T, G Pc' Pp' m M T = G Pc Pp m M T.
Proof. intros T. unfold G. rewrite Gtab_insensitive. reflexivity. Qed.
End Insensitive.

(** [G_insensitive] with [penalise] plugged in (alpha >= 0): the optimal values of the CAPA
    recursion are the same whether an anomaly is valued by the implemented
    [penalise] (Model.Capa.Pc / Pp) or by the set-level optimum [Pbest]; the two
    differ only in the "all betas equal" branch, and only where both are <= 0. *)
Corollary G_penalise_eq_Pbest
  (Sc : nat -> nat -> list Z) (Sp : nat -> list Z) (ac : Z) (bc : list Z) (ap : Z) (bp : list Z)
  (m M : nat) :
  0 <= ac -> 0 <= ap -> (1 <= length bc)%nat -> (1 <= length bp)%nat ->
  (forall s e, length (Sc s e) = length bc) -> (forall t, length (Sp t) = length bp) ->
  (forall b, In b bc -> 0 <= b) -> (forall b, In b bp -> 0 <= b) ->
  (forall s e x, In x (Sc s e) -> 0 <= x) -> (forall t x, In x (Sp t) -> 0 <= x) ->
  forall T,
    G (Pc Sc ac bc) (Pp Sp ap bp) m M T =
    G (fun s e => Pbest (Sc s e) ac bc) (fun t => Pbest (Sp t) ap bp) m M T.
Proof.
  intros Hac Hap Hbc Hbp HLc HLp Hnbc Hnbp Hnc Hnp T.
  apply G_insensitive.
  - intros s e. unfold Pc.
    pose proof (penalise_spec (Sc s e) ac bc ltac:(rewrite HLc; reflexivity)
                  ltac:(rewrite HLc; exact Hbc) Hnbc (Hnc s e)) as H.
    lia.
  - intros t. unfold Pp.
    pose proof (penalise_spec (Sp t) ap bp ltac:(rewrite HLp; reflexivity)
                  ltac:(rewrite HLp; exact Hbp) Hnbp (Hnp t)) as H.
    lia.
Qed.

Check G_insensitive :
  forall (Pc Pc' : nat -> nat -> Z) (Pp Pp' : nat -> Z) (m M : nat),
    (forall s e, Pc s e <= Pc' s e <= Z.max (Pc s e) 0) ->
    (forall t, Pp t <= Pp' t <= Z.max (Pp t) 0) ->
    forall T, G Pc' Pp' m M T = G Pc Pp m M T.

Print Assumptions Pbest_upper.
Print Assumptions Pbest_attained.
Print Assumptions penalise_spec.
Print Assumptions penalise_subadditive.
Print Assumptions G_insensitive.
Print Assumptions G_penalise_eq_Pbest.
Print Assumptions affected_ok.
Print Assumptions affected_optimal.
Print Assumptions affected_excluded_not_larger.
