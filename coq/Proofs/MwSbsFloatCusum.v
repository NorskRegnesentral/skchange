(** End-to-end binary64 theorems: the moving window and seeded binary segmentation, run FROM THE DATA with
    the CUSUM score on one column.

    The harness runs   gmw_any F64 (cusum_F xs) b n thr mdi   and   gsbs_any F64 (cusum_F xs) m thr ivs
    on the float data [xs] and they reproduce MovingWindow / SeededBinarySegmentation bit for bit.  Here the
    three layers are composed:

      kernel   [cusum_F_vs_score_R] (Proofs/FloatKernels2.v): under the boolean premise [cusum_trace_ok] the computed
               score is within [cusum_E] of the TRUE statistic  cusum_score_R (prefix (map FR xs));
      order    [F_ltb_lt] (Proofs/FloatRun.v): the comparison of finite floats is the comparison of their real values;
      search   the specification theorems of the greedy searches for non-NaN floats (Proofs/GenericOrder.v,
               Proofs/GenericSpec.v, Proofs/AnyThreshold.v).

    No hypothesis on the sign of the threshold is needed: the any-threshold models (Model/GenericAny.v) are used directly,
    the moving window through its own definition (runs over the admissible positions) and seeded binary segmentation
    through [gsbs_any_supported] / [gsbs_any_no_interval_left].  The threshold only has to be a finite float. *)
From Coq Require Import Reals List Bool Floats Psatz.
From SK Require Import Gen.KernelsR Proofs.RealLib Proofs.FloatError Check.FloatKernelCheck2
                       Proofs.FloatRefine Proofs.FloatKernels2 Proofs.FloatRun Proofs.PeltFloatL2.
(* the list vocabulary of the detectors ([slice] on any list) is imported last: it shadows the real-number one *)
From SK Require Import Model.Mw Model.Generic Model.GenericF Model.GenericAny.
From SK Require Import Proofs.ArgmaxLemmas Proofs.WhereRuns Proofs.GenericOrder Proofs.GenericSpec
                       Proofs.GenericInstances Proofs.AnyThreshold Proofs.AnyThresholdF.
Import ListNotations.

Local Open Scope R_scope.

(** * 0. The error bound, finiteness *)

(** the bound of [cusum_F_vs_score_R]:  (2.04 e + 6) 2^-53 (bw + aw) (|x_0| + ... + |x_{e-1}|)  *)
Definition cusum_E (l : list float) (s k e : nat) : R :=
  (204 / 100 * INR e + 6) * u53
  * (cusum_bw s k e * sumR (map Rabs (firstn e (map FR l)))
     + cusum_aw s k e * sumR (map Rabs (firstn e (map FR l)))).

Lemma cusum_E_nonneg l s k e : 0 <= cusum_E l s k e.
Proof.
  unfold cusum_E.
  pose proof (sumR_abs_nonneg (firstn e (map FR l))) as HM.
  pose proof (pos_INR e) as He. pose proof u53_nonneg as Hu.
  apply Rmult_le_pos; [apply Rmult_le_pos; lra|].
  apply Rplus_le_le_0_compat; (apply Rmult_le_pos; [apply R_sqrt.sqrt_pos | exact HM]).
Qed.

(** both exact weights are at most 1, so  E <= (2.04 e + 6) 2^-53 * 2 (|x_0| + ... + |x_{e-1}|)  *)
Lemma ratio_le_1 (a b : nat) : (a <= b)%nat -> (0 < b)%nat -> INR a / INR b <= 1.
Proof.
  intros Hab Hb. assert (H0 : 0 < INR b) by (apply lt_0_INR; exact Hb).
  assert (H1 : INR a <= INR b) by (apply le_INR; exact Hab).
  apply (Rmult_le_reg_r (INR b)); [exact H0|]. unfold Rdiv. rewrite Rmult_assoc, Rinv_l by lra. lra.
Qed.

Lemma cusum_weights_le_1 s k e : (s < k)%nat -> (k < e)%nat -> cusum_bw s k e <= 1 /\ cusum_aw s k e <= 1.
Proof.
  intros Hsk Hke. unfold cusum_bw, cusum_aw.
  split; (apply Rle_trans with (R_sqrt.sqrt 1); [|rewrite R_sqrt.sqrt_1; lra]);
    apply R_sqrt.sqrt_le_1_alt; apply ratio_le_1; nia.
Qed.

Lemma cusum_E_simple l s k e : (s < k)%nat -> (k < e)%nat ->
  cusum_E l s k e <= (204 / 100 * INR e + 6) * u53 * (2 * sumR (map Rabs (firstn e (map FR l)))).
Proof.
  intros Hsk Hke. unfold cusum_E.
  destruct (cusum_weights_le_1 s k e Hsk Hke) as [Hb Ha].
  pose proof (sumR_abs_nonneg (firstn e (map FR l))) as HM.
  pose proof (pos_INR e) as He. pose proof u53_nonneg as Hu.
  set (M := sumR (map Rabs (firstn e (map FR l)))) in *.
  assert (HK : 0 <= (204 / 100 * INR e + 6) * u53) by (apply Rmult_le_pos; lra).
  apply Rmult_le_compat_l; [exact HK|].
  assert (cusum_bw s k e * M <= 1 * M) by (apply Rmult_le_compat_r; assumption).
  assert (cusum_aw s k e * M <= 1 * M) by (apply Rmult_le_compat_r; assumption).
  lra.
Qed.

Lemma sumR_abs_bound (B : R) (l : list R) : Forall (fun x => Rabs x <= B) l ->
  sumR (map Rabs l) <= INR (length l) * B.
Proof.
  induction 1 as [|x t Hx Ht IH]; [cbn; lra|].
  cbn [map sumR length]. rewrite S_INR. lra.
Qed.

(** the series is short enough for the smallness hypothesis  e 2^-53 <= 1/100  of the kernel theorem *)
Definition small_n (n : nat) : bool := (Z.of_nat n <=? 2 ^ 46)%Z.

Lemma small_n_ok n e : small_n n = true -> (e <= n)%nat -> INR e * u53 <= 1 / 100.
Proof.
  intros H He. unfold small_n in H. apply Z.leb_le in H.
  assert (Hz : (Z.of_nat e <= 2 ^ 46)%Z) by lia.
  apply IZR_le in Hz. rewrite <- INR_IZR_INZ in Hz.
  change (IZR (2 ^ 46)) with 70368744177664 in Hz.
  pose proof (pos_INR e) as H0. rewrite u53_value. lra.
Qed.

Lemma finF_nonnan x : finF x = true -> nonnan x.
Proof.
  unfold finF, PrimFloat.is_finite, nonnan. intros H. apply negb_true_iff in H.
  apply orb_false_iff in H. exact (proj1 H).
Qed.

(** a checked CUSUM score is a finite float *)
Lemma cusum_F_finite l s k e : cusum_trace_ok l s k e = true -> finF (cusum_F l s k e) = true.
Proof.
  intros Hok. apply cusum_trace_ok_spec in Hok. destruct Hok. cbv zeta in tc_r.
  unfold cusum_F. cbv zeta. rewrite finF_abs. exact tc_r.
Qed.

(** ... and within [cusum_E] of the true statistic *)
Lemma cusum_F_close l s k e : cusum_trace_ok l s k e = true -> INR e * u53 <= 1 / 100 ->
  Rabs (FR (cusum_F l s k e) - cusum_score_R (prefix (map FR l)) s k e) <= cusum_E l s k e.
Proof. intros H1 H2. exact (cusum_F_vs_score_R l s k e H1 H2). Qed.

(** * 1. Maximal runs: every true position lies in one *)

Lemma run_left (l : list bool) i : nth i l false = true ->
  exists a, (a <= i)%nat /\ (forall j, (a <= j <= i)%nat -> nth j l false = true) /\
            (a = 0%nat \/ nth (a - 1) l false = false).
Proof.
  induction i as [|i IH]; intros H.
  - exists 0%nat. split; [lia|]. split; [|left; reflexivity].
    intros j Hj. replace j with 0%nat by lia. exact H.
  - destruct (nth i l false) eqn:E.
    + destruct (IH eq_refl) as (a & Ha & Hall & Hb). exists a. split; [lia|]. split; [|exact Hb].
      intros j Hj. destruct (Nat.eq_dec j (S i)) as [->|Hne]; [exact H|]. apply Hall. lia.
    + exists (S i). split; [lia|]. split.
      * intros j Hj. replace j with (S i) by lia. exact H.
      * right. replace (S i - 1)%nat with i by lia. exact E.
Qed.

Lemma run_right (l : list bool) : forall k i, (length l - i = k)%nat -> nth i l false = true ->
  exists z, (i < z <= length l)%nat /\ (forall j, (i <= j < z)%nat -> nth j l false = true) /\
            (z = length l \/ nth z l false = false).
Proof.
  induction k as [|k IH]; intros i Hk H.
  - rewrite nth_overflow in H by lia. discriminate.
  - destruct (nth (S i) l false) eqn:E.
    + destruct (IH (S i) ltac:(lia) E) as (z & Hz & Hall & Hb). exists z. split; [lia|]. split; [|exact Hb].
      intros j Hj. destruct (Nat.eq_dec j i) as [->|Hne]; [exact H|]. apply Hall. lia.
    + exists (S i). split; [lia|]. split.
      * intros j Hj. replace j with i by lia. exact H.
      * right. exact E.
Qed.

(** a position whose flag is set lies in a maximal run of set flags *)
Lemma where_runs_cover (l : list bool) i : nth i l false = true ->
  exists a z, In (a, z) (where_runs l) /\ (a <= i < z)%nat /\ (z <= length l)%nat /\
    (forall j, (a <= j < z)%nat -> nth j l false = true) /\
    (a = 0%nat \/ nth (a - 1) l false = false) /\ (z = length l \/ nth z l false = false).
Proof.
  intros H. destruct (run_left l i H) as (a & Ha & HA & Hb).
  destruct (run_right l (length l - i) i eq_refl H) as (z & Hz & HZ & Hc).
  assert (Hall : forall j, (a <= j < z)%nat -> nth j l false = true).
  { intros j Hj. destruct (Nat.le_gt_cases j i); [apply HA | apply HZ]; lia. }
  exists a, z. split; [|repeat split; try assumption; lia].
  apply where_runs_spec. repeat split; try assumption; lia.
Qed.

(** * 2. The moving window *)

(** the premise: the series is shorter than 2^46 and the score computation passes the kernel checker at every
    admissible position  b <= t,  t + b <= n  (this forces  1 <= b  as soon as there is an admissible position) *)
Definition mw_cusum_trace_ok (xs : list float) (b : nat) : bool :=
  small_n (length xs) &&
  forallb (fun t => if ((b <=? t)%nat && (t + b <=? length xs)%nat)%bool
                    then cusum_trace_ok xs (t - b) t (t + b) else true)
          (seq 0 (S (length xs))).

Lemma mw_trace_at xs b t : mw_cusum_trace_ok xs b = true -> (b <= t)%nat -> (t + b <= length xs)%nat ->
  cusum_trace_ok xs (t - b) t (t + b) = true /\ INR (t + b) * u53 <= 1 / 100 /\ (1 <= b)%nat /\ (t < length xs)%nat.
Proof.
  intros H H1 H2. unfold mw_cusum_trace_ok in H. apply andb_true_iff in H. destruct H as [Hs Hf].
  rewrite forallb_forall in Hf. specialize (Hf t). rewrite in_seq in Hf. specialize (Hf ltac:(lia)).
  assert (E1 : (b <=? t)%nat = true) by (apply Nat.leb_le; exact H1).
  assert (E2 : (t + b <=? length xs)%nat = true) by (apply Nat.leb_le; exact H2).
  rewrite E1, E2 in Hf. cbn [andb] in Hf.
  split; [exact Hf|]. split; [exact (small_n_ok _ _ Hs H2)|].
  destruct (cusum_trace_ok_bounds _ _ _ _ Hf) as (B1 & B2 & B3). lia.
Qed.

(** the scores vector of the run and its admissible part  scores[b : n - b + 1] *)
Definition mw_scores (xs : list float) (b : nat) : list float := gmw_scores F64 (cusum_F xs) b (length xs).
Definition mw_adm_scores (xs : list float) (b : nat) : list float :=
  slice b (length xs - b + 1) (mw_scores xs b).

Lemma mw_scores_nth_adm xs b t : (b <= t)%nat -> (t + b <= length xs)%nat -> (t < length xs)%nat ->
  nthV F64 (mw_scores xs b) t = cusum_F xs (t - b) t (t + b).
Proof.
  intros H1 H2 H3. unfold mw_scores. rewrite (gmw_scores_nth F64 _ _ _ _ H3).
  assert (E1 : (b <=? t)%nat = true) by (apply Nat.leb_le; exact H1).
  assert (E2 : (t + b <=? length xs)%nat = true) by (apply Nat.leb_le; exact H2).
  rewrite E1, E2. reflexivity.
Qed.

Lemma mw_adm_scores_length xs b : (1 <= b)%nat -> length (mw_adm_scores xs b) = (length xs - b + 1 - b)%nat.
Proof.
  intros Hb. unfold mw_adm_scores, mw_scores, slice.
  rewrite firstn_length, skipn_length, (gmw_scores_length F64). lia.
Qed.

Lemma mw_adm_scores_nth xs b i : (1 <= b)%nat -> (i + 2 * b <= length xs)%nat ->
  nthV F64 (mw_adm_scores xs b) i = cusum_F xs i (i + b) (i + b + b).
Proof.
  intros Hb Hi. unfold nthV, mw_adm_scores. rewrite nth_slice by lia.
  change (nth (b + i) (mw_scores xs b) (zero F64)) with (nthV F64 (mw_scores xs b) (b + i)).
  rewrite mw_scores_nth_adm by lia. f_equal; lia.
Qed.

Lemma mw_scores_nonnan xs b : mw_cusum_trace_ok xs b = true -> Forall nonnan (mw_scores xs b).
Proof.
  intros H. unfold mw_scores. apply (mw_table_scores_ok F64 nonnan nonnan_zero).
  intros t H1 H2. apply finF_nonnan. apply cusum_F_finite. exact (proj1 (mw_trace_at xs b t H H1 H2)).
Qed.

(** the published scores *)
Theorem mw_F64_cusum_scores xs b thr mdi :
  mw_cusum_trace_ok xs b = true ->
  let n := length xs in
  let scores := fst (gmw_any F64 (cusum_F xs) b n thr mdi) in
  length scores = n /\
  forall t, (t < n)%nat ->
    ((b <= t)%nat /\ (t + b <= n)%nat ->
       nthV F64 scores t = cusum_F xs (t - b) t (t + b) /\
       finF (nthV F64 scores t) = true /\
       Rabs (FR (nthV F64 scores t) - cusum_score_R (prefix (map FR xs)) (t - b) t (t + b))
         <= cusum_E xs (t - b) t (t + b)) /\
    (~ ((b <= t)%nat /\ (t + b <= n)%nat) -> nthV F64 scores t = 0%float).
Proof.
  intros Hok n scores. unfold scores. rewrite gmw_any_scores. split; [apply gmw_scores_length|].
  intros t Ht. split.
  - intros [H1 H2]. destruct (mw_trace_at xs b t Hok H1 H2) as (Htr & Hsm & _ & _).
    change (gmw_scores F64 (cusum_F xs) b n) with (mw_scores xs b).
    rewrite (mw_scores_nth_adm xs b t H1 H2 Ht).
    split; [reflexivity|]. split; [exact (cusum_F_finite _ _ _ _ Htr) | exact (cusum_F_close _ _ _ _ Htr Hsm)].
  - intros Hn. rewrite (gmw_scores_nth F64 _ _ _ _ Ht).
    destruct (b <=? t)%nat eqn:E1; [|reflexivity]. destruct (t + b <=? n)%nat eqn:E2; [|reflexivity].
    exfalso. apply Hn. apply Nat.leb_le in E1. apply Nat.leb_le in E2. split; assumption.
Qed.

(** SOUNDNESS: every reported changepoint is an admissible position whose float score exceeds the threshold, hence
    whose TRUE statistic exceeds the threshold up to the rounding error of the kernel.  Any finite threshold. *)
Theorem mw_F64_cusum_sound xs b thr mdi c :
  mw_cusum_trace_ok xs b = true -> finF thr = true ->
  In c (snd (gmw_any F64 (cusum_F xs) b (length xs) thr mdi)) ->
  ((b <= c)%nat /\ (c + b <= length xs)%nat) /\
  PrimFloat.ltb thr (cusum_F xs (c - b) c (c + b)) = true /\
  cusum_score_R (prefix (map FR xs)) (c - b) c (c + b) > FR thr - cusum_E xs (c - b) c (c + b).
Proof.
  intros Hok Hthr Hc. unfold gmw_any in Hc. cbn [snd] in Hc.
  apply in_map_iff in Hc. destruct Hc as (c0 & <- & Hc0).
  change (slice b (length xs - b + 1) (gmw_scores F64 (cusum_F xs) b (length xs))) with (mw_adm_scores xs b) in Hc0.
  assert (Hnn : Forall nonnan (mw_adm_scores xs b)) by (apply Forall_slice, mw_scores_nonnan; exact Hok).
  destruct (G08_changepoints_above_threshold F64 nonnan F64_swo nonnan_zero _ _ _ _ Hnn (finF_nonnan _ Hthr) Hc0)
    as [Hlen Habove].
  assert (Hlen' : (c0 < length xs - b + 1 - b)%nat).
  { unfold mw_adm_scores, mw_scores, slice in Hlen.
    rewrite firstn_length, skipn_length, (gmw_scores_length F64) in Hlen. lia. }
  assert (H1 : (b <= c0 + b)%nat) by lia. assert (H2 : (c0 + b + b <= length xs)%nat) by lia.
  destruct (mw_trace_at xs b (c0 + b) Hok H1 H2) as (Htr & Hsm & Hb & _).
  rewrite (mw_adm_scores_nth xs b c0 Hb ltac:(lia)) in Habove. cbn [ltb F64] in Habove.
  replace (c0 + b - b)%nat with c0 by lia.
  replace (c0 + b - b)%nat with c0 in Htr by lia.
  split; [split; assumption|]. split; [exact Habove|].
  exact (above_sound thr _ _ _ Hthr (cusum_F_finite _ _ _ _ Htr) (cusum_F_close _ _ _ _ Htr Hsm) Habove).
Qed.

(** COMPLETENESS.  Positions are data positions: the admissible position [i] is entry [i - b] of [mw_adm_scores]. *)
Definition mw_score (xs : list float) (b i : nat) : float := cusum_F xs (i - b) i (i + b).
Definition mw_stat (xs : list float) (b i : nat) : R := cusum_score_R (prefix (map FR xs)) (i - b) i (i + b).
Definition mw_err (xs : list float) (b i : nat) : R := cusum_E xs (i - b) i (i + b).

Lemma mw_adm_nth_pos xs b i : (1 <= b)%nat -> (b <= i)%nat -> (i + b <= length xs)%nat ->
  nthV F64 (mw_adm_scores xs b) (i - b) = mw_score xs b i.
Proof.
  intros Hb H1 H2. rewrite mw_adm_scores_nth by lia. unfold mw_score. f_equal; lia.
Qed.

Lemma mw_adm_flag xs b thr i : (1 <= b)%nat -> (b <= i)%nat -> (i + b <= length xs)%nat ->
  nth (i - b) (map (fun v => PrimFloat.ltb thr v) (mw_adm_scores xs b)) false = PrimFloat.ltb thr (mw_score xs b i).
Proof.
  intros Hb H1 H2.
  rewrite (nth_map_lt (fun v => PrimFloat.ltb thr v) (mw_adm_scores xs b) (i - b) 0%float false)
    by (rewrite mw_adm_scores_length by exact Hb; lia).
  change (nth (i - b) (mw_adm_scores xs b) 0%float) with (nthV F64 (mw_adm_scores xs b) (i - b)).
  rewrite mw_adm_nth_pos by assumption. reflexivity.
Qed.

Lemma mw_score_facts xs b i : mw_cusum_trace_ok xs b = true -> (b <= i)%nat -> (i + b <= length xs)%nat ->
  finF (mw_score xs b i) = true /\ Rabs (FR (mw_score xs b i) - mw_stat xs b i) <= mw_err xs b i.
Proof.
  intros Hok H1 H2. destruct (mw_trace_at xs b i Hok H1 H2) as (Htr & Hsm & _ & _).
  split; [exact (cusum_F_finite _ _ _ _ Htr) | exact (cusum_F_close _ _ _ _ Htr Hsm)].
Qed.

Lemma mw_F64_cusum_complete_aux xs b thr mdi t :
  mw_cusum_trace_ok xs b = true -> finF thr = true ->
  (b <= t)%nat -> (t + b <= length xs)%nat ->
  mw_stat xs b t > FR thr + mw_err xs b t ->
  PrimFloat.ltb thr (mw_score xs b t) = true /\
  exists a z,
    In ((a - b)%nat, (z - b)%nat) (where_runs (map (fun v => PrimFloat.ltb thr v) (mw_adm_scores xs b))) /\
    (b <= a <= t)%nat /\ (t < z)%nat /\ (z + b <= length xs + 1)%nat /\
    (forall i, (a <= i < z)%nat -> PrimFloat.ltb thr (mw_score xs b i) = true) /\
    (a = b \/ PrimFloat.ltb thr (mw_score xs b (a - 1)) = false) /\
    ((z + b = length xs + 1)%nat \/ PrimFloat.ltb thr (mw_score xs b z) = false) /\
    ((mdi <= z - a)%nat ->
       exists c, In c (snd (gmw_any F64 (cusum_F xs) b (length xs) thr mdi)) /\ (a <= c < z)%nat /\
         (forall i, (a <= i < z)%nat -> PrimFloat.ltb (mw_score xs b c) (mw_score xs b i) = false) /\
         (forall i, (a <= i < c)%nat -> PrimFloat.ltb (mw_score xs b i) (mw_score xs b c) = true) /\
         (forall i, (a <= i < z)%nat -> mw_stat xs b i <= mw_stat xs b c + mw_err xs b c + mw_err xs b i)).
Proof.
  intros Hok Hthr H1 H2 Hgt.
  destruct (mw_trace_at xs b t Hok H1 H2) as (_ & _ & Hb & _).
  destruct (mw_score_facts xs b t Hok H1 H2) as [Hfin Hclose].
  pose proof (above_complete thr _ _ _ Hthr Hfin Hclose Hgt) as Habove.
  split; [exact Habove|].
  (* positions i = j + b against indices j of the admissible scores; no truncated subtraction is left *)
  pose proof (mw_adm_scores_length xs b Hb) as Hlen.
  assert (Hn : (length (mw_adm_scores xs b) + 2 * b = length xs + 1)%nat) by lia. clear Hlen.
  assert (Hflag : forall i, (b <= i)%nat -> (i + b <= length xs)%nat ->
            nth (i - b) (map (fun v => PrimFloat.ltb thr v) (mw_adm_scores xs b)) false
            = PrimFloat.ltb thr (mw_score xs b i))
    by (intros i A B; apply mw_adm_flag; assumption).
  assert (Ht : nth (t - b) (map (fun v => PrimFloat.ltb thr v) (mw_adm_scores xs b)) false = true)
    by (rewrite Hflag by assumption; exact Habove).
  destruct (where_runs_cover _ _ Ht) as (a0 & z0 & Hin & Hat & Hz0 & Hall & Hleft & Hright).
  rewrite map_length in Hz0, Hright.
  exists (a0 + b)%nat, (z0 + b)%nat. rewrite !Nat.add_sub.
  split; [exact Hin|]. split; [lia|]. split; [lia|]. split; [lia|].
  split; [|split; [|split]].
  - intros i Hi. rewrite <- Hflag by lia. apply Hall. lia.
  - destruct Hleft as [-> | Hl0]; [left; reflexivity|].
    destruct a0 as [|a1]; [left; reflexivity|]. right.
    rewrite <- Hflag by lia. replace (S a1 + b - 1 - b)%nat with (S a1 - 1)%nat by lia. exact Hl0.
  - destruct Hright as [-> | Hr0]; [left; lia|].
    destruct (Nat.eq_dec z0 (length (mw_adm_scores xs b))) as [E|Hne]; [left; lia|]. right.
    rewrite <- Hflag by lia. rewrite Nat.add_sub. exact Hr0.
  - intros Hmdi.
    assert (Hnn : Forall nonnan (mw_adm_scores xs b)) by (apply Forall_slice, mw_scores_nonnan; exact Hok).
    destruct (gmw_run_peak F64 nonnan F64_swo _ thr mdi a0 z0 Hnn Hin ltac:(lia))
      as (c0 & Hc0 & Hcz & Hmax & Hfirst).
    assert (Hpos : forall i, (a0 + b <= i < z0 + b)%nat ->
              nthV F64 (mw_adm_scores xs b) (i - b) = mw_score xs b i)
      by (intros i Hi; apply mw_adm_nth_pos; lia).
    assert (Hmaxc : forall i, (a0 + b <= i < z0 + b)%nat ->
              PrimFloat.ltb (mw_score xs b (c0 + b)) (mw_score xs b i) = false).
    { intros i Hi. rewrite <- (Hpos i Hi), <- (Hpos (c0 + b)%nat) by lia. rewrite Nat.add_sub.
      apply Hmax. lia. }
    exists (c0 + b)%nat. split; [|split; [lia|split; [exact Hmaxc|split]]].
    + exact (in_map (fun c => (c + b)%nat) _ _ Hc0).
    + intros i Hi. rewrite <- (Hpos i), <- (Hpos (c0 + b)%nat) by lia. rewrite Nat.add_sub.
      apply Hfirst. lia.
    + intros i Hi.
      destruct (mw_score_facts xs b i Hok ltac:(lia) ltac:(lia)) as [Fi Ci].
      destruct (mw_score_facts xs b (c0 + b) Hok ltac:(lia) ltac:(lia)) as [Fc Cc].
      exact (max_within _ _ _ _ _ _ Fc Fi Cc Ci (Hmaxc i Hi)).
Qed.

(** COMPLETENESS, spelled out.  If the TRUE statistic at an admissible position [t] exceeds the threshold by more than the
    rounding error, then the float score at [t] exceeds [thr]; [t] lies in a maximal run  a .. z-1  of admissible positions
    whose float scores exceed [thr] (the run  (a - b, z - b)  of [where_runs] on  scores[b : n - b + 1],  the vector the code
    takes its runs from); and if that run has at least [mdi] positions, a changepoint [c] is reported inside it: the run's first
    float maximum, whose true statistic is within the two rounding errors of every true statistic of the run.
    Any finite threshold. *)
Theorem mw_F64_cusum_complete xs b thr mdi t :
  mw_cusum_trace_ok xs b = true -> finF thr = true ->
  (b <= t)%nat -> (t + b <= length xs)%nat ->
  cusum_score_R (prefix (map FR xs)) (t - b) t (t + b) > FR thr + cusum_E xs (t - b) t (t + b) ->
  let n := length xs in
  let score := fun i => cusum_F xs (i - b) i (i + b) in
  let stat := fun i => cusum_score_R (prefix (map FR xs)) (i - b) i (i + b) in
  let err := fun i => cusum_E xs (i - b) i (i + b) in
  PrimFloat.ltb thr (score t) = true /\
  exists a z,
    In ((a - b)%nat, (z - b)%nat)
       (where_runs (map (fun v => PrimFloat.ltb thr v) (slice b (n - b + 1) (gmw_scores F64 (cusum_F xs) b n)))) /\
    (b <= a <= t)%nat /\ (t < z)%nat /\ (z + b <= n + 1)%nat /\
    (forall i, (a <= i < z)%nat -> PrimFloat.ltb thr (score i) = true) /\
    (a = b \/ PrimFloat.ltb thr (score (a - 1)%nat) = false) /\
    ((z + b = n + 1)%nat \/ PrimFloat.ltb thr (score z) = false) /\
    ((mdi <= z - a)%nat ->
       exists c, In c (snd (gmw_any F64 (cusum_F xs) b n thr mdi)) /\ (a <= c < z)%nat /\
         (forall i, (a <= i < z)%nat -> PrimFloat.ltb (score c) (score i) = false) /\
         (forall i, (a <= i < c)%nat -> PrimFloat.ltb (score i) (score c) = true) /\
         (forall i, (a <= i < z)%nat -> stat i <= stat c + err c + err i)).
Proof. exact (mw_F64_cusum_complete_aux xs b thr mdi t). Qed.

(** * 3. Seeded binary segmentation *)

(** the premise: the series is shorter than 2^46, 1 <= m, every interval (s, e) has  s + 2 m <= e <= n,  and the score
    computation passes the kernel checker at every admissible split  s + m <= k,  k + m <= e  of every interval *)
Definition sbs_cusum_trace_ok (xs : list float) (m : nat) (ivs : list (nat * nat)) : bool :=
  small_n (length xs) && (1 <=? m)%nat &&
  forallb (fun se =>
             (fst se + 2 * m <=? snd se)%nat && (snd se <=? length xs)%nat &&
             forallb (fun k => cusum_trace_ok xs (fst se) k (snd se))
                     (seq (fst se + m) (snd se - m + 1 - (fst se + m))))
          ivs.

Lemma sbs_premise_shape xs m ivs : sbs_cusum_trace_ok xs m ivs = true ->
  (1 <= m)%nat /\ forall s e, In (s, e) ivs -> (s + 2 * m <= e <= length xs)%nat.
Proof.
  intros H. unfold sbs_cusum_trace_ok in H. apply andb_true_iff in H. destruct H as [H Hf].
  apply andb_true_iff in H. destruct H as [_ Hm]. apply Nat.leb_le in Hm. split; [exact Hm|].
  intros s e Hin. rewrite forallb_forall in Hf. specialize (Hf (s, e) Hin). cbn [fst snd] in Hf.
  apply andb_true_iff in Hf. destruct Hf as [Hf _]. apply andb_true_iff in Hf. destruct Hf as [A B].
  apply Nat.leb_le in A. apply Nat.leb_le in B. lia.
Qed.

Lemma sbs_trace_at xs m ivs s e k : sbs_cusum_trace_ok xs m ivs = true -> In (s, e) ivs ->
  (s + m <= k)%nat -> (k + m <= e)%nat ->
  cusum_trace_ok xs s k e = true /\ INR e * u53 <= 1 / 100.
Proof.
  intros H Hin H1 H2. destruct (sbs_premise_shape xs m ivs H) as [_ Hsh]. specialize (Hsh s e Hin).
  unfold sbs_cusum_trace_ok in H. apply andb_true_iff in H. destruct H as [H Hf].
  apply andb_true_iff in H. destruct H as [Hs _].
  rewrite forallb_forall in Hf. specialize (Hf (s, e) Hin). cbn [fst snd] in Hf.
  apply andb_true_iff in Hf. destruct Hf as [_ Hf]. rewrite forallb_forall in Hf.
  split; [apply Hf; apply in_seq; lia | apply (small_n_ok _ _ Hs); lia].
Qed.

Lemma sbs_score_facts xs m ivs s e k : sbs_cusum_trace_ok xs m ivs = true -> In (s, e) ivs ->
  (s + m <= k)%nat -> (k + m <= e)%nat ->
  finF (cusum_F xs s k e) = true /\
  Rabs (FR (cusum_F xs s k e) - cusum_score_R (prefix (map FR xs)) s k e) <= cusum_E xs s k e.
Proof.
  intros H Hin H1 H2. destruct (sbs_trace_at xs m ivs s e k H Hin H1 H2) as [Htr Hsm].
  split; [exact (cusum_F_finite _ _ _ _ Htr) | exact (cusum_F_close _ _ _ _ Htr Hsm)].
Qed.

Lemma sbs_cusum_table_ok xs m ivs : sbs_cusum_trace_ok xs m ivs = true ->
  sbs_table_ok F64 nonnan (cusum_F xs) m ivs.
Proof.
  intros H s e k Hin H1 H2. apply finF_nonnan. exact (proj1 (sbs_score_facts xs m ivs s e k H Hin H1 H2)).
Qed.

(** the per-interval maxima: the reported split is the first float maximiser, and the reported maximum is within the
    rounding errors of the maximum of the TRUE statistic over the admissible splits:
        stat k' - E k'  <=  FR v  <=  stat k + E k      for every admissible k'
    (so, with  Emax >= E k'  for all admissible k':   max stat - Emax <= FR v <= max stat + Emax). *)
Theorem sbs_F64_cusum_interval_max xs m (thr : float) ivs (cpts : list nat) (am : list (nat * float)) :
  sbs_cusum_trace_ok xs m ivs = true ->
  gsbs_any F64 (cusum_F xs) m thr ivs = Some (cpts, am) ->
  length am = length ivs /\
  forall i s e, (i < length ivs)%nat -> nth i ivs (0, 0)%nat = (s, e) ->
    exists k,
      nth i am (0%nat, 0%float) = (k, cusum_F xs s k e) /\
      (s + m <= k)%nat /\ (k + m <= e)%nat /\
      finF (cusum_F xs s k e) = true /\
      (forall k', (s + m <= k')%nat -> (k' + m <= e)%nat ->
                  PrimFloat.ltb (cusum_F xs s k e) (cusum_F xs s k' e) = false) /\
      (forall k', (s + m <= k')%nat -> (k' < k)%nat ->
                  PrimFloat.ltb (cusum_F xs s k' e) (cusum_F xs s k e) = true) /\
      Rabs (FR (cusum_F xs s k e) - cusum_score_R (prefix (map FR xs)) s k e) <= cusum_E xs s k e /\
      (forall k', (s + m <= k')%nat -> (k' + m <= e)%nat ->
                  cusum_score_R (prefix (map FR xs)) s k' e - cusum_E xs s k' e <= FR (cusum_F xs s k e)) /\
      (forall k', (s + m <= k')%nat -> (k' + m <= e)%nat ->
                  cusum_score_R (prefix (map FR xs)) s k' e
                  <= cusum_score_R (prefix (map FR xs)) s k e + cusum_E xs s k e + cusum_E xs s k' e).
Proof.
  intros Hok Hrun.
  destruct (gsbs_any_inv F64 _ _ _ _ _ _ Hrun) as (A & _).
  destruct (gamocs_inv F64 _ _ _ _ A) as [Hl Hn].
  split; [exact Hl|]. intros i s e Hi Hse.
  specialize (Hn i (0, 0)%nat (0%nat, 0%float) Hi). rewrite Hse in Hn. cbn [T F64] in Hn.
  assert (Hin : In (s, e) ivs) by (rewrite <- Hse; apply nth_In; exact Hi).
  destruct (nth i am (0%nat, 0%float)) as [k v].
  assert (Htab : forall k', (s + m <= k')%nat -> (k' + m <= e)%nat -> nonnan (cusum_F xs s k' e))
    by (intros k' B1 B2; exact (sbs_cusum_table_ok xs m ivs Hok s e k' Hin B1 B2)).
  destruct (gamoc_spec F64 nonnan F64_swo (cusum_F xs) m s e k v Htab Hn) as ((A1 & A2) & -> & Hmax).
  cbn [ltb F64] in Hmax.
  exists k. split; [reflexivity|]. split; [exact A1|]. split; [exact A2|].
  destruct (sbs_score_facts xs m ivs s e k Hok Hin A1 A2) as [Fk Ck].
  split; [exact Fk|]. split; [intros k' B1 B2; exact (proj1 (Hmax k' (conj B1 B2)))|].
  split; [intros k' B1 B2; apply (Hmax k'); [lia | exact B2]|]. split; [exact Ck|].
  split; intros k' B1 B2; destruct (sbs_score_facts xs m ivs s e k' Hok Hin B1 B2) as [Fk' Ck'].
  - exact (max_lower _ _ _ _ Fk Fk' Ck' (proj1 (Hmax k' (conj B1 B2)))).
  - exact (max_within _ _ _ _ _ _ Fk Fk' Ck Ck' (proj1 (Hmax k' (conj B1 B2)))).
Qed.

(** SOUNDNESS: every reported changepoint [c] is the first float maximiser of some interval (s, e) of [ivs] that contains it
    and whose float maximum exceeds the threshold; hence the TRUE statistic of the split [c] of that interval exceeds the threshold up
    to the rounding error, and is within the rounding errors of the true statistic of every other admissible split of it.
    Any finite threshold. *)
Theorem sbs_F64_cusum_sound xs m (thr : float) ivs (cpts : list nat) (am : list (nat * float)) :
  sbs_cusum_trace_ok xs m ivs = true -> finF thr = true ->
  gsbs_any F64 (cusum_F xs) m thr ivs = Some (cpts, am) ->
  forall c, In c cpts ->
  exists i s e,
    (i < length ivs)%nat /\ nth i ivs (0, 0)%nat = (s, e) /\
    nth i am (0%nat, 0%float) = (c, cusum_F xs s c e) /\
    (s + m <= c)%nat /\ (c + m <= e)%nat /\
    PrimFloat.ltb thr (cusum_F xs s c e) = true /\
    (forall k', (s + m <= k')%nat -> (k' + m <= e)%nat ->
                PrimFloat.ltb (cusum_F xs s c e) (cusum_F xs s k' e) = false) /\
    (forall k', (s + m <= k')%nat -> (k' < c)%nat ->
                PrimFloat.ltb (cusum_F xs s k' e) (cusum_F xs s c e) = true) /\
    cusum_score_R (prefix (map FR xs)) s c e > FR thr - cusum_E xs s c e /\
    (forall k', (s + m <= k')%nat -> (k' + m <= e)%nat ->
                cusum_score_R (prefix (map FR xs)) s k' e
                <= cusum_score_R (prefix (map FR xs)) s c e + cusum_E xs s c e + cusum_E xs s k' e).
Proof.
  intros Hok Hthr Hrun c Hc.
  destruct (sbs_premise_shape xs m ivs Hok) as [Hm Hivs].
  destruct (F64_sbs_any_supported (cusum_F xs) m (length xs) thr ivs (sbs_cusum_table_ok xs m ivs Hok)
              (finF_nonnan _ Hthr) Hm Hivs cpts am Hrun c Hc) as (i & Hi & H1 & H2 & _).
  cbn [T zero F64 ltb] in H1, H2.
  destruct (sbs_F64_cusum_interval_max xs m thr ivs cpts am Hok Hrun) as [_ Hint].
  destruct (nth i ivs (0, 0)%nat) as [s e] eqn:Hse.
  destruct (Hint i s e Hi Hse) as (k & Hk & A1 & A2 & Fk & Hmax & Hfirst & Ck & _ & Hstat).
  rewrite Hk in H1, H2. cbn [fst snd] in H1, H2. subst k.
  exists i, s, e. split; [exact Hi|]. split; [exact Hse|]. split; [exact Hk|].
  split; [exact A1|]. split; [exact A2|]. split; [exact H2|]. split; [exact Hmax|]. split; [exact Hfirst|].
  split; [|exact Hstat].
  exact (above_sound thr _ _ _ Hthr Fk Ck H2).
Qed.

(** COMPLETENESS: if some admissible split of an interval of [ivs] has a TRUE statistic exceeding the threshold by more than
    the rounding error, then that interval's float maximum exceeds the threshold and a changepoint is reported inside the interval
    ("no interval above the threshold is left without a changepoint inside it").  Any finite threshold. *)
Theorem sbs_F64_cusum_complete xs m (thr : float) ivs (cpts : list nat) (am : list (nat * float)) :
  sbs_cusum_trace_ok xs m ivs = true -> finF thr = true ->
  gsbs_any F64 (cusum_F xs) m thr ivs = Some (cpts, am) ->
  forall i s e k, (i < length ivs)%nat -> nth i ivs (0, 0)%nat = (s, e) ->
    (s + m <= k)%nat -> (k + m <= e)%nat ->
    cusum_score_R (prefix (map FR xs)) s k e > FR thr + cusum_E xs s k e ->
    PrimFloat.ltb thr (cusum_F xs s k e) = true /\
    PrimFloat.ltb thr (snd (nth i am (0%nat, 0%float))) = true /\
    exists c, In c cpts /\ (s <= c < e)%nat.
Proof.
  intros Hok Hthr Hrun i s e k Hi Hse B1 B2 Hgt.
  destruct (sbs_premise_shape xs m ivs Hok) as [Hm Hivs].
  assert (Hin : In (s, e) ivs) by (rewrite <- Hse; apply nth_In; exact Hi).
  destruct (sbs_score_facts xs m ivs s e k Hok Hin B1 B2) as [Fk Ck].
  assert (Habove : PrimFloat.ltb thr (cusum_F xs s k e) = true)
    by exact (above_complete thr _ _ _ Hthr Fk Ck Hgt).
  split; [exact Habove|].
  destruct (sbs_F64_cusum_interval_max xs m thr ivs cpts am Hok Hrun) as [_ Hint].
  destruct (Hint i s e Hi Hse) as (k0 & Hk0 & A1 & A2 & Fk0 & Hmax & _).
  assert (Hv : PrimFloat.ltb thr (snd (nth i am (0%nat, 0%float))) = true)
    by (rewrite Hk0; exact (max_above thr _ _ Hthr Fk0 Fk Habove (Hmax k B1 B2))).
  split; [exact Hv|].
  destruct (F64_sbs_any_no_interval_left (cusum_F xs) m (length xs) thr ivs (sbs_cusum_table_ok xs m ivs Hok)
              (finF_nonnan _ Hthr) Hm Hivs cpts am Hrun i Hi Hv) as (c & Hc & Hcont).
  exists c. split; [exact Hc|]. rewrite Hse in Hcont. exact (proj1 (SbsProofs.contains_iff _ _) Hcont).
Qed.

(** * 4. Non-vacuity: a level shift *)

(** twelve binary64 numbers: six around 0, six around 5 (all exactly representable, so the literals are the data) *)
Definition demo_shift : list float :=
  [0.25; -0.5; 0.125; 0; -0.25; 0.5; 5.25; 4.75; 5.5; 5; 4.5; 5.25]%float.

(** moving window, bandwidth 3, threshold 2.0, min_detection_interval 1 *)
Example demo_mw_premise : mw_cusum_trace_ok demo_shift 3 = true.
Proof. vm_compute. reflexivity. Qed.

Example demo_thr_finite : finF 2%float = true.
Proof. vm_compute. reflexivity. Qed.

Eval vm_compute in gmw_any F64 (cusum_F demo_shift) 3 (length demo_shift) 2%float 1.

Example demo_mw_cpts : snd (gmw_any F64 (cusum_F demo_shift) 3 (length demo_shift) 2%float 1) = [6%nat].
Proof. vm_compute. reflexivity. Qed.

(** soundness, instantiated: position 6 is admissible, its float score exceeds 2.0 and the true CUSUM statistic of the split 6 of
    the window 3 .. 9 of the real data exceeds 2.0 up to the kernel's rounding error *)
Example demo_mw_sound :
  PrimFloat.ltb 2%float (cusum_F demo_shift 3 6 9) = true /\
  cusum_score_R (prefix (map FR demo_shift)) 3 6 9 > FR 2%float - cusum_E demo_shift 3 6 9.
Proof.
  assert (Hc : In 6%nat (snd (gmw_any F64 (cusum_F demo_shift) 3 (length demo_shift) 2%float 1)))
    by (rewrite demo_mw_cpts; left; reflexivity).
  destruct (mw_F64_cusum_sound demo_shift 3 2%float 1 6 demo_mw_premise demo_thr_finite Hc) as (_ & H1 & H2).
  split; [exact H1 | exact H2].
Qed.

(** the published scores, instantiated at position 6 *)
Example demo_mw_score_6 :
  Rabs (FR (cusum_F demo_shift 3 6 9) - cusum_score_R (prefix (map FR demo_shift)) 3 6 9) <= cusum_E demo_shift 3 6 9.
Proof.
  destruct (mw_F64_cusum_scores demo_shift 3 2%float 1 demo_mw_premise) as [_ H].
  destruct (H 6%nat ltac:(cbn; lia)) as [H6 _]. destruct (H6 ltac:(cbn; lia)) as (E & _ & C).
  rewrite E in C. exact C.
Qed.

(** seeded binary segmentation, min_segment_length 2, threshold 2.0, four seeded intervals *)
Definition demo_ivs : list (nat * nat) := [(0, 12); (0, 6); (6, 12); (3, 9)]%nat.

Example demo_sbs_premise : sbs_cusum_trace_ok demo_shift 2 demo_ivs = true.
Proof. vm_compute. reflexivity. Qed.

Eval vm_compute in gsbs_any F64 (cusum_F demo_shift) 2 2%float demo_ivs.

Example demo_sbs_cpts :
  option_map fst (gsbs_any F64 (cusum_F demo_shift) 2 2%float demo_ivs) = Some [6%nat].
Proof. vm_compute. reflexivity. Qed.

(** soundness, instantiated: the changepoint 6 is the first float maximiser of one of the seeded intervals, that interval's float
    maximum exceeds 2.0, and the true statistic of the split 6 of that interval exceeds 2.0 up to the rounding error *)
Example demo_sbs_sound :
  exists s e, In (s, e) demo_ivs /\ (s + 2 <= 6)%nat /\ (6 + 2 <= e)%nat /\
    PrimFloat.ltb 2%float (cusum_F demo_shift s 6 e) = true /\
    cusum_score_R (prefix (map FR demo_shift)) s 6 e > FR 2%float - cusum_E demo_shift s 6 e.
Proof.
  destruct (gsbs_any F64 (cusum_F demo_shift) 2 2%float demo_ivs) as [[cpts am]|] eqn:Hrun.
  2:{ pose proof demo_sbs_cpts as H. rewrite Hrun in H. discriminate H. }
  assert (Hc : In 6%nat cpts).
  { pose proof demo_sbs_cpts as H. rewrite Hrun in H. cbn [option_map fst] in H. inversion H. left. reflexivity. }
  destruct (sbs_F64_cusum_sound demo_shift 2 2%float demo_ivs cpts am demo_sbs_premise demo_thr_finite Hrun 6%nat Hc)
    as (i & s & e & Hi & Hse & _ & A1 & A2 & H1 & _ & _ & H2 & _).
  exists s, e. split; [rewrite <- Hse; apply nth_In; exact Hi|].
  split; [exact A1|]. split; [exact A2|]. split; [exact H1 | exact H2].
Qed.

(** completeness, instantiated: its hypothesis on the TRUE statistic is satisfiable -- at position 6 the true statistic exceeds
    2.0 by far more than the rounding error (which is below 10^-12 here) -- and its conclusion is the run displayed above *)
Lemma demo_shift_R :
  map FR demo_shift = [1 / 4; - (1 / 2); 1 / 8; 0; - (1 / 4); 1 / 2; 21 / 4; 19 / 4; 11 / 2; 5; 9 / 2; 21 / 4].
Proof.
  unfold demo_shift. cbn [map].
  repeat (apply f_equal2; [first [exact FR_zero | FR_value]|]). reflexivity.
Qed.

Example demo_mw_error_small : cusum_E demo_shift 3 6 9 <= 1 / 1000000000000.
Proof.
  pose proof (cusum_E_simple demo_shift 3 6 9 ltac:(lia) ltac:(lia)) as H.
  rewrite demo_shift_R in H. cbn [firstn] in H.
  assert (HM : sumR (map Rabs [1 / 4; - (1 / 2); 1 / 8; 0; - (1 / 4); 1 / 2; 21 / 4; 19 / 4; 11 / 2]) <= INR 9 * 6).
  { apply (sumR_abs_bound 6). repeat (apply Forall_cons; [apply Rabs_le; lra|]). apply Forall_nil. }
  pose proof (sumR_abs_nonneg [1 / 4; - (1 / 2); 1 / 8; 0; - (1 / 4); 1 / 2; 21 / 4; 19 / 4; 11 / 2]) as HM0.
  set (M := sumR (map Rabs _)) in *. cbn [INR] in H, HM. rewrite u53_value in H.
  assert (H2 : (204 / 100 * (1 + 1 + 1 + 1 + 1 + 1 + 1 + 1 + 1) + 6) * / 9007199254740992 * (2 * M)
               <= (204 / 100 * (1 + 1 + 1 + 1 + 1 + 1 + 1 + 1 + 1) + 6) * / 9007199254740992 * (2 * ((1 + 1 + 1 + 1 + 1 + 1 + 1 + 1 + 1) * 6)))
    by (apply Rmult_le_compat_l; lra).
  lra.
Qed.

Example demo_mw_complete_hypothesis :
  cusum_score_R (prefix (map FR demo_shift)) (6 - 3) 6 (6 + 3) > FR 2%float + cusum_E demo_shift (6 - 3) 6 (6 + 3).
Proof.
  cbn [Nat.sub Nat.add].
  pose proof demo_mw_score_6 as Hc. apply Rabs_le_both in Hc.
  pose proof demo_mw_error_small as HE. pose proof (cusum_E_nonneg demo_shift 3 6 9) as HE0.
  FR_eval (cusum_F demo_shift 3 6 9) Hv. rewrite Hv in Hc. rewrite FR_two. lra.
Qed.

Example demo_mw_complete :
  exists a z c, (3 <= a <= 6)%nat /\ (6 < z)%nat /\ (a <= c < z)%nat /\
    In c (snd (gmw_any F64 (cusum_F demo_shift) 3 (length demo_shift) 2%float 1)).
Proof.
  destruct (mw_F64_cusum_complete demo_shift 3 2%float 1 6 demo_mw_premise demo_thr_finite ltac:(lia) ltac:(cbn; lia)
              demo_mw_complete_hypothesis) as (_ & a & z & _ & Ha & Hz & _ & _ & _ & _ & Hrun).
  assert (Hmdi : (1 <= z - a)%nat) by lia.
  destruct (Hrun Hmdi) as (c & Hc & Hcz & _).
  exists a, z, c. split; [lia|]. split; [exact Hz|]. split; [exact Hcz | exact Hc].
Qed.

(** the same for seeded binary segmentation: the split 6 of the seeded interval (3, 9) (the window of the moving window above) has a
    true statistic above 2.0 + E, so a changepoint is reported inside (3, 9) *)
Example demo_sbs_complete :
  forall cpts am, gsbs_any F64 (cusum_F demo_shift) 2 2%float demo_ivs = Some (cpts, am) ->
  exists c, In c cpts /\ (3 <= c < 9)%nat.
Proof.
  intros cpts am Hrun.
  destruct (sbs_F64_cusum_complete demo_shift 2 2%float demo_ivs cpts am demo_sbs_premise demo_thr_finite Hrun
              3%nat 3%nat 9%nat 6%nat ltac:(cbn; lia) eq_refl ltac:(lia) ltac:(lia) demo_mw_complete_hypothesis)
    as (_ & _ & Hc).
  exact Hc.
Qed.

Print Assumptions mw_F64_cusum_scores.
Print Assumptions mw_F64_cusum_sound.
Print Assumptions mw_F64_cusum_complete.
Print Assumptions sbs_F64_cusum_interval_max.
Print Assumptions sbs_F64_cusum_sound.
Print Assumptions sbs_F64_cusum_complete.
Print Assumptions demo_mw_sound.
Print Assumptions demo_sbs_sound.
Print Assumptions demo_mw_complete.
Print Assumptions demo_sbs_complete.
