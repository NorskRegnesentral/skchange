(** Specification level for CAPA / MVCAPA (property C03).

    Layer 0: anomaly sets -- lists of pairwise disjoint collective anomalies [s,e)
             with m <= e - s <= M and point anomalies [t,t+1), in increasing order,
             inside the prefix [0,T) -- and their total penalised saving.
    Layer 1: the unpruned dynamic programme G (optimal value for every prefix).
    Definitions only (plus the statement-level notions used by Properties/C03.v);
    proofs live in Proofs/CapaDP.v. *)
From Coq Require Import ZArith List Bool.
From SK Require Import Lib.Base.
Import ListNotations.
Open Scope Z_scope.

Inductive anom := Coll (s e : nat) | Pt (t : nat).
Definition a_start (a : anom) : nat := match a with Coll s _ => s | Pt t => t end.
Definition a_end (a : anom) : nat := match a with Coll _ e => e | Pt t => S t end.

Section Spec.
Variable Pc : nat -> nat -> Z.   (* penalised saving of the collective anomaly [s,e) *)
Variable Pp : nat -> Z.          (* penalised saving of the point anomaly at t *)
Variables m M : nat.

Definition a_ok (a : anom) : Prop :=
  match a with Coll s e => (s + m <= e /\ e <= s + M)%nat | Pt _ => True end.
Definition a_val (a : anom) : Z := match a with Coll s e => Pc s e | Pt t => Pp t end.

(** anomalies listed in increasing order, pairwise disjoint, each admissible,
    all inside [lo, T) *)
Fixpoint valid_from (lo : nat) (l : list anom) (T : nat) : Prop :=
  match l with
  | [] => (lo <= T)%nat
  | a :: t => (lo <= a_start a)%nat /\ a_ok a /\ valid_from (a_end a) t T
  end.
Definition Valid (l : list anom) (T : nat) : Prop := valid_from 0 l T.
Definition value (l : list anom) : Z := sumZ (map a_val l).

(** unpruned recursion: G 0 = 0,
    G (S t) = max (G t) (G t + Pp t) (max_{s : m <= S t - s <= M} G s + Pc s (S t)) *)
Definition coll_starts (T : nat) : list nat :=
  filter (fun s => (s + m <=? T)%nat && (T <=? s + M)%nat) (seq 0 T).
Definition gnext (tab : list Z) (T : nat) : Z :=
  let gt := nthZ tab (T - 1) in
  maxl (Z.max gt (gt + Pp (T - 1)))
       (map (fun s => nthZ tab s + Pc s T) (coll_starts T)).
Fixpoint Gtab (t : nat) : list Z :=
  match t with O => [0] | S t' => Gtab t' ++ [gnext (Gtab t') (S t')] end.
Definition G (t : nat) : Z := nthZ (Gtab t) t.
End Spec.

(** reading a predicted interval list back as anomalies: with m >= 2 an interval of
    length 1 can only be a point anomaly *)
Definition to_anom (se : nat * nat) : anom :=
  if (snd se =? S (fst se))%nat then Pt (fst se) else Coll (fst se) (snd se).
Definition is_point (se : nat * nat) : bool := (snd se =? S (fst se))%nat.
