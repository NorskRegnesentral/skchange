(** Instances of the strict-weak-order hypothesis of Proofs/GenericSpec.v.

      (a) Z        : [Z.ltb] on all integers;
      (b) R        : [Rltb] (Model/PeltR.v) on all reals;
      (c) binary64 : [PrimFloat.ltb] on the floats that are not NaN -- finite numbers, both zeros and
                     BOTH INFINITIES (removed scores may be -infinity in the real code).

    For (c) the comparison of primitive floats is specified by the standard library
    (the statements [ltb_spec], [eqb_spec] of Coq.Floats) through [SFcompare] on [spec_float]; [SFcompare] is a lexicographic
    comparison of (sign class, exponent, mantissa), i.e. of the integer triple [key] below, on ALL
    non-NaN [spec_float]s -- validity of the representation is not needed.

    The theorems of GenericSpec.v are then restated for the binary64 instance [F64], the instance the
    harness executes on the score tables of the real scorers. *)
From Coq Require Import Reals Lra List Lia Permutation Sorted Floats.
From SK Require Import Lib.Base Model.Mw Model.Sbs Model.Capa Model.Cbs Model.PeltR Model.Generic Model.GenericF.
From SK Require Import Proofs.CbsProofs Proofs.GenericR Proofs.GenericRank Proofs.GenericSpec.
Import ListNotations.

(** ============================== (a) Z ============================== *)
Theorem Zn_embedding : embedding Zn (fun _ => True) (fun x => x).
Proof. split; [reflexivity|]. intros x y _ _. reflexivity. Qed.

Theorem Zn_swo : swo Zn (fun _ => True).
Proof. exact ArgmaxLemmas.swo_Z. Qed.

(** ============================== (b) R ============================== *)
Theorem Rn_swo : swo Rn (fun _ => True).
Proof.
  constructor; cbn [ltb Rn T].
  - intros x _. apply Rltb_false. lra.
  - intros x y z _ _ _. rewrite !Rltb_true. lra.
  - intros x y z _ _ _. rewrite !Rltb_false. lra.
Qed.

(** ==================== the theorems at the instance of the reals ==================== *)
Section RTheorems.
Local Open Scope nat_scope.
Let okR : R -> Prop := fun _ => True.

Theorem Rn_C08_run : forall (CS : nat -> nat -> nat -> R) b n (thr : R) mdi scores cpts,
  gmw Rn CS b n thr mdi = (scores, cpts) ->
  scores = gmw_scores Rn CS b n /\ StronglySorted lt cpts /\
  forall c, In c cpts <->
    exists a z, In (a, z) (where_runs (map (fun v => Rltb thr v) scores)) /\ mdi <= z - a /\ a <= c < z /\
      (forall i, a <= i < z -> (nthV Rn scores i <= nthV Rn scores c)%R) /\
      (forall i, a <= i < c -> (nthV Rn scores i < nthV Rn scores c)%R).
Proof.
  intros CS b n thr mdi scores cpts H.
  destruct (G08_run Rn okR Rn_swo I CS b n thr mdi scores cpts (fun _ _ _ => I) I H) as (H1 & _ & H3 & H4).
  split; [exact H1|]. split; [exact H3|]. intros c. rewrite H4. cbn [ltb Rn].
  split; intros (a & z & A1 & A2 & A3 & A4 & A5); exists a, z; (split; [exact A1|]); (split; [exact A2|]);
    (split; [exact A3|]); split; intros i Hi.
  - apply Rltb_false. apply A4. exact Hi.
  - apply Rltb_true. apply A5. exact Hi.
  - apply Rltb_false. apply A4. exact Hi.
  - apply Rltb_true. apply A5. exact Hi.
Qed.

Theorem Rn_C07_changepoints_supported_and_complete :
  forall (CS : nat -> nat -> nat -> R) m n (thr : R) ivs cpts am,
  (0 <= thr)%R -> 1 <= m -> (forall s e, In (s, e) ivs -> s + 2 * m <= e <= n) ->
  gsbs Rn CS m thr ivs = Some (cpts, am) ->
  (forall c, In c cpts -> exists i, i < length ivs /\ fst (nth i am (0%nat, 0%R)) = c /\
                                    (thr < snd (nth i am (0%nat, 0%R)))%R /\ contains (nth i ivs (0, 0)) c = true) /\
  (forall i, i < length ivs -> (thr < snd (nth i am (0%nat, 0%R)))%R ->
             exists c, In c cpts /\ contains (nth i ivs (0, 0)) c = true).
Proof.
  intros CS m n thr ivs cpts am Hthr Hm Hivs H.
  assert (Hthr' : ltb Rn thr (zero Rn) = false) by (apply Rltb_false; exact Hthr).
  split.
  - intros c Hc.
    destruct (G07_changepoints_supported Rn okR Rn_swo I CS m n thr ivs (fun _ _ _ _ _ _ => I) I Hthr' Hm Hivs
                cpts am H c Hc) as (i & Hi & H1 & H2 & H3).
    exists i. split; [exact Hi|]. split; [exact H1|]. split; [|exact H3]. apply Rltb_true. exact H2.
  - intros i Hi Hlt.
    apply (G07_no_interval_left Rn okR Rn_swo I CS m n thr ivs (fun _ _ _ _ _ _ => I) I Hthr' Hm Hivs cpts am H i Hi).
    apply Rltb_true. exact Hlt.
Qed.
End RTheorems.

(** ============================ (c) binary64 ============================ *)
Open Scope Z_scope.

(** [SFcompare] compares these integer triples lexicographically *)
Definition key (x : spec_float) : Z * Z * Z :=
  match x with
  | S754_zero _ => (0, 0, 0)
  | S754_infinity true => (-2, 0, 0)
  | S754_infinity false => (2, 0, 0)
  | S754_nan => (0, 0, 0)
  | S754_finite true m e => (-1, - e, - Zpos m)
  | S754_finite false m e => (1, e, Zpos m)
  end.

Definition lexlt (a b : Z * Z * Z) : Prop :=
  let '(a1, a2, a3) := a in let '(b1, b2, b3) := b in
  a1 < b1 \/ (a1 = b1 /\ (a2 < b2 \/ (a2 = b2 /\ a3 < b3))).

Lemma lexlt_irrefl : forall a, ~ lexlt a a.
Proof. intros [[a1 a2] a3]. unfold lexlt. lia. Qed.

Lemma lexlt_trans : forall a b c, lexlt a b -> lexlt b c -> lexlt a c.
Proof. intros [[a1 a2] a3] [[b1 b2] b3] [[c1 c2] c3]. unfold lexlt. lia. Qed.

Lemma lexlt_incomp : forall a b c, ~ lexlt a b -> ~ lexlt b a -> ~ lexlt b c -> ~ lexlt c b -> ~ lexlt a c.
Proof. intros [[a1 a2] a3] [[b1 b2] b3] [[c1 c2] c3]. unfold lexlt. lia. Qed.

Lemma SFltb_key : forall x y, x <> S754_nan -> y <> S754_nan ->
  (SFltb x y = true <-> lexlt (key x) (key y)).
Proof.
  intros x y Hx Hy.
  destruct x as [sx|sx| |sx mx ex]; [| |congruence|];
    (destruct y as [sy|sy| |sy my ey]; [| |congruence|]); clear Hx Hy;
    unfold SFltb, SFcompare, key, lexlt; destruct sx; destruct sy;
    try (change (Pos.compare_cont Eq mx my) with (Pos.compare mx my);
         destruct (Z.compare_spec ex ey); destruct (Pos.compare_spec mx my));
    cbn [CompOpp]; split; intros Hgoal; try discriminate Hgoal; try reflexivity; try lia.
Qed.

Lemma SFltb_key_false : forall x y, x <> S754_nan -> y <> S754_nan ->
  (SFltb x y = false <-> ~ lexlt (key x) (key y)).
Proof.
  intros x y Hx Hy. pose proof (SFltb_key x y Hx Hy) as H.
  destruct (SFltb x y); split; intros H'; try reflexivity; try discriminate.
  - exfalso. apply H'. apply H. reflexivity.
  - intro K. apply H in K. discriminate.
Qed.

(** the admissible binary64 values: everything but NaN *)
Definition nonnan (x : float) : Prop := PrimFloat.is_nan x = false.

Lemma nonnan_SF : forall x, nonnan x -> Prim2SF x <> S754_nan.
Proof.
  intros x H E. unfold nonnan, PrimFloat.is_nan in H. rewrite eqb_spec, E in H.
  cbn in H. discriminate H.
Qed.

Lemma SF_nonnan : forall x, Prim2SF x <> S754_nan -> nonnan x.
Proof.
  intros x H. unfold nonnan, PrimFloat.is_nan. rewrite eqb_spec.
  destruct (Prim2SF x) as [s|s| |s m e]; [| |congruence|]; unfold SFeqb, SFcompare.
  - reflexivity.
  - destruct s; reflexivity.
  - destruct s; rewrite Z.compare_refl, Pos.compare_cont_refl; reflexivity.
Qed.

Lemma nonnan_zero : nonnan 0%float.
Proof. reflexivity. Qed.
Lemma nonnan_infinity : nonnan PrimFloat.infinity.
Proof. reflexivity. Qed.
Lemma nonnan_neg_infinity : nonnan PrimFloat.neg_infinity.
Proof. reflexivity. Qed.

Lemma F64_ltb_key : forall x y, nonnan x -> nonnan y ->
  (PrimFloat.ltb x y = true <-> lexlt (key (Prim2SF x)) (key (Prim2SF y))).
Proof. intros x y Hx Hy. rewrite ltb_spec. apply SFltb_key; apply nonnan_SF; assumption. Qed.

Lemma F64_ltb_key_false : forall x y, nonnan x -> nonnan y ->
  (PrimFloat.ltb x y = false <-> ~ lexlt (key (Prim2SF x)) (key (Prim2SF y))).
Proof. intros x y Hx Hy. rewrite ltb_spec. apply SFltb_key_false; apply nonnan_SF; assumption. Qed.

(** the three order laws of [PrimFloat.ltb] on non-NaN floats *)
Theorem F64_ltb_irrefl : forall x, nonnan x -> PrimFloat.ltb x x = false.
Proof. intros x Hx. apply F64_ltb_key_false; [exact Hx | exact Hx|]. apply lexlt_irrefl. Qed.

Theorem F64_ltb_trans : forall x y z, nonnan x -> nonnan y -> nonnan z ->
  PrimFloat.ltb x y = true -> PrimFloat.ltb y z = true -> PrimFloat.ltb x z = true.
Proof.
  intros x y z Hx Hy Hz H1 H2. apply F64_ltb_key in H1; [|assumption..]. apply F64_ltb_key in H2; [|assumption..].
  apply F64_ltb_key; [assumption..|]. exact (lexlt_trans _ _ _ H1 H2).
Qed.

Theorem F64_ltb_incomp : forall x y z, nonnan x -> nonnan y -> nonnan z ->
  PrimFloat.ltb x y = false -> PrimFloat.ltb y x = false ->
  PrimFloat.ltb y z = false -> PrimFloat.ltb z y = false -> PrimFloat.ltb x z = false.
Proof.
  intros x y z Hx Hy Hz H1 H2 H3 H4.
  apply F64_ltb_key_false in H1; [|assumption..]. apply F64_ltb_key_false in H2; [|assumption..].
  apply F64_ltb_key_false in H3; [|assumption..]. apply F64_ltb_key_false in H4; [|assumption..].
  apply F64_ltb_key_false; [assumption..|]. exact (lexlt_incomp _ _ _ H1 H2 H3 H4).
Qed.

Theorem F64_swo : swo F64 nonnan.
Proof.
  constructor; cbn [ltb F64 T].
  - exact F64_ltb_irrefl.
  - exact F64_ltb_trans.
  - exact F64_ltb_incomp.
Qed.

(** NaN is the only obstruction: with a NaN the comparison is not even a weak order
    (everything is incomparable to NaN, yet 0 < 1) *)
Theorem F64_nan_breaks_incomp :
  PrimFloat.ltb 0 PrimFloat.nan = false /\ PrimFloat.ltb PrimFloat.nan 0 = false /\
  PrimFloat.ltb PrimFloat.nan 1 = false /\ PrimFloat.ltb 1 PrimFloat.nan = false /\
  PrimFloat.ltb 0 1 = true.
Proof. repeat split; reflexivity. Qed.

(** ==================== the theorems at the binary64 instance ==================== *)

Section F64Theorems.
Local Open Scope nat_scope.

(** ---- moving window (C08) ---- *)
Theorem F64_C08_run : forall (CS : nat -> nat -> nat -> float) b n (thr : float) mdi scores cpts,
  (forall t, b <= t -> t + b <= n -> nonnan (CS (t - b) t (t + b))) -> nonnan thr ->
  gmw F64 CS b n thr mdi = (scores, cpts) ->
  scores = gmw_scores F64 CS b n /\ Forall nonnan scores /\ StronglySorted lt cpts /\
  forall c, In c cpts <->
    exists a z, In (a, z) (where_runs (map (fun v => (thr <? v)%float) scores)) /\ mdi <= z - a /\ a <= c < z /\
      (forall i, a <= i < z -> (nthV F64 scores c <? nthV F64 scores i)%float = false) /\
      (forall i, a <= i < c -> (nthV F64 scores i <? nthV F64 scores c)%float = true).
Proof. exact (G08_run F64 nonnan F64_swo nonnan_zero). Qed.

Theorem F64_C08_changepoints_in_range : forall (CS : nat -> nat -> nat -> float) b n (thr : float) mdi c,
  (forall t, b <= t -> t + b <= n -> nonnan (CS (t - b) t (t + b))) -> nonnan thr ->
  (thr <? 0)%float = false -> In c (snd (gmw F64 CS b n thr mdi)) -> b <= c /\ c + b <= n.
Proof. exact (G08_changepoints_in_range F64 nonnan F64_swo nonnan_zero). Qed.

Theorem F64_C08_changepoints_above_threshold : forall (scores : list float) (thr : float) mdi c,
  Forall nonnan scores -> nonnan thr ->
  In c (gmw_cpts F64 scores thr mdi) -> c < length scores /\ (thr <? nthV F64 scores c)%float = true.
Proof. exact (G08_changepoints_above_threshold F64 nonnan F64_swo nonnan_zero). Qed.

(** ---- seeded binary segmentation (C07) ---- *)
Section F64Sbs.
Variables (CS : nat -> nat -> nat -> float) (m n : nat) (thr : float) (ivs : list (nat * nat)).
Hypothesis Htab : forall s e k, In (s, e) ivs -> s + m <= k -> k + m <= e -> nonnan (CS s k e).
Hypothesis Hokthr : nonnan thr.
Hypothesis Hthr : (thr <? 0)%float = false.
Hypothesis Hm : 1 <= m.
Hypothesis Hivs : forall s e, In (s, e) ivs -> s + 2 * m <= e <= n.

Theorem F64_C07_total : exists r, gsbs F64 CS m thr ivs = Some r.
Proof. exact (G07_total F64 nonnan F64_swo nonnan_zero CS m n thr ivs Htab Hokthr Hthr Hm Hivs). Qed.

Variables (cpts : list nat) (am : list (nat * float)).
Hypothesis Hrun : gsbs F64 CS m thr ivs = Some (cpts, am).

Theorem F64_C07_interval_scores : length am = length ivs /\
  forall i, i < length ivs ->
    let '(s, e) := nth i ivs (0, 0) in let '(k, v) := nth i am (0, 0%float) in
    (s + m <= k /\ k + m <= e) /\ v = CS s k e /\
    forall k', s + m <= k' /\ k' + m <= e ->
      (v <? CS s k' e)%float = false /\ (k' < k -> (CS s k' e <? v)%float = true).
Proof. exact (G07_interval_scores F64 nonnan F64_swo nonnan_zero CS m n thr ivs Htab Hokthr Hthr Hm Hivs cpts am Hrun). Qed.

Theorem F64_C07_changepoints_supported : forall c, In c cpts ->
  exists i, i < length ivs /\ fst (nth i am (0%nat, 0%float)) = c /\
            (thr <? snd (nth i am (0%nat, 0%float)))%float = true /\ contains (nth i ivs (0, 0)) c = true.
Proof. exact (G07_changepoints_supported F64 nonnan F64_swo nonnan_zero CS m n thr ivs Htab Hokthr Hthr Hm Hivs cpts am Hrun). Qed.

Theorem F64_C07_no_interval_left : forall i, i < length ivs -> (thr <? snd (nth i am (0%nat, 0%float)))%float = true ->
  exists c, In c cpts /\ contains (nth i ivs (0, 0)) c = true.
Proof. exact (G07_no_interval_left F64 nonnan F64_swo nonnan_zero CS m n thr ivs Htab Hokthr Hthr Hm Hivs cpts am Hrun). Qed.

Theorem F64_C07_changepoints_wellformed :
  (forall i, S i < length cpts -> nthN cpts i + m <= nthN cpts (S i)) /\
  (forall c, In c cpts -> m <= c /\ c + m <= n).
Proof. exact (G07_changepoints_wellformed F64 nonnan F64_swo nonnan_zero CS m n thr ivs Htab Hokthr Hthr Hm Hivs cpts am Hrun). Qed.

Theorem F64_C07_threshold_monotone : forall (thr' : float) cpts' am', nonnan thr' -> (thr' <? thr)%float = false ->
  gsbs F64 CS m thr' ivs = Some (cpts', am') -> incl cpts' cpts.
Proof. exact (G07_threshold_monotone F64 nonnan F64_swo nonnan_zero CS m n thr ivs Htab Hokthr Hthr Hm Hivs cpts am Hrun). Qed.
End F64Sbs.

(** ---- circular binary segmentation (C09) ---- *)
Definition F64_cbs_table_ok (LS : nat -> nat -> nat -> nat -> float) (m : nat) (ivs : list (nat * nat)) : Prop :=
  forall s e a z, In (s, e) ivs -> In (a, z) (anomaly_intervals s e m) -> nonnan (LS s a z e).

Theorem F64_C09_interval_scores : forall (LS : nat -> nat -> nat -> nat -> float) m s e a z v,
  (forall a z, In (a, z) (anomaly_intervals s e m) -> nonnan (LS s a z e)) ->
  gbest_inner F64 LS m (s, e) = Some ((a, z), v) ->
  In (a, z) (anomaly_intervals s e m) /\ v = LS s a z e /\
  forall a' z', In (a', z') (anomaly_intervals s e m) -> (v <? LS s a' z' e)%float = false.
Proof. exact (G09_interval_scores F64 nonnan F64_swo nonnan_zero). Qed.

Theorem F64_C09_wellformed : forall (LS : nat -> nat -> nat -> nat -> float) m (thr : float) n ivs anoms am,
  F64_cbs_table_ok LS m ivs -> nonnan thr -> (thr <? 0)%float = false -> 1 <= m ->
  (forall s e, In (s, e) ivs -> e <= n) -> gcbs F64 LS m thr ivs = Some (anoms, am) ->
  (forall i, S i < length anoms ->
      fst (nthP anoms i) < fst (nthP anoms (S i)) /\ snd (nthP anoms i) <= fst (nthP anoms (S i))) /\
  (forall a z, In (a, z) anoms -> 1 <= a /\ a + m <= z <= n - 1) /\
  am = map (ginner_or_zero F64 LS m) ivs /\
  exists picks, ggreedy_anoms F64 (length ivs) thr ivs (map fst am) (map snd am) = Some picks /\
                anoms = sort_pairs picks /\ Permutation anoms picks.
Proof. exact (G09_wellformed F64 nonnan F64_swo nonnan_zero). Qed.

Theorem F64_C09_total : forall (LS : nat -> nat -> nat -> nat -> float) m (thr : float) ivs,
  F64_cbs_table_ok LS m ivs -> nonnan thr -> (thr <? 0)%float = false ->
  exists r, gcbs F64 LS m thr ivs = Some r.
Proof. exact (G09_total F64 nonnan F64_swo nonnan_zero). Qed.

(** every reported anomaly is the inner interval of a candidate scoring above the threshold, and no
    above-threshold candidate is left without an overlapping anomaly -- on the run itself *)
Theorem F64_C09_anomalies_supported_and_complete :
  forall (LS : nat -> nat -> nat -> nat -> float) m (thr : float) ivs anoms am,
  F64_cbs_table_ok LS m ivs -> nonnan thr -> (thr <? 0)%float = false ->
  gcbs F64 LS m thr ivs = Some (anoms, am) ->
  (forall ab, In ab anoms -> exists i, i < length ivs /\ fst (nth i am ((0%nat, 0%nat), 0%float)) = ab /\
                                       (thr <? snd (nth i am ((0%nat, 0%nat), 0%float)))%float = true) /\
  (forall i, i < length ivs -> (thr <? snd (nth i am ((0%nat, 0%nat), 0%float)))%float = true ->
             exists ab, In ab anoms /\ overlaps ab (nthP ivs i) = true).
Proof. exact (G09_anomalies_supported_and_complete F64 nonnan F64_swo nonnan_zero). Qed.
End F64Theorems.

Print Assumptions Zn_swo.
Print Assumptions Rn_swo.
Print Assumptions F64_swo.
Print Assumptions Rn_C08_run.
Print Assumptions Rn_C07_changepoints_supported_and_complete.
Print Assumptions F64_C08_run.
Print Assumptions F64_C07_interval_scores.
Print Assumptions F64_C07_changepoints_supported.
Print Assumptions F64_C07_no_interval_left.
Print Assumptions F64_C07_threshold_monotone.
Print Assumptions F64_C09_wellformed.
Print Assumptions F64_C09_anomalies_supported_and_complete.
