(** Soundness of the boolean checkers of [Check/]: whenever a checker returns [true] on the
    output of the real implementation, the propositional statement it stands for holds.
    The booleans are reflected into readable [Prop]s; where a lemma file already
    characterises a model function (first argmax, seeded binary segmentation, ...) the
    characterisation is carried over to the implementation's output.  The optimality
    checkers of PELT and CAPA have their soundness theorems in their own files
    (Check/PeltCheck.v, Check/CapaCheck.v); only their model-equality tests are treated here. *)
From Coq Require Import ZArith List Lia Bool Sorted.
From SK Require Import Lib.Base.
From SK Require Import Model.Sbs Model.Cbs Model.Mw Model.Capa Model.Convert Model.Anomaliser.
From SK Require Import Proofs.ArgmaxLemmas Proofs.SbsProofs Proofs.CbsProofs Proofs.MwProofs.
From SK Require Proofs.ConvertProofs.
From SK Require Import Check.Scores.
From SK Require Check.SbsCheck Check.CbsCheck Check.MwCheck Check.AffectedCheck
                       Check.AnomaliserCheck Check.KernelCheck Check.ObjectsCheck Check.CapaCheck
                       Check.PeltCheck.
Import SbsCheck CbsCheck MwCheck AffectedCheck AnomaliserCheck ObjectsCheck.
Import ListNotations.
Open Scope Z_scope.

(** * Generic reflection lemmas *)

Lemma forallb_combine_map {A B} (eqb : A -> A -> bool) (f : B -> A)
      (Heqb : forall x y, eqb x y = true -> x = y) :
  forall (a : list A) (b : list B),
    length a = length b ->
    forallb (fun xy => eqb (fst xy) (f (snd xy))) (combine a b) = true ->
    a = map f b.
Proof.
  induction a as [|x a IH]; intros [|y b] Hlen Hall; cbn in *; try discriminate; [reflexivity|].
  apply andb_true_iff in Hall as [Hxy Hall].
  apply Heqb in Hxy. subst x. f_equal. apply IH; [lia | exact Hall].
Qed.

Lemma andb3_sound : forall (b1 b2 b3 : bool) (P1 P2 P3 : Prop),
  (b1 = true -> P1) -> (b2 = true -> P2) -> (b3 = true -> P3) ->
  b1 && b2 && b3 = true -> P1 /\ P2 /\ P3.
Proof.
  intros b1 b2 b3 P1 P2 P3 H1 H2 H3 H.
  apply andb_true_iff in H as [H Hb3]. apply andb_true_iff in H as [Hb1 Hb2]. auto.
Qed.

(** the completeness clause of the segmentation checkers: every row above the threshold
    has a witness among the reported items *)
Lemma above_thr_witness {A B} (score : A -> Z) (thr : Z) (f : A -> B -> bool)
      (rows : list A) (items : list B) :
  forallb (fun r => negb (thr <? score r) || existsb (f r) items) rows = true ->
  forall r, In r rows -> thr < score r -> exists x, In x items /\ f r x = true.
Proof.
  intros H r Hr Hthr. rewrite forallb_forall in H.
  destruct (orb_true_elim _ _ (H r Hr)) as [Hneg | Hex].
  - apply negb_true_iff, Z.ltb_ge in Hneg. lia.
  - apply existsb_exists. exact Hex.
Qed.

(** the list equality tests of Lib/Base.v and Check/ are all of this form *)
Lemma eqb_list_sound {A} (eqb : A -> A -> bool)
      (Heqb : forall x y, eqb x y = true -> x = y) (a b : list A) :
  (length a =? length b)%nat && forallb (fun xy => eqb (fst xy) (snd xy)) (combine a b) = true ->
  a = b.
Proof.
  intros H. apply andb_true_iff in H as [Hlen Hall]. apply Nat.eqb_eq in Hlen.
  rewrite <- (map_id b).
  exact (forallb_combine_map eqb (fun x => x) Heqb a b Hlen Hall).
Qed.

Lemma eqb_listN_true : forall a b : list nat, eqb_listN a b = true -> a = b.
Proof. exact (eqb_list_sound Nat.eqb (fun x y => proj1 (Nat.eqb_eq x y))). Qed.

Lemma eqb_listZ_true : forall a b : list Z, eqb_listZ a b = true -> a = b.
Proof. exact (eqb_list_sound Z.eqb (fun x y => proj1 (Z.eqb_eq x y))). Qed.

Lemma pair_eqb_true : forall a b : nat * nat, ConvertCheck.pair_eqb a b = true -> a = b.
Proof.
  intros [a1 a2] [b1 b2] H. unfold ConvertCheck.pair_eqb in H. cbn in H.
  apply andb_true_iff in H as [H1 H2].
  apply Nat.eqb_eq in H1. apply Nat.eqb_eq in H2. subst. reflexivity.
Qed.

Lemma sbs_pair_eqb_true : forall a b : nat * nat, SbsCheck.pair_eqb a b = true -> a = b.
Proof. exact pair_eqb_true. Qed.
Lemma cbs_pair_eqb_true : forall a b : nat * nat, CbsCheck.pair_eqb a b = true -> a = b.
Proof. exact pair_eqb_true. Qed.
Lemma capa_pair_eqb_true : forall a b : nat * nat, CapaCheck.pair_eqb a b = true -> a = b.
Proof. exact pair_eqb_true. Qed.

(** [eqb_pairs] of Check/ConvertCheck.v (used by AnomaliserCheck as well) *)
Lemma eqb_pairs_true : forall a b : list (nat * nat), ConvertCheck.eqb_pairs a b = true -> a = b.
Proof. exact (eqb_list_sound ConvertCheck.pair_eqb pair_eqb_true). Qed.
(** the separate (convertible) definitions of Check/CbsCheck.v and Check/CapaCheck.v *)
Lemma cbs_eqb_pairs_true : forall a b : list (nat * nat), CbsCheck.eqb_pairs a b = true -> a = b.
Proof. exact eqb_pairs_true. Qed.
Lemma capa_eqb_pairs_true : forall a b : list (nat * nat), CapaCheck.eqb_pairs a b = true -> a = b.
Proof. exact eqb_pairs_true. Qed.

Lemma eqb_mat_true : forall a b : list (list nat), ConvertCheck.eqb_mat a b = true -> a = b.
Proof. exact (eqb_list_sound eqb_listN eqb_listN_true). Qed.

Lemma anom3_eqb_true : forall a b : anom3, ConvertCheck.anom3_eqb a b = true -> a = b.
Proof.
  intros [ai ac] [bi bc] H. unfold ConvertCheck.anom3_eqb in H. cbn in H.
  apply andb_true_iff in H as [H1 H2].
  apply pair_eqb_true in H1. apply eqb_listN_true in H2. subst. reflexivity.
Qed.

Lemma eqb_anoms_true : forall a b : list anom3, ConvertCheck.eqb_anoms a b = true -> a = b.
Proof. exact (eqb_list_sound ConvertCheck.anom3_eqb anom3_eqb_true). Qed.

Lemma nodupb_iff : forall l : list nat, AffectedCheck.nodupb l = true <-> NoDup l.
Proof. exact (nodup_test_iff Nat.eqb Nat.eqb_eq). Qed.
Lemma nodupb_true : forall l : list nat, AffectedCheck.nodupb l = true -> NoDup l.
Proof. intros l H. apply nodupb_iff. exact H. Qed.

Lemma nodupZb_iff : forall l : list Z, AffectedCheck.nodupZb l = true <-> NoDup l.
Proof. exact (nodup_test_iff Z.eqb Z.eqb_eq). Qed.
Lemma nodupZb_true : forall l : list Z, AffectedCheck.nodupZb l = true -> NoDup l.
Proof. intros l H. apply nodupZb_iff. exact H. Qed.

Lemma noninc_true : forall l : list Z, AffectedCheck.noninc l = true ->
  forall i, (S i < length l)%nat -> nthZ l (S i) <= nthZ l i.
Proof.
  induction l as [|x t IH]; intros H; [intros i Hi; cbn in Hi; lia|].
  destruct t as [|y t']; [intros i Hi; cbn in Hi; lia|].
  change (AffectedCheck.noninc (x :: y :: t')) with ((y <=? x) && AffectedCheck.noninc (y :: t')) in H.
  apply andb_true_iff in H as [Hyx Ht]. apply Z.leb_le in Hyx.
  apply (steps_cons Z (fun a b => b <= a) 0 x (y :: t')); [intros _; exact Hyx | exact (IH Ht)].
Qed.

Lemma noninc_le : forall l : list Z, AffectedCheck.noninc l = true ->
  forall i i', (i <= i')%nat -> (i' < length l)%nat -> nthZ l i' <= nthZ l i.
Proof.
  intros l H. apply (chain_le (fun a b => b <= a) (nthZ l) (length l)).
  - intros x y z Hyx Hzy. lia.
  - exact (noninc_true l H).
  - intros x. lia.
Qed.

Lemma noninc_sorted : forall l : list Z, AffectedCheck.noninc l = true ->
  Sorted (fun a b => b <= a) l.
Proof.
  intros l H. apply (nth_Sorted (fun a b : Z => b <= a) l 0).
  intros i Hi. apply (noninc_true l H i Hi).
Qed.

Lemma incl_ok_true : forall small big : list nat, SbsCheck.incl_ok small big = true -> incl small big.
Proof.
  intros small big H x Hx. unfold SbsCheck.incl_ok in H. rewrite forallb_forall in H.
  apply existsb_eqb_In. apply H. exact Hx.
Qed.

Lemma incl_pairs_ok_true : forall x : list (nat * nat) * list (nat * nat),
  CbsCheck.incl_pairs_ok x = true -> incl (fst x) (snd x).
Proof.
  intros x H ab Hab. unfold CbsCheck.incl_pairs_ok in H. rewrite forallb_forall in H.
  specialize (H ab Hab). apply existsb_exists in H as [y [Hy Heq]].
  apply cbs_pair_eqb_true in Heq. subst y. exact Hy.
Qed.

Lemma dterm_eqb_true : forall a b : Objects.dterm, Objects.dterm_eqb a b = true -> a = b.
Proof.
  induction a as [i | a1 IH1 a2 IH2]; intros [j | b1 b2] H; cbn in H; try discriminate.
  - apply Nat.eqb_eq in H. subst. reflexivity.
  - apply andb_true_iff in H as [H1 H2]. apply IH1 in H1. apply IH2 in H2. subst. reflexivity.
Qed.

Lemma obs_eqb_true : forall a b : Objects.obsop, ObjectsCheck.obs_eqb a b = true -> a = b.
Proof. intros [] [] H; cbn in H; try discriminate; reflexivity. Qed.

Lemma fitrec_eqb_true : forall a b : Objects.fitrec, ObjectsCheck.fitrec_eqb a b = true -> a = b.
Proof.
  intros [ap asp ad] [bp bsp bd] H. unfold ObjectsCheck.fitrec_eqb in H. cbn in H.
  apply andb_true_iff in H as [H Hd]. apply andb_true_iff in H as [Hp Hsp].
  apply Nat.eqb_eq in Hp. apply eqb_listN_true in Hsp. apply dterm_eqb_true in Hd.
  subst. reflexivity.
Qed.

Lemma out_eqb_true : forall a b : Objects.out, ObjectsCheck.out_eqb a b = true -> a = b.
Proof.
  intros a b H. destruct a, b; cbn in H; try discriminate; try reflexivity.
  - apply Nat.eqb_eq in H. subst. reflexivity.
  - apply andb_true_iff in H as [H Hc]. apply andb_true_iff in H as [Hp Hd].
    apply Nat.eqb_eq in Hp. apply Nat.eqb_eq in Hc. apply dterm_eqb_true in Hd.
    subst. reflexivity.
  - apply andb_true_iff in H as [H Hx]. apply andb_true_iff in H as [H Hfr].
    apply andb_true_iff in H as [H Hsp]. apply andb_true_iff in H as [Ho Hp].
    apply obs_eqb_true in Ho. apply Nat.eqb_eq in Hp. apply eqb_listN_true in Hsp.
    apply fitrec_eqb_true in Hfr. apply Nat.eqb_eq in Hx. subst. reflexivity.
Qed.

Lemma outs_eqb_true : forall a b : list Objects.out, ObjectsCheck.outs_eqb a b = true -> a = b.
Proof. exact (list_eqb_true _ ObjectsCheck.out_eqb out_eqb_true). Qed.

Lemma nb_eqb_true : forall a b : list (nat * bool), ObjectsCheck.nb_eqb a b = true -> a = b.
Proof.
  apply (eqb_list_sound (fun x y : nat * bool => (fst x =? fst y)%nat && Bool.eqb (snd x) (snd y))).
  intros [x1 x2] [y1 y2] Hxy. cbn in Hxy. apply andb_true_iff in Hxy as [H1 H2].
  apply Nat.eqb_eq in H1. apply Bool.eqb_prop in H2. subst. reflexivity.
Qed.

(** * MVCAPA affected columns (Check/AffectedCheck.v) *)

Lemma nthZ_map_nthN : forall (f : nat -> Z) (l : list nat) (i : nat),
  (i < length l)%nat -> nthZ (map f l) i = f (nthN l i).
Proof.
  intros f l i Hi. unfold nthZ, nthN. apply (nth_map_lt f l i 0%nat 0 Hi).
Qed.

Definition af_spec (c : AffectedCheck.af_case) : Prop :=
  let sav := AffectedCheck.af_sav c in
  let cols := AffectedCheck.af_cols c in
  cols <> []
  /\ NoDup cols
  /\ (forall j, In j cols -> (j < length sav)%nat)
  /\ (forall i i', (i <= i')%nat -> (i' < length cols)%nat ->
        nthZ sav (nthN cols i') <= nthZ sav (nthN cols i))
  /\ (forall j, (j < length sav)%nat -> ~ In j cols ->
        forall i, In i cols -> nthZ sav j <= nthZ sav i)
  /\ length cols = length (affected sav (AffectedCheck.af_alpha c) (AffectedCheck.af_betas c)).

Theorem af_spec_ok_sound : forall c : AffectedCheck.af_case,
  AffectedCheck.af_spec_ok c = true ->
  AffectedCheck.af_cols c <> []
  /\ NoDup (AffectedCheck.af_cols c)
  /\ (forall j, In j (AffectedCheck.af_cols c) -> (j < length (AffectedCheck.af_sav c))%nat)
  /\ (forall i i', (i <= i')%nat -> (i' < length (AffectedCheck.af_cols c))%nat ->
        nthZ (AffectedCheck.af_sav c) (nthN (AffectedCheck.af_cols c) i')
        <= nthZ (AffectedCheck.af_sav c) (nthN (AffectedCheck.af_cols c) i))
  /\ (forall j, (j < length (AffectedCheck.af_sav c))%nat -> ~ In j (AffectedCheck.af_cols c) ->
        forall i, In i (AffectedCheck.af_cols c) ->
          nthZ (AffectedCheck.af_sav c) j <= nthZ (AffectedCheck.af_sav c) i)
  /\ length (AffectedCheck.af_cols c)
     = length (affected (AffectedCheck.af_sav c) (AffectedCheck.af_alpha c) (AffectedCheck.af_betas c)).
Proof.
  intros c H. unfold AffectedCheck.af_spec_ok in H. cbn zeta in H.
  apply andb_true_iff in H as [H Hlen]. apply andb_true_iff in H as [H Hexcl].
  apply andb_true_iff in H as [H Hninc]. apply andb_true_iff in H as [H Hrange].
  apply andb_true_iff in H as [Hne Hnd].
  apply negb_true_iff in Hne. apply Nat.eqb_neq in Hne.
  apply nodupb_true in Hnd. rewrite forallb_forall in Hrange. rewrite forallb_forall in Hexcl.
  apply Nat.eqb_eq in Hlen.
  split; [|split; [|split; [|split; [|split]]]].
  - intros Hnil. rewrite Hnil in Hne. cbn in Hne. lia.
  - exact Hnd.
  - intros j Hj. apply Nat.ltb_lt. apply Hrange. exact Hj.
  - intros i i' Hle Hlt.
    pose proof (noninc_le _ Hninc i i' Hle) as Hv. rewrite map_length in Hv. specialize (Hv Hlt).
    rewrite !nthZ_map_nthN in Hv by lia. exact Hv.
  - intros j Hj Hnotin i Hi.
    assert (Hjs : In j (seq 0 (length (AffectedCheck.af_sav c)))) by (apply in_seq; lia).
    specialize (Hexcl j Hjs). apply orb_true_iff in Hexcl as [Hmem | Hall].
    + apply existsb_eqb_In in Hmem. contradiction.
    + rewrite forallb_forall in Hall. apply Z.leb_le. apply Hall.
      apply in_map. exact Hi.
  - exact Hlen.
Qed.

Corollary af_spec_ok_spec : forall c, AffectedCheck.af_spec_ok c = true -> af_spec c.
Proof. intros c H. exact (af_spec_ok_sound c H). Qed.

(** in addition: with pairwise distinct savings the reported columns ARE the model's *)
Theorem af_case_ok_sound : forall c : AffectedCheck.af_case,
  AffectedCheck.af_case_ok c = true ->
  af_spec c
  /\ (NoDup (AffectedCheck.af_sav c) ->
      AffectedCheck.af_cols c
      = affected (AffectedCheck.af_sav c) (AffectedCheck.af_alpha c) (AffectedCheck.af_betas c)).
Proof.
  intros c H. unfold AffectedCheck.af_case_ok in H.
  apply andb_true_iff in H as [Hspec Heq].
  split; [exact (af_spec_ok_sound c Hspec)|].
  intros Hnd. apply nodupZb_iff in Hnd. rewrite Hnd in Heq.
  apply eqb_listN_true in Heq. symmetry. exact Heq.
Qed.

Theorem af_dense_ok_sound : forall n p anoms dense,
  AffectedCheck.af_dense_ok (n, p, anoms, dense) = true -> sub_s2d n p anoms = dense.
Proof. intros n p anoms dense H. cbn in H. apply eqb_mat_true. exact H. Qed.

(** * Seeded binary segmentation: the property clauses (Check/SbsCheck.v) *)

Lemma contains_true : forall s e c : nat, contains (s, e) c = true <-> (s <= c < e)%nat.
Proof.
  intros s e c. apply range_test_iff.
Qed.

(** [gaps_ok] unfolded: every changepoint is at least [m] after [prev] and [m] before [n],
    consecutive changepoints are at least [m] apart *)
Lemma gaps_ok_true : forall (m n : nat) (l : list nat) (prev : nat),
  gaps_ok m prev l n = true ->
  (prev + m <= n)%nat
  /\ (forall c, In c l -> (prev + m <= c /\ c + m <= n)%nat)
  /\ (forall i, (S i < length l)%nat -> (nthN l i + m <= nthN l (S i))%nat).
Proof.
  intros m n. induction l as [|c t IH]; intros prev H; cbn [gaps_ok] in H.
  - apply Nat.leb_le in H. split; [exact H|]. split.
    + intros c Hc. destruct Hc.
    + intros i Hi. cbn in Hi. lia.
  - apply andb_true_iff in H as [Hpc Ht]. apply Nat.leb_le in Hpc.
    destruct (IH c Ht) as [Hcn [Hin Hcons]].
    split; [lia|]. split.
    + intros c' [Hc' | Hc'].
      * subst c'. lia.
      * specialize (Hin c' Hc'). lia.
    + apply (steps_cons nat (fun a b => (a + m <= b)%nat) 0%nat c t); [|exact Hcons].
      intros Hl. specialize (Hin _ (nth_In t 0%nat Hl)). lia.
Qed.

Theorem sbs_spec_ok_sound : forall c : sbs_case,
  sbs_spec_ok c = true ->
  (* (a) candidate intervals *)
  (sc_rows c <> []
   /\ forall s e k v, In (s, e, k, v) (sc_rows c) ->
        (s < e /\ e <= sc_n c /\ 2 * sc_m c <= e - s /\ e - s <= Nat.min (sc_maxlen c) (sc_n c))%nat)
  (* (b) per-interval maximum and first argmax over the admissible splits *)
  /\ (forall s e k v, In (s, e, k, v) (sc_rows c) ->
        amoc (cs_agg (sc_score c)) (sc_m c) (s, e) = Some (k, v)
        /\ (s + sc_m c <= k /\ k + sc_m c <= e)%nat
        /\ v = cs_agg (sc_score c) s k e
        /\ (forall k', (s + sc_m c <= k' /\ k' + sc_m c <= e)%nat ->
              cs_agg (sc_score c) s k' e <= v
              /\ (cs_agg (sc_score c) s k' e = v -> (k <= k')%nat)))
  (* (c) every changepoint is the argmax of a row above the threshold whose interval contains it *)
  /\ (forall cp, In cp (sc_cpts c) ->
        exists s e v, In (s, e, cp, v) (sc_rows c) /\ sc_thr c < v /\ (s <= cp < e)%nat)
  (* (d) every row above the threshold contains a changepoint *)
  /\ (forall s e k v, In (s, e, k, v) (sc_rows c) -> sc_thr c < v ->
        exists cp, In cp (sc_cpts c) /\ (s <= cp < e)%nat)
  (* (e) segment lengths *)
  /\ ((sc_m c <= sc_n c)%nat
      /\ (forall cp, In cp (sc_cpts c) -> (sc_m c <= cp /\ cp + sc_m c <= sc_n c)%nat)
      /\ (forall i, (S i < length (sc_cpts c))%nat ->
            (nthN (sc_cpts c) i + sc_m c <= nthN (sc_cpts c) (S i))%nat)).
Proof.
  intros c H. unfold sbs_spec_ok in H.
  apply andb_true_iff in H as [H Hwf]. apply andb_true_iff in H as [H Hcomp].
  apply andb_true_iff in H as [H Hsup]. apply andb_true_iff in H as [Hiv Hrows].
  split; [|split; [|split; [|split]]].
  - unfold sbs_intervals_ok in Hiv. apply andb_true_iff in Hiv as [Hne Hall]. split.
    + intros Hnil. rewrite Hnil in Hne. discriminate.
    + rewrite forallb_forall in Hall. intros s e k v Hin.
      specialize (Hall _ Hin). cbn in Hall.
      apply andb_true_iff in Hall as [Hall H4]. apply andb_true_iff in Hall as [Hall H3].
      apply andb_true_iff in Hall as [H1 H2].
      apply Nat.ltb_lt in H1. apply Nat.leb_le in H2. apply Nat.leb_le in H3. apply Nat.leb_le in H4.
      repeat split; assumption.
  - (* the reported (argmax, score) is [amoc]'s result *)
    intros s e k v Hin. unfold sbs_rows_ok in Hrows. rewrite forallb_forall in Hrows.
    specialize (Hrows _ Hin). unfold row_iv, row_arg, row_score in Hrows. cbn [fst snd] in Hrows.
    destruct (amoc (cs_agg (sc_score c)) (sc_m c) (s, e)) as [[k0 v0]|] eqn:Ham; [|discriminate].
    apply andb_true_iff in Hrows as [Hk Hv]. apply Nat.eqb_eq in Hk. apply Z.eqb_eq in Hv.
    subst k0 v0. split; [reflexivity|]. exact (amoc_spec _ _ _ _ _ _ Ham).
  - intros cp Hcp. unfold sbs_supported_ok in Hsup. rewrite forallb_forall in Hsup.
    specialize (Hsup cp Hcp). apply existsb_exists in Hsup as [[[[s e] k] v] [Hin Hr]].
    unfold row_iv, row_arg, row_score in Hr. cbn [fst snd] in Hr.
    apply andb_true_iff in Hr as [Hr Hcont]. apply andb_true_iff in Hr as [Hk Hv].
    apply Nat.eqb_eq in Hk. apply Z.ltb_lt in Hv. apply contains_true in Hcont. subst k.
    exists s, e, v. repeat split; try assumption; lia.
  - intros s e k v Hin Hthr.
    destruct (above_thr_witness row_score _ (fun r => contains (row_iv r)) _ _ Hcomp _ Hin Hthr)
      as [cp [Hcp Hcont]].
    apply contains_true in Hcont. exists cp. split; assumption.
  - destruct (gaps_ok_true _ _ _ _ Hwf) as [H1 [H2 H3]].
    split; [lia|]. split; [|exact H3].
    intros cp Hcp. specialize (H2 cp Hcp). lia.
Qed.

(** * Seeded binary segmentation: model = implementation *)

Theorem sbs_model_eq_sound : forall c : sbs_case,
  sbs_model_eq c = true ->
  let ivs := seeded_intervals (sc_n c) (2 * sc_m c) (sc_lens c) in
  map row_iv (sc_rows c) = ivs
  /\ exists am,
       sbs (cs_agg (sc_score c)) (sc_m c) (sc_thr c) ivs = Some (sc_cpts c, am)
       /\ map fst am = map row_arg (sc_rows c)
       /\ map snd am = map row_score (sc_rows c).
Proof.
  intros c H ivs. unfold sbs_model_eq in H. fold ivs in H.
  apply andb_true_iff in H as [H Hsbs]. apply andb_true_iff in H as [Hlen Hiv].
  apply Nat.eqb_eq in Hlen.
  split.
  - symmetry. apply (forallb_combine_map SbsCheck.pair_eqb row_iv sbs_pair_eqb_true ivs (sc_rows c) Hlen Hiv).
  - destruct (sbs (cs_agg (sc_score c)) (sc_m c) (sc_thr c) ivs) as [[cpts am]|]; [|discriminate].
    apply andb_true_iff in Hsbs as [Hsbs Hsc]. apply andb_true_iff in Hsbs as [Hcp Harg].
    apply eqb_listN_true in Hcp. apply eqb_listN_true in Harg. apply eqb_listZ_true in Hsc.
    subst cpts. exists am. repeat split; assumption.
Qed.

Theorem sbs_case_ok_sound : forall c : sbs_case,
  sbs_case_ok c = true -> sbs_model_eq c = true /\ sbs_spec_ok c = true.
Proof. intros c H. unfold sbs_case_ok in H. apply andb_true_iff in H. exact H. Qed.

(** * Converters, anomaliser, adapter arithmetic (C06), object histories

    The checker of adapter histories, Check/AdaptersCheck.v, is proved sound in
    Proofs/AdaptersProofs.v. *)

Theorem cd_case_ok_sound : forall (n : nat) (cpts dense back : list nat),
  ConvertCheck.cd_case_ok (n, cpts, dense, back) = true ->
  cd_s2d n cpts = dense /\ cd_d2s dense = back /\ back = cpts.
Proof.
  intros n cpts dense back. apply andb3_sound; apply eqb_listN_true.
Qed.

(** hence the round trip through the implementation's dense labels is the identity *)
Corollary cd_case_ok_roundtrip : forall (n : nat) (cpts dense back : list nat),
  ConvertCheck.cd_case_ok (n, cpts, dense, back) = true -> cd_d2s (cd_s2d n cpts) = cpts.
Proof.
  intros n cpts dense back H. destruct (cd_case_ok_sound _ _ _ _ H) as [H1 [H2 H3]]. congruence.
Qed.

Theorem ca_case_ok_sound : forall (n : nat) (ivs : list (nat * nat)) (dense : list nat) (back : list (nat * nat)),
  ConvertCheck.ca_case_ok (n, ivs, dense, back) = true ->
  ca_s2d n ivs = dense /\ ca_d2s dense = back /\ back = ivs.
Proof.
  intros n ivs dense back.
  apply andb3_sound; [apply eqb_listN_true | apply eqb_pairs_true | apply eqb_pairs_true].
Qed.

Corollary ca_case_ok_roundtrip : forall n ivs dense back,
  ConvertCheck.ca_case_ok (n, ivs, dense, back) = true -> ca_d2s (ca_s2d n ivs) = ivs.
Proof.
  intros n ivs dense back H. destruct (ca_case_ok_sound _ _ _ _ H) as [H1 [H2 H3]]. congruence.
Qed.

Theorem sub_case_ok_sound : forall (n p : nat) (anoms : list anom3) (dense : list (list nat)) (back : list anom3),
  ConvertCheck.sub_case_ok (n, p, anoms, dense, back) = true ->
  sub_s2d n p anoms = dense
  /\ sub_d2s p dense = map (ConvertCheck.norm_cols p) back
  /\ map (ConvertCheck.norm_cols p) back = map (ConvertCheck.norm_cols p) anoms.
Proof.
  intros n p anoms dense back.
  apply andb3_sound; [apply eqb_mat_true | apply eqb_anoms_true | apply eqb_anoms_true].
Qed.

(** [norm_cols] keeps the interval and lists the member columns increasingly: same interval,
    same SET of columns below [p] *)
Lemma norm_cols_spec : forall (p : nat) (a : anom3),
  fst (ConvertCheck.norm_cols p a) = fst a
  /\ forall j, In j (snd (ConvertCheck.norm_cols p a)) <-> ((j < p)%nat /\ In j (snd a)).
Proof.
  intros p a. unfold ConvertCheck.norm_cols. cbn [fst snd]. split; [reflexivity|].
  intros j. rewrite filter_In, in_seq, ConvertProofs.memb_In. split; intros [H1 H2]; split; try assumption; lia.
Qed.

Theorem an_case_ok_sound : forall c : an_case,
  an_case_ok c = true ->
  let st := stat_eval (ac_stat c) (ac_xs c) in
  ac_impl c = anomalise st (ac_lo c) (ac_hi c) (ac_n c) (ac_cpts c)
  /\ anomalise st (ac_lo c) (ac_hi c) (ac_n c) (ac_cpts c)
     = anomalise_spec st (ac_lo c) (ac_hi c) (ac_n c) (ac_cpts c).
Proof.
  intros c H st. unfold an_case_ok in H. fold st in H.
  apply andb_true_iff in H as [H1 H2].
  apply eqb_pairs_true in H1. apply eqb_pairs_true in H2.
  split; congruence.
Qed.

Theorem ad_ok_sound : forall c : KernelCheck.ad_case,
  KernelCheck.ad_ok c = true ->
  match c with
  | KernelCheck.AdChange c_se c_sk c_ke impl => impl = c_se - (c_sk + c_ke)
  | KernelCheck.AdSaving c_fixed c_optim impl => impl = c_fixed - c_optim
  | KernelCheck.AdLocal c_se c_ab c_pool impl => impl = c_se - (c_ab + c_pool)
  end.
Proof.
  intros [se sk ke impl | f o impl | se ab pool impl] H; cbn in H; apply Z.eqb_eq in H; exact H.
Qed.

Theorem hist_ok_sound : forall (ops : list Objects.op) (outs : list Objects.out)
                               (sd ss : list (nat * bool)),
  hist_ok (ops, outs, (sd, ss)) = true ->
  snd (Objects.run Objects.empty ops) = outs
  /\ summary (fst (Objects.run Objects.empty ops)) = (sd, ss).
Proof.
  intros ops outs sd ss H. unfold hist_ok in H.
  destruct (Objects.run Objects.empty ops) as [h o]. cbn [fst snd] in *.
  apply andb_true_iff in H as [H Hs]. apply andb_true_iff in H as [Ho Hd].
  apply outs_eqb_true in Ho. apply nb_eqb_true in Hd. apply nb_eqb_true in Hs.
  split; [exact Ho|].
  rewrite (surjective_pairing (summary h)). rewrite Hd, Hs. reflexivity.
Qed.

(** * Circular binary segmentation (Check/CbsCheck.v) *)

Lemma overlaps_true : forall a z s e : nat, overlaps (a, z) (s, e) = true <-> (s < z /\ a < e)%nat.
Proof.
  intros a z s e. unfold overlaps. cbn [fst snd].
  rewrite andb_true_iff, !Nat.ltb_lt. tauto.
Qed.

(** [anoms_wf] unfolded: sorted, disjoint, each of length >= m, strictly inside the data *)
Lemma anoms_wf_true : forall (m n : nat) (l : list (nat * nat)) (lo : nat),
  anoms_wf m lo l n = true ->
  (forall a z, In (a, z) l -> (lo <= a /\ 1 <= a /\ a + m <= z /\ z + 1 <= n)%nat)
  /\ (forall i, (S i < length l)%nat -> (snd (nthP l i) <= fst (nthP l (S i)))%nat).
Proof.
  intros m n. induction l as [|[a z] t IH]; intros lo H.
  - split.
    + intros a z Hin. destruct Hin.
    + intros i Hi. cbn in Hi. lia.
  - cbn [anoms_wf] in H.
    apply andb_true_iff in H as [H Ht]. apply andb_true_iff in H as [H H4].
    apply andb_true_iff in H as [H H3]. apply andb_true_iff in H as [H1 H2].
    apply Nat.leb_le in H1. apply Nat.leb_le in H2. apply Nat.leb_le in H3. apply Nat.leb_le in H4.
    destruct (IH z Ht) as [Hin Hcons]. split.
    + intros a' z' [Heq | Hin'].
      * inversion Heq; subst. lia.
      * specialize (Hin a' z' Hin'). lia.
    + apply (steps_cons _ (fun p q : nat * nat => (snd p <= fst q)%nat) (0, 0)%nat (a, z) t);
        [|exact Hcons].
      intros Hl. pose proof (nth_In t (0, 0)%nat Hl) as Hin0.
      destruct (nth 0 t (0, 0)%nat) as [a1 z1]. specialize (Hin a1 z1 Hin0). cbn [fst snd]. lia.
Qed.

Theorem cbs_spec_ok_sound : forall c : cbs_case,
  cbs_spec_ok c = true ->
  (* (a) per-interval maximum over the inner candidates, attained by the reported inner interval *)
  (forall s e a z v, In ((s, e), (a, z), v) (bc_rows c) ->
     (anomaly_intervals s e (bc_m c) = [] /\ v = 0)
     \/ (In (a, z) (anomaly_intervals s e (bc_m c))
         /\ (s < a /\ a + bc_m c <= z /\ z < e /\ bc_m c <= (e - z) + (a - s))%nat
         /\ v = ls_agg (bc_score c) s a z e
         /\ forall a' z', In (a', z') (anomaly_intervals s e (bc_m c)) ->
              ls_agg (bc_score c) s a' z' e <= v))
  (* (b) anomalies: start >= 1, length >= m, end <= n - 1; listed in order, pairwise disjoint *)
  /\ ((forall a z, In (a, z) (bc_anoms c) -> (1 <= a /\ a + bc_m c <= z /\ z + 1 <= bc_n c)%nat)
      /\ (forall i, (S i < length (bc_anoms c))%nat ->
            (snd (nthP (bc_anoms c) i) <= fst (nthP (bc_anoms c) (S i)))%nat))
  (* (c) every anomaly is the inner interval of a row above the threshold *)
  /\ (forall a z, In (a, z) (bc_anoms c) ->
        exists s e v, In ((s, e), (a, z), v) (bc_rows c) /\ bc_thr c < v)
  (* (d) every row above the threshold overlaps a reported anomaly *)
  /\ (forall s e ab v, In ((s, e), ab, v) (bc_rows c) -> bc_thr c < v ->
        exists a z, In (a, z) (bc_anoms c) /\ (s < z /\ a < e)%nat).
Proof.
  intros c H. unfold cbs_spec_ok in H.
  apply andb_true_iff in H as [H Hcomp]. apply andb_true_iff in H as [H Hsup].
  apply andb_true_iff in H as [Hrows Hwf].
  split; [|split; [|split]].
  - (* the reported (inner interval, score) is [best_inner]'s result *)
    intros s e a z v Hin. unfold cbs_rows_ok in Hrows. rewrite forallb_forall in Hrows.
    specialize (Hrows _ Hin). unfold brow_iv, brow_inner, brow_score in Hrows. cbn [fst snd] in Hrows.
    destruct (best_inner (ls_agg (bc_score c)) (bc_m c) (s, e)) as [[[a0 z0] v0]|] eqn:Hbi.
    + right.
      apply andb_true_iff in Hrows as [H Hatt]. apply andb_true_iff in H as [Hv Hcand].
      apply Z.eqb_eq in Hv. apply Z.eqb_eq in Hatt. subst v0.
      apply existsb_exists in Hcand as [ab [Hab Heq]]. apply cbs_pair_eqb_true in Heq. subst ab.
      destruct (best_inner_spec _ _ _ _ _ _ _ Hbi) as [_ [_ Hmax]].
      split; [exact Hab|]. split; [apply anomaly_intervals_spec; exact Hab|].
      split; [symmetry; exact Hatt | exact Hmax].
    + left. apply best_inner_none in Hbi. apply Z.eqb_eq in Hrows. split; assumption.
  - destruct (anoms_wf_true _ _ _ _ Hwf) as [Hin Hcons]. split; [|exact Hcons].
    intros a z Haz. specialize (Hin a z Haz). lia.
  - intros a z Hin. unfold cbs_supported_ok in Hsup. rewrite forallb_forall in Hsup.
    specialize (Hsup _ Hin). apply existsb_exists in Hsup as [[[[s e] ab] v] [Hr Hb]].
    unfold brow_inner, brow_score in Hb. cbn [fst snd] in Hb.
    apply andb_true_iff in Hb as [Heq Hv]. apply cbs_pair_eqb_true in Heq. apply Z.ltb_lt in Hv.
    subst ab. exists s, e, v. split; assumption.
  - intros s e ab v Hin Hthr.
    destruct (above_thr_witness brow_score _ (fun r ab' => overlaps ab' (brow_iv r)) _ _ Hcomp
                _ Hin Hthr) as [[a z] [Haz Hov]].
    apply overlaps_true in Hov. exists a, z. split; assumption.
Qed.

Theorem cbs_model_eq_sound : forall c : cbs_case,
  cbs_model_eq c = true ->
  let ivs := seeded_intervals (bc_n c) (2 * bc_m c) (bc_lens c) in
  map brow_iv (bc_rows c) = ivs
  /\ exists am,
       cbs (ls_agg (bc_score c)) (bc_m c) (bc_thr c) ivs = Some (bc_anoms c, am)
       /\ map fst am = map brow_inner (bc_rows c)
       /\ map snd am = map brow_score (bc_rows c).
Proof.
  intros c H ivs. unfold cbs_model_eq in H. fold ivs in H.
  apply andb_true_iff in H as [Hiv Hcbs]. apply cbs_eqb_pairs_true in Hiv.
  split; [symmetry; exact Hiv|].
  destruct (cbs (ls_agg (bc_score c)) (bc_m c) (bc_thr c) ivs) as [[anoms am]|]; [|discriminate].
  apply andb_true_iff in Hcbs as [Hcbs Hsc]. apply andb_true_iff in Hcbs as [Han Hinner].
  apply cbs_eqb_pairs_true in Han. apply cbs_eqb_pairs_true in Hinner. apply eqb_listZ_true in Hsc.
  subst anoms. exists am. repeat split; assumption.
Qed.

Theorem cbs_case_ok_sound : forall c : cbs_case,
  cbs_case_ok c = true -> cbs_model_eq c = true /\ cbs_spec_ok c = true.
Proof. intros c H. unfold cbs_case_ok in H. apply andb_true_iff in H. exact H. Qed.

(** * Moving window (Check/MwCheck.v) *)

(** the implementation's scores are the two-sided change score on [b, n-b] and 0 elsewhere,
    i.e. exactly the model's score vector *)
Theorem mw_scores_ok_sound : forall c : mw_case,
  mw_scores_ok c = true ->
  length (mc_scores c) = mc_n c
  /\ (forall t, (t < mc_n c)%nat -> (mc_b c <= t)%nat -> (t + mc_b c <= mc_n c)%nat ->
        nthZ (mc_scores c) t = cs_agg (mc_score c) (t - mc_b c) t (t + mc_b c))
  /\ (forall t, (t < mc_b c \/ mc_n c < t + mc_b c)%nat -> nthZ (mc_scores c) t = 0)
  /\ mc_scores c = mw_scores (cs_agg (mc_score c)) (mc_b c) (mc_n c).
Proof.
  intros c H. unfold mw_scores_ok in H.
  apply andb_true_iff in H as [Hlen Hall]. apply Nat.eqb_eq in Hlen.
  rewrite forallb_forall in Hall.
  assert (Hpt : forall t, (t < mc_n c)%nat ->
            nthZ (mc_scores c) t =
            (if (mc_b c <=? t)%nat && (t + mc_b c <=? mc_n c)%nat
             then cs_agg (mc_score c) (t - mc_b c) t (t + mc_b c) else 0)).
  { intros t Ht. apply Z.eqb_eq. apply Hall. apply in_seq. lia. }
  split; [exact Hlen|]. split; [|split].
  - intros t Ht Hb Hn. rewrite (Hpt t Ht).
    replace (mc_b c <=? t)%nat with true by (symmetry; apply Nat.leb_le; lia).
    replace (t + mc_b c <=? mc_n c)%nat with true by (symmetry; apply Nat.leb_le; lia).
    reflexivity.
  - intros t Hout. destruct (Nat.lt_ge_cases t (mc_n c)) as [Ht | Ht].
    + rewrite (Hpt t Ht). destruct Hout as [Hb | Hn].
      * replace (mc_b c <=? t)%nat with false by (symmetry; apply Nat.leb_gt; lia). reflexivity.
      * replace (t + mc_b c <=? mc_n c)%nat with false by (symmetry; apply Nat.leb_gt; lia).
        rewrite andb_false_r. reflexivity.
    + unfold nthZ. apply nth_overflow. lia.
  - apply (nth_ext _ _ 0 0).
    + rewrite mw_scores_length. exact Hlen.
    + intros t Ht. rewrite Hlen in Ht.
      change (nthZ (mc_scores c) t = nthZ (mw_scores (cs_agg (mc_score c)) (mc_b c) (mc_n c)) t).
      rewrite (Hpt t Ht). symmetry. apply mw_scores_nth. exact Ht.
Qed.

Lemma incr_ok_true : forall (l : list nat) (prev : option nat),
  incr_ok prev l = true ->
  (forall p, prev = Some p -> forall x, In x l -> (p < x)%nat) /\ StronglySorted lt l.
Proof.
  induction l as [|x t IH]; intros prev H.
  - split; [intros p _ y Hy; destruct Hy | constructor].
  - cbn [incr_ok] in H. apply andb_true_iff in H as [Hp Ht].
    destruct (IH (Some x) Ht) as [Hgt Hss]. split.
    + intros p Hprev y [Hy | Hy].
      * subst prev y. apply Nat.ltb_lt in Hp. exact Hp.
      * subst prev. apply Nat.ltb_lt in Hp. specialize (Hgt x eq_refl y Hy). lia.
    + constructor; [exact Hss|]. apply Forall_forall. intros y Hy. exact (Hgt x eq_refl y Hy).
Qed.

Lemma StronglySorted_lt_nth : forall l : list nat, StronglySorted lt l ->
  forall i j, (i < j < length l)%nat -> (nthN l i < nthN l j)%nat.
Proof.
  intros l Hss i j Hij. unfold nthN.
  apply (FOP_nth lt l 0%nat (StronglySorted_FOP lt l Hss) i j Hij).
Qed.

(** changepoints strictly increasing, inside [b, n-b], each scoring above the threshold *)
Theorem mw_wf_ok_sound : forall c : mw_case,
  mw_wf_ok c = true ->
  StronglySorted lt (mc_cpts c)
  /\ (forall i j, (i < j < length (mc_cpts c))%nat -> (nthN (mc_cpts c) i < nthN (mc_cpts c) j)%nat)
  /\ (forall cp, In cp (mc_cpts c) ->
        (mc_b c <= cp /\ cp + mc_b c <= mc_n c)%nat /\ mc_thr c < nthZ (mc_scores c) cp).
Proof.
  intros c H. unfold mw_wf_ok in H. apply andb_true_iff in H as [Hincr Hall].
  destruct (incr_ok_true _ _ Hincr) as [_ Hss].
  split; [exact Hss|]. split; [exact (StronglySorted_lt_nth _ Hss)|].
  rewrite forallb_forall in Hall. intros cp Hcp. specialize (Hall cp Hcp).
  apply andb_true_iff in Hall as [Hall Hthr]. apply andb_true_iff in Hall as [Hb Hn].
  apply Nat.leb_le in Hb. apply Nat.leb_le in Hn. apply Z.ltb_lt in Hthr.
  repeat split; assumption.
Qed.

Theorem mw_model_eq_sound : forall c : mw_case,
  mw_model_eq c = true ->
  mw (cs_agg (mc_score c)) (mc_b c) (mc_n c) (mc_thr c) (mc_mdi c) = (mc_scores c, mc_cpts c).
Proof.
  intros c H. unfold mw_model_eq in H.
  destruct (mw _ _ _ _ _) as [sc cp].
  apply andb_true_iff in H as [Hsc Hcp].
  apply eqb_listZ_true in Hsc. apply eqb_listN_true in Hcp. subst. reflexivity.
Qed.

(** hence the implementation's changepoints are exactly the first maximisers of the
    sufficiently long maximal runs of its scores above the threshold *)
Corollary mw_model_eq_cpts : forall c : mw_case,
  mw_model_eq c = true ->
  mc_scores c = mw_scores (cs_agg (mc_score c)) (mc_b c) (mc_n c)
  /\ mc_cpts c = mw_cpts (mc_scores c) (mc_thr c) (mc_mdi c)
  /\ forall cp, In cp (mc_cpts c) <->
       exists a z, In (a, z) (where_runs (map (fun v => mc_thr c <? v) (mc_scores c)))
         /\ (mc_mdi c <= z - a)%nat /\ (a <= cp < z)%nat
         /\ (forall i, (a <= i < z)%nat -> nthZ (mc_scores c) i <= nthZ (mc_scores c) cp)
         /\ (forall i, (a <= i < cp)%nat -> nthZ (mc_scores c) i < nthZ (mc_scores c) cp).
Proof.
  intros c H. apply mw_model_eq_sound in H. unfold mw in H.
  pose proof (f_equal fst H) as Hsc. pose proof (f_equal snd H) as Hcp.
  cbn [fst snd] in Hsc, Hcp. clear H. rewrite Hsc in Hcp.
  split; [symmetry; exact Hsc|]. split; [symmetry; exact Hcp|].
  intros cp. rewrite <- Hcp. apply mw_cpts_spec.
Qed.

Theorem mw_case_ok_sound : forall c : mw_case,
  mw_case_ok c = true ->
  mw (cs_agg (mc_score c)) (mc_b c) (mc_n c) (mc_thr c) (mc_mdi c) = (mc_scores c, mc_cpts c)
  /\ length (mc_scores c) = mc_n c
  /\ (forall t, (t < mc_n c)%nat -> (mc_b c <= t)%nat -> (t + mc_b c <= mc_n c)%nat ->
        nthZ (mc_scores c) t = cs_agg (mc_score c) (t - mc_b c) t (t + mc_b c))
  /\ (forall t, (t < mc_b c \/ mc_n c < t + mc_b c)%nat -> nthZ (mc_scores c) t = 0)
  /\ StronglySorted lt (mc_cpts c)
  /\ (forall cp, In cp (mc_cpts c) ->
        (mc_b c <= cp /\ cp + mc_b c <= mc_n c)%nat /\ mc_thr c < nthZ (mc_scores c) cp).
Proof.
  intros c H. unfold mw_case_ok in H.
  apply andb_true_iff in H as [H Hwf]. apply andb_true_iff in H as [Heq Hsc].
  destruct (mw_scores_ok_sound c Hsc) as [H1 [H2 [H3 _]]].
  destruct (mw_wf_ok_sound c Hwf) as [H4 [_ H5]].
  split; [exact (mw_model_eq_sound c Heq)|].
  repeat split; try assumption; try (apply H5; assumption).
Qed.

Theorem mw_reversal_ok_sound : forall (n : nat) (sc screv : list Z),
  mw_reversal_ok (n, sc, screv) = true ->
  forall t, (1 <= t < n)%nat -> nthZ screv t = nthZ sc (n - t).
Proof.
  intros n sc screv H t Ht. unfold mw_reversal_ok in H. rewrite forallb_forall in H.
  apply Z.eqb_eq. apply H. apply in_seq. lia.
Qed.

(** * Q kernels; PELT and CAPA model equality *)

(** Q twin of a kernel: the implementation's bracket contains the twin's value, and the twin
    equals the direct definition on the slice (Check/KernelCheck.v) *)
Theorem kq_ok_sound : forall c : KernelCheck.kq_case,
  KernelCheck.kq_ok c = true ->
  QArith_base.Qle (KernelCheck.kq_lo c) (KernelCheck.kq_value c)
  /\ QArith_base.Qle (KernelCheck.kq_value c) (KernelCheck.kq_hi c)
  /\ QArith_base.Qeq (KernelCheck.kq_value c) (KernelCheck.kq_direct c).
Proof.
  intros c. apply andb3_sound;
    [apply QArith_base.Qle_bool_iff | apply QArith_base.Qle_bool_iff | apply QArith_base.Qeq_bool_iff].
Qed.

Theorem pelt_model_eq_sound : forall c : PeltCheck.pelt_case,
  PeltCheck.pelt_model_eq c = true ->
  Pelt.pelt (tab2 (PeltCheck.pc_tab c)) (PeltCheck.pc_pen c) (PeltCheck.pc_m c)
            (PeltCheck.pc_m c - 1) (PeltCheck.pc_n c)
  = (PeltCheck.pc_scores c, PeltCheck.pc_cpts c).
Proof.
  intros c H. unfold PeltCheck.pelt_model_eq in H.
  destruct (Pelt.pelt _ _ _ _ _) as [sc cp].
  apply andb_true_iff in H as [Hsc Hcp].
  apply eqb_listZ_true in Hsc. apply eqb_listN_true in Hcp. subst. reflexivity.
Qed.

Theorem capa_model_eq_sound : forall c : CapaCheck.capa_case,
  CapaCheck.capa_model_eq c = true ->
  exists cl pt,
    capa (CapaCheck.cc_Sc c) (CapaCheck.cc_Sp c) (CapaCheck.cc_ac c) (CapaCheck.cc_bc c)
         (CapaCheck.cc_ap c) (CapaCheck.cc_bp c) (CapaCheck.cc_m c) (CapaCheck.cc_M c)
         (CapaCheck.cc_m c - 1) (CapaCheck.cc_n c)
    = (CapaCheck.cc_scores c, cl, pt)
    /\ capa_predict false cl pt = CapaCheck.cc_anoms c
    /\ capa_predict true cl pt = CapaCheck.cc_anoms_ign c.
Proof.
  intros c H. unfold CapaCheck.capa_model_eq in H.
  destruct (capa _ _ _ _ _ _ _ _ _ _) as [[sc cl] pt].
  apply andb_true_iff in H as [H Hign]. apply andb_true_iff in H as [Hsc Han].
  apply eqb_listZ_true in Hsc. apply capa_eqb_pairs_true in Han. apply capa_eqb_pairs_true in Hign.
  subst sc. exists cl, pt. repeat split; assumption.
Qed.

(** * Assumptions *)
Print Assumptions eqb_listN_true.
Print Assumptions eqb_listZ_true.
Print Assumptions eqb_pairs_true.
Print Assumptions cbs_eqb_pairs_true.
Print Assumptions capa_eqb_pairs_true.
Print Assumptions eqb_mat_true.
Print Assumptions eqb_anoms_true.
Print Assumptions nodupb_true.
Print Assumptions nodupZb_true.
Print Assumptions noninc_true.
Print Assumptions noninc_sorted.
Print Assumptions incl_ok_true.
Print Assumptions incl_pairs_ok_true.
Print Assumptions dterm_eqb_true.
Print Assumptions out_eqb_true.
Print Assumptions outs_eqb_true.
Print Assumptions sbs_spec_ok_sound.
Print Assumptions sbs_model_eq_sound.
Print Assumptions sbs_case_ok_sound.
Print Assumptions cbs_spec_ok_sound.
Print Assumptions cbs_model_eq_sound.
Print Assumptions cbs_case_ok_sound.
Print Assumptions mw_scores_ok_sound.
Print Assumptions mw_wf_ok_sound.
Print Assumptions mw_model_eq_sound.
Print Assumptions mw_model_eq_cpts.
Print Assumptions mw_case_ok_sound.
Print Assumptions mw_reversal_ok_sound.
Print Assumptions af_spec_ok_sound.
Print Assumptions af_case_ok_sound.
Print Assumptions af_dense_ok_sound.
Print Assumptions cd_case_ok_sound.
Print Assumptions ca_case_ok_sound.
Print Assumptions sub_case_ok_sound.
Print Assumptions an_case_ok_sound.
Print Assumptions ad_ok_sound.
Print Assumptions hist_ok_sound.
Print Assumptions kq_ok_sound.
Print Assumptions pelt_model_eq_sound.
Print Assumptions capa_model_eq_sound.
