(** The generic PELT loop (Model/Generic.v) at the instance of the real numbers IS Model/PeltR.v: the
    end-to-end optimality theorems for the built-in costs (Proofs/PeltReal.v) are theorems about the same
    definition that is executed on binary64 tables (Model/GenericF.v) and on integer tables (Proofs/GenericZ.v).
    More generally the loop of Proofs/PeltLoop.v at this instance is the inexact model Model/PeltA.v, of
    which Model/PeltR.v is the exact case. *)
From Coq Require Import Reals Lra List.
From SK Require Import Model.PeltR Model.PeltA Model.Generic Proofs.PeltLoop.
Import ListNotations.
Open Scope R_scope.

Definition Rn : num :=
  {| T := R; zero := 0; add := Rplus; neg := Ropp; ltb := Rltb; leb := Rleb |}.


Lemma Rltb_true x y : Rltb x y = true <-> x < y.
Proof. unfold Rltb. destruct (Rlt_dec x y) as [H|H]; split; intros H'; [exact H|reflexivity|discriminate|contradiction]. Qed.
Lemma Rltb_false x y : Rltb x y = false <-> y <= x.
Proof. unfold Rltb. destruct (Rlt_dec x y) as [H|H]; split; intros H'; [discriminate|lra|lra|reflexivity]. Qed.
Lemma Rleb_true x y : Rleb x y = true <-> x <= y.
Proof. unfold Rleb. destruct (Rle_dec x y) as [H|H]; split; intros H'; [exact H|reflexivity|discriminate|contradiction]. Qed.
Lemma Rleb_false x y : Rleb x y = false <-> y < x.
Proof. unfold Rleb. destruct (Rle_dec x y) as [H|H]; split; intros H'; [discriminate|lra|lra|reflexivity]. Qed.

Lemma Rltb_irrefl x : Rltb x x = false.
Proof. apply Rltb_false. lra. Qed.
Lemma Rltb_trans x y z : Rltb x y = true -> Rltb y z = true -> Rltb x z = true.
Proof. rewrite !Rltb_true. lra. Qed.

Lemma gargmin_Rn_le l i b : gargmin Rn l = Some (i, b) -> forall y, In y l -> b <= y.
Proof.
  intros H y Hy. apply Rltb_false. exact (gargmin_min Rn Rltb_irrefl Rltb_trans l i b H y Hy).
Qed.

Lemma gargmin_from_R l : forall bi b i, gargmin_from Rn bi b i l = argminR_from bi b i l.
Proof.
  induction l as [|x t IH]; intros bi b i; cbn [gargmin_from argminR_from]; [reflexivity|].
  cbn [T ltb Rn]. destruct (Rltb x b); apply IH.
Qed.

Lemma gargmin_R l : gargmin Rn l = argminR l.
Proof. destruct l as [|x t]; cbn [gargmin argminR]; [reflexivity|]. rewrite gargmin_from_R. reflexivity. Qed.

Definition st_relR (g : gst Rn) (s : stR) : Prop :=
  gopt Rn g = optR s /\ gprev Rn g = prevR s /\ gstarts Rn g = startsR s /\ gpending Rn g = pendingR s.

Lemma kstep_A V W m d g s t : st_relR g s -> st_relR (kstep Rn V W m d g t) (stepA V W m d s t).
Proof.
  intros (Ho & Hp & Hs & Hq). unfold kstep, stepA, kdrop, kcands, kcandv, kstarts1, pop.
  rewrite Ho, Hp, Hs, Hq. unfold nthV. cbn [T ltb leb zero Rn].
  rewrite gargmin_R. unfold nthR.
  destruct (argminR _) as [[i b]|].
  - destruct (Nat.ltb d _); unfold st_relR; cbn; repeat split; reflexivity.
  - repeat split; assumption.
Qed.

Lemma krun_A V W I0 pen m d n : st_relR (krun Rn V W m d (- pen) I0 n) (runA V W I0 pen m d n).
Proof.
  unfold krun, runA.
  generalize (seq (2 * m - 1) (n - (2 * m - 1))) as ts.
  assert (Hinit : st_relR (kinit Rn m (- pen) I0) (initA I0 pen m)) by (repeat split).
  revert Hinit. generalize (kinit Rn m (- pen) I0) as g, (initA I0 pen m) as s.
  intros g s Hrel ts. revert g s Hrel.
  induction ts as [|t ts IH]; intros g s Hrel; cbn [fold_left]; [exact Hrel|].
  apply IH. apply kstep_A. exact Hrel.
Qed.

Theorem kpelt_A V W I0 pen m d n : kpelt Rn V W m d (- pen) I0 n = peltA V W I0 pen m d n.
Proof.
  unfold kpelt, peltA. destruct (krun_A V W I0 pen m d n) as (Ho & Hp & _ & _).
  rewrite Ho, Hp. reflexivity.
Qed.

Theorem gpelt_R C pen m d n : gpelt Rn C pen m d n = peltR C pen m d n.
Proof.
  rewrite gpelt_kpelt.
  exact (kpelt_A (fun a T g => g + C a T + pen) (fun _ b => b + pen) (C 0%nat) pen m d n).
Qed.

Print Assumptions gpelt_R.
