(** Default penalties / thresholds: documented closed forms, proportionality to the
    scale, non-negativity, and the combined (pointwise-minimum) MVCAPA penalty.

    Gen/KernelsR.v is regenerated on every run, so the proofs of the documented formulas unfold
    the generated definition, normalise INR of products/sums, bring the arguments of
    sqrt / ln to those of the documented formula ([align], Proofs/RealLib.v) and close
    with ring / field -- never by reflexivity on the syntactic shape.  Everything after them
    rewrites with those formulas and does not unfold a generated definition again. *)
From Coq Require Import Reals Psatz.
From SK Require Import Gen.KernelsR Model.Penalty Proofs.RealLib.
Open Scope R_scope.

(** * Small real-analysis helpers *)

Lemma INR_2 : INR 2 = 2.
Proof. simpl; lra. Qed.

Ltac inr_norm := repeat (rewrite ?mult_INR, ?plus_INR, ?INR_2); try (simpl INR).

Lemma ln_ge1_nonneg (x : R) : 1 <= x -> 0 <= ln x.
Proof.
  intros H1.
  destruct (Rle_lt_or_eq_dec _ _ H1) as [Hlt | Heq].
  - left. rewrite <- ln_1. apply ln_increasing; lra.
  - rewrite <- Heq, ln_1. lra.
Qed.

Lemma INR_ge1 (n : nat) : (1 <= n)%nat -> 1 <= INR n.
Proof. intros Hn. replace 1 with (INR 1) by reflexivity. apply le_INR; exact Hn. Qed.

Lemma ln_INR_nonneg (n : nat) : (1 <= n)%nat -> 0 <= ln (INR n).
Proof. intros Hn. apply ln_ge1_nonneg, INR_ge1, Hn. Qed.

(** * Documented formulas *)

Theorem pelt_penalty_formula (n p : nat) :
  pelt_default_penalty_R n p = 2 * INR p * ln (INR n).
Proof. unfold pelt_default_penalty_R. inr_norm. align ltac:(ring). ring. Qed.

Theorem sbs_threshold_formula (n p : nat) :
  sbs_default_threshold_R n p = 2 * INR p * sqrt (ln (INR n)).
Proof. unfold sbs_default_threshold_R. inr_norm. align ltac:(ring). ring. Qed.

Theorem cbs_threshold_formula (n p maxlen : nat) :
  cbs_default_threshold_R n p maxlen = 2 * INR p * ln (INR n * INR maxlen).
Proof. unfold cbs_default_threshold_R. inr_norm. align ltac:(ring). ring. Qed.

Theorem capa_penalty_formula (n k : nat) (scale : R) :
  capa_penalty_R n k scale = scale * (INR k + 2 * sqrt (INR k * ln (INR n)) + 2 * ln (INR n)).
Proof. unfold capa_penalty_R. inr_norm. align ltac:(ring). ring. Qed.

Theorem dense_formula (n p npv : nat) (scale : R) :
  dense_mvcapa_penalty_alpha_R n p npv scale = capa_penalty_R n (p * npv) scale /\
  dense_mvcapa_penalty_beta_R n p npv scale = 0.
Proof.
  split.
  - unfold dense_mvcapa_penalty_alpha_R, capa_penalty_R. ring.
  - unfold dense_mvcapa_penalty_beta_R. ring.
Qed.

Theorem sparse_formula (n p npv : nat) (scale : R) :
  sparse_mvcapa_penalty_alpha_R n p npv scale = scale * (2 * ln (INR n)) /\
  sparse_mvcapa_penalty_beta_R n p npv scale = scale * (2 * ln (INR npv * INR p)).
Proof.
  split.
  - unfold sparse_mvcapa_penalty_alpha_R. ring.
  - unfold sparse_mvcapa_penalty_beta_R. inr_norm. ring.
Qed.

(** * Proportionality to the scale, non-negativity *)

Theorem capa_penalty_scale (n k : nat) (scale : R) :
  capa_penalty_R n k scale = scale * capa_penalty_R n k 1.
Proof. rewrite !capa_penalty_formula. ring. Qed.

Theorem dense_scale (n p npv : nat) (scale : R) :
  dense_mvcapa_penalty_alpha_R n p npv scale = scale * dense_mvcapa_penalty_alpha_R n p npv 1 /\
  dense_mvcapa_penalty_beta_R n p npv scale = scale * dense_mvcapa_penalty_beta_R n p npv 1.
Proof.
  destruct (dense_formula n p npv scale) as [Ha Hb].
  destruct (dense_formula n p npv 1) as [Ha1 Hb1].
  split.
  - rewrite Ha, Ha1. apply capa_penalty_scale.
  - rewrite Hb, Hb1. ring.
Qed.

Theorem sparse_scale (n p npv : nat) (scale : R) :
  sparse_mvcapa_penalty_alpha_R n p npv scale = scale * sparse_mvcapa_penalty_alpha_R n p npv 1 /\
  sparse_mvcapa_penalty_beta_R n p npv scale = scale * sparse_mvcapa_penalty_beta_R n p npv 1.
Proof.
  destruct (sparse_formula n p npv scale) as [Ha Hb].
  destruct (sparse_formula n p npv 1) as [Ha1 Hb1].
  split.
  - rewrite Ha, Ha1. ring.
  - rewrite Hb, Hb1. ring.
Qed.

Theorem capa_penalty_nonneg (n k : nat) (scale : R) :
  (1 <= n)%nat -> 0 <= scale -> 0 <= capa_penalty_R n k scale.
Proof.
  intros Hn Hs. rewrite capa_penalty_formula.
  assert (Hk : 0 <= INR k) by apply pos_INR.
  assert (Hl : 0 <= ln (INR n)) by (apply ln_INR_nonneg; exact Hn).
  assert (Hq : 0 <= sqrt (INR k * ln (INR n))) by apply sqrt_pos.
  apply Rmult_le_pos; [exact Hs | lra].
Qed.

Theorem dense_alpha_nonneg (n p npv : nat) (scale : R) :
  (1 <= n)%nat -> 0 <= scale -> 0 <= dense_mvcapa_penalty_alpha_R n p npv scale.
Proof.
  intros Hn Hs. rewrite (proj1 (dense_formula n p npv scale)). apply capa_penalty_nonneg; assumption.
Qed.

Theorem dense_beta_nonneg (n p npv : nat) (scale : R) :
  0 <= dense_mvcapa_penalty_beta_R n p npv scale.
Proof. rewrite (proj2 (dense_formula n p npv scale)). lra. Qed.

Theorem sparse_alpha_nonneg (n p npv : nat) (scale : R) :
  (1 <= n)%nat -> 0 <= scale -> 0 <= sparse_mvcapa_penalty_alpha_R n p npv scale.
Proof.
  intros Hn Hs. rewrite (proj1 (sparse_formula n p npv scale)).
  assert (Hl : 0 <= ln (INR n)) by (apply ln_INR_nonneg; exact Hn).
  apply Rmult_le_pos; [exact Hs | lra].
Qed.

Theorem sparse_beta_nonneg (n p npv : nat) (scale : R) :
  (1 <= npv)%nat -> (1 <= p)%nat -> 0 <= scale ->
  0 <= sparse_mvcapa_penalty_beta_R n p npv scale.
Proof.
  intros Hv Hp Hs. rewrite (proj2 (sparse_formula n p npv scale)).
  assert (H1 : 1 <= INR npv) by (apply INR_ge1; exact Hv).
  assert (H2 : 1 <= INR p) by (apply INR_ge1; exact Hp).
  assert (H3 : 1 <= INR npv * INR p) by nra.
  assert (Hl : 0 <= ln (INR npv * INR p)) by (apply ln_ge1_nonneg; exact H3).
  apply Rmult_le_pos; [exact Hs | lra].
Qed.

(** * The combined (pointwise-minimum) penalty *)

Theorem combined_cumulative (d sp im : nat -> R) (k : nat) :
  cum_of (combined_beta d sp im) k = cum_min d sp im k.
Proof.
  induction k as [|k IH].
  - unfold cum_of, cum_min. ring.
  - cbn [cum_of]. rewrite IH. unfold combined_beta. ring.
Qed.

Theorem combined_is_pointwise_min (d sp im : nat -> R) (k : nat) :
  (1 <= k)%nat -> cum_of (combined_beta d sp im) k = Rmin (d k) (Rmin (sp k) (im k)).
Proof.
  intros Hk. rewrite combined_cumulative.
  destruct k as [|k']; [lia|]. unfold cum_min. ring.
Qed.

Lemma Rmin3_le (a b c : R) :
  Rmin a (Rmin b c) <= a /\ Rmin a (Rmin b c) <= b /\ Rmin a (Rmin b c) <= c.
Proof.
  pose proof (Rmin_l a (Rmin b c)). pose proof (Rmin_r a (Rmin b c)).
  pose proof (Rmin_l b c). pose proof (Rmin_r b c). repeat split; lra.
Qed.

Theorem combined_le_each (d sp im : nat -> R) (k : nat) :
  (1 <= k)%nat ->
  cum_of (combined_beta d sp im) k <= d k /\
  cum_of (combined_beta d sp im) k <= sp k /\
  cum_of (combined_beta d sp im) k <= im k.
Proof.
  intros Hk. rewrite (combined_is_pointwise_min d sp im k Hk). apply Rmin3_le.
Qed.

(** [f] is non-decreasing on the index range [1, p] *)
Definition nondecr_on (f : nat -> R) (p : nat) : Prop :=
  forall i : nat, (1 <= i)%nat -> (S i <= p)%nat -> f i <= f (S i).

Lemma Rmin3_mono (a b c a' b' c' : R) :
  a <= a' -> b <= b' -> c <= c' -> Rmin a (Rmin b c) <= Rmin a' (Rmin b' c').
Proof.
  intros Ha Hb Hc. destruct (Rmin3_le a b c) as (H1 & H2 & H3).
  apply Rmin_glb; [lra|]. apply Rmin_glb; lra.
Qed.

Theorem combined_betas_nonneg (d sp im : nat -> R) (p j : nat) :
  0 <= d 1%nat -> 0 <= sp 1%nat -> 0 <= im 1%nat ->
  nondecr_on d p -> nondecr_on sp p -> nondecr_on im p ->
  (j < p)%nat -> 0 <= combined_beta d sp im j.
Proof.
  intros Hd1 Hs1 Hi1 Hd Hs Hi Hj. unfold combined_beta.
  destruct j as [|j'].
  - unfold cum_min.
    assert (H : 0 <= Rmin (d 1%nat) (Rmin (sp 1%nat) (im 1%nat))).
    { apply Rmin_glb; [exact Hd1|]. apply Rmin_glb; assumption. }
    lra.
  - unfold cum_min.
    assert (H : Rmin (d (S j')) (Rmin (sp (S j')) (im (S j')))
                <= Rmin (d (S (S j'))) (Rmin (sp (S (S j'))) (im (S (S j'))))).
    { apply Rmin3_mono; [apply Hd | apply Hs | apply Hi]; lia. }
    lra.
Qed.

Lemma Rmin_scale (c a b : R) : 0 <= c -> Rmin (c * a) (c * b) = c * Rmin a b.
Proof.
  intros Hc. unfold Rmin.
  destruct (Rle_dec a b) as [Hab | Hab]; destruct (Rle_dec (c * a) (c * b)) as [Hcab | Hcab].
  - ring.
  - exfalso. apply Hcab. apply Rmult_le_compat_l; assumption.
  - apply Rnot_le_lt in Hab. apply Rle_antisym; [exact Hcab|].
    apply Rmult_le_compat_l; [exact Hc | lra].
  - ring.
Qed.

Theorem combined_scale (d sp im : nat -> R) (c : R) (k : nat) :
  0 <= c ->
  cum_min (fun j => c * d j) (fun j => c * sp j) (fun j => c * im j) k = c * cum_min d sp im k.
Proof.
  intros Hc. destruct k as [|k'].
  - unfold cum_min. ring.
  - unfold cum_min. rewrite !Rmin_scale by exact Hc. ring.
Qed.

(** hence the combined betas scale as well *)
Corollary combined_beta_scale (d sp im : nat -> R) (c : R) (j : nat) :
  0 <= c ->
  combined_beta (fun j => c * d j) (fun j => c * sp j) (fun j => c * im j) j
  = c * combined_beta d sp im j.
Proof.
  intros Hc. unfold combined_beta. rewrite !combined_scale by exact Hc. ring.
Qed.

(** ** the dense and sparse cumulative sequences from the generated kernels *)

Theorem dense_cum_const (n p npv : nat) (scale : R) (j : nat) :
  dense_cum n p npv scale j = capa_penalty_R n (p * npv) scale.
Proof.
  unfold dense_cum. rewrite (proj1 (dense_formula n p npv scale)), (proj2 (dense_formula n p npv scale)). ring.
Qed.

Theorem dense_cum_nondecr (n p npv : nat) (scale : R) (j : nat) :
  dense_cum n p npv scale j <= dense_cum n p npv scale (S j).
Proof. rewrite !dense_cum_const. lra. Qed.

Theorem dense_cum_nonneg (n p npv : nat) (scale : R) (j : nat) :
  (1 <= n)%nat -> 0 <= scale -> 0 <= dense_cum n p npv scale j.
Proof. intros Hn Hs. rewrite dense_cum_const. apply capa_penalty_nonneg; assumption. Qed.

Theorem sparse_cum_nondecr (n p npv : nat) (scale : R) (j : nat) :
  (1 <= npv)%nat -> (1 <= p)%nat -> 0 <= scale ->
  sparse_cum n p npv scale j <= sparse_cum n p npv scale (S j).
Proof.
  intros Hv Hp Hs. unfold sparse_cum. rewrite S_INR.
  pose proof (sparse_beta_nonneg n p npv scale Hv Hp Hs) as Hb.
  set (b := sparse_mvcapa_penalty_beta_R n p npv scale) in *.
  set (a := sparse_mvcapa_penalty_alpha_R n p npv scale).
  nra.
Qed.

Theorem sparse_cum_nonneg (n p npv : nat) (scale : R) (j : nat) :
  (1 <= n)%nat -> (1 <= npv)%nat -> (1 <= p)%nat -> 0 <= scale ->
  0 <= sparse_cum n p npv scale j.
Proof.
  intros Hn Hv Hp Hs. unfold sparse_cum.
  pose proof (sparse_alpha_nonneg n p npv scale Hn Hs) as Ha.
  pose proof (sparse_beta_nonneg n p npv scale Hv Hp Hs) as Hb.
  pose proof (pos_INR j) as Hj.
  set (b := sparse_mvcapa_penalty_beta_R n p npv scale) in *.
  set (a := sparse_mvcapa_penalty_alpha_R n p npv scale) in *.
  nra.
Qed.

(** both cumulative sequences are proportional to the scale *)
Theorem dense_cum_scale (n p npv : nat) (scale : R) (j : nat) :
  dense_cum n p npv scale j = scale * dense_cum n p npv 1 j.
Proof.
  unfold dense_cum. rewrite (proj1 (dense_scale n p npv scale)), (proj2 (dense_scale n p npv scale)). ring.
Qed.

Theorem sparse_cum_scale (n p npv : nat) (scale : R) (j : nat) :
  sparse_cum n p npv scale j = scale * sparse_cum n p npv 1 j.
Proof.
  unfold sparse_cum. rewrite (proj1 (sparse_scale n p npv scale)), (proj2 (sparse_scale n p npv scale)). ring.
Qed.

(** the combined penalty built from the generated dense/sparse kernels and ANY
    non-negative, non-decreasing intermediate oracle has non-negative betas *)
Theorem combined_betas_nonneg_inst (n p npv : nat) (scale : R) (im : nat -> R) (j : nat) :
  (1 <= n)%nat -> (1 <= npv)%nat -> (1 <= p)%nat -> 0 <= scale ->
  0 <= im 1%nat -> nondecr_on im p -> (j < p)%nat ->
  0 <= combined_beta (dense_cum n p npv scale) (sparse_cum n p npv scale) im j.
Proof.
  intros Hn Hv Hp Hs Hi1 Hi Hj.
  apply (combined_betas_nonneg _ _ _ p j).
  - apply dense_cum_nonneg; assumption.
  - apply sparse_cum_nonneg; assumption.
  - exact Hi1.
  - intros i _ _. apply dense_cum_nondecr.
  - intros i _ _. apply sparse_cum_nondecr; assumption.
  - exact Hi.
  - exact Hj.
Qed.

(** * The dense component of the combined penalty and its arguments

    combined_mvcapa_penalty obtains the dense component as
        dense_mvcapa_penalty(n, p, n_params_per_variable, scale).
    The shorter call dense_mvcapa_penalty(n, p * n_params_per_variable, scale) is read
    positionally as (n, p := p * npv, n_params_per_variable := scale, scale := 1.0): it
    agrees with the call above for scale = 1 but not in general; e.g. for scale = 4 its
    value is strictly smaller whenever n >= 2. *)

Lemma ln_INR_pos (n : nat) : (2 <= n)%nat -> 0 < ln (INR n).
Proof.
  intros Hn.
  assert (H2 : 2 <= INR n) by (rewrite <- INR_2; apply le_INR; exact Hn).
  rewrite <- ln_1. apply ln_increasing; lra.
Qed.

Theorem combined_dense_slip_agrees_at_scale1 (n p npv : nat) :
  dense_mvcapa_penalty_alpha_R n (p * npv) 1 1 = dense_mvcapa_penalty_alpha_R n p npv 1.
Proof.
  destruct (dense_formula n (p * npv) 1 1) as [Ha _].
  destruct (dense_formula n p npv 1) as [Hb _].
  rewrite Ha, Hb, !capa_penalty_formula. inr_norm. rewrite !Rmult_1_r. ring.
Qed.

Theorem combined_dense_slip_differs (n p npv : nat) :
  (2 <= n)%nat ->
  dense_mvcapa_penalty_alpha_R n (p * npv) 4 1 < dense_mvcapa_penalty_alpha_R n p npv 4.
Proof.
  intros Hn.
  destruct (dense_formula n (p * npv) 4 1) as [Ha _].
  destruct (dense_formula n p npv 4) as [Hb _].
  rewrite Ha, Hb, !capa_penalty_formula.
  pose proof (ln_INR_pos n Hn) as Hl.
  assert (H4 : INR 4 = 4) by (simpl; lra).
  rewrite (mult_INR (p * npv) 4), H4.
  set (K := INR (p * npv)).
  assert (HK : 0 <= K) by (subst K; apply pos_INR).
  set (psi := ln (INR n)) in *.
  assert (HKp : 0 <= K * psi) by (apply Rmult_le_pos; lra).
  assert (Hsq : sqrt (K * 4 * psi) = 2 * sqrt (K * psi)).
  { replace (K * 4 * psi) with ((2 * 2) * (K * psi)) by ring.
    rewrite sqrt_mult by lra. rewrite sqrt_square by lra. reflexivity. }
  rewrite Hsq.
  pose proof (sqrt_pos (K * psi)) as Hs.
  lra.
Qed.

Print Assumptions pelt_penalty_formula.
Print Assumptions sbs_threshold_formula.
Print Assumptions cbs_threshold_formula.
Print Assumptions capa_penalty_formula.
Print Assumptions dense_formula.
Print Assumptions sparse_formula.
Print Assumptions capa_penalty_scale.
Print Assumptions dense_scale.
Print Assumptions sparse_scale.
Print Assumptions capa_penalty_nonneg.
Print Assumptions dense_alpha_nonneg.
Print Assumptions sparse_alpha_nonneg.
Print Assumptions sparse_beta_nonneg.
Print Assumptions combined_cumulative.
Print Assumptions combined_is_pointwise_min.
Print Assumptions combined_le_each.
Print Assumptions combined_betas_nonneg.
Print Assumptions combined_scale.
Print Assumptions dense_cum_nondecr.
Print Assumptions sparse_cum_nondecr.
Print Assumptions combined_betas_nonneg_inst.
Print Assumptions combined_dense_slip_differs.
