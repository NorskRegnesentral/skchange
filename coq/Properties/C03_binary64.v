(** C03 for the BINARY64 run: `gcapa F64` is the generic CAPA / MVCAPA loop at Coq's primitive floats, which the float-table stream compares bit for bit with the real detectors.  On a
    run all of whose floats are finite (`capa_trace_finite`, evaluated by the harness on every float-table case) that loop IS the inexact real-valued loop of Model/CapaA.v on the
    realised values; hence the reported anomalies are valid, the final score is within n eps of their TRUE total penalised saving and that total is within 3 n eps of the optimum
    (eps = error delta of one penalised saving + one binary64 rounding u Mag). *)
From Coq Require Import Reals List PrimFloat.
From SK Require Import Model.Capa Model.CapaA Model.Generic Model.GenericF Model.GenericCapa Proofs.CapaReal Proofs.FloatError Proofs.FloatRefine Proofs.CapaFloat.
Import ListNotations.


Theorem C03_binary64_run_is_the_inexact_real_run_on_realised_values : forall (tiny : float -> bool) (Sc : nat -> nat -> list float) (Sp : nat -> list float) (ac ap : float) (bc bp : list float) (m M delay n : nat) (scoresF : list (T F64)) (c p : list (nat * nat)), (1 <= m)%nat -> capa_trace_finite tiny Sc Sp ac ap bc bp m M delay n = true -> gcapa F64 tiny Sc Sp ac bc ap bp m M delay n = (scoresF, c, p) -> capaA (Vct tiny Sc Sp ac ap bc bp m M delay n) (Vpt tiny Sc Sp ac ap bc bp m M delay n) (Wkt tiny Sc Sp ac ap bc bp m M delay n) m M delay n = (map FR scoresF, c, p).
Proof. exact @gcapa_F64_is_capaA. Qed.

Theorem C03_binary64_output_near_optimal : forall (tiny : float -> bool) (Sc : nat -> nat -> list float) (Sp : nat -> list float) (ac ap : float) (bc bp : list float) (m M delay n : nat) (pc : nat -> nat -> R) (pp : nat -> R) (K eps : R) (scoresF : list (T F64)) (c p : list (nat * nat)), (2 <= m)%nat -> (m <= M)%nat -> (m <= delay + 1)%nat -> 0 <= eps -> (forall s k e : nat, (s + m <= k)%nat -> (k + m <= e)%nat -> (e <= s + M)%nat -> pc s e <= pc s k + K + pc k e) -> capa_trace_finite tiny Sc Sp ac ap bc bp m M delay n = true -> (forall a T : nat, (a < T <= n)%nat -> Rabs (FR (nthV F64 (optF tiny Sc Sp ac ap bc bp m M delay n) a + PcF tiny Sc ac bc a T) - (FR (nthV F64 (optF tiny Sc Sp ac ap bc bp m M delay n) a) + pc a T)) <= eps) -> (forall t : nat, (t < n)%nat -> Rabs (FR (nthV F64 (optF tiny Sc Sp ac ap bc bp m M delay n) t + PpF tiny Sp ap bp t) - (FR (nthV F64 (optF tiny Sc Sp ac ap bc bp m M delay n) t) + pp t)) <= eps) -> (forall a T : nat, (a < T <= n)%nat -> Rabs (FR (nthV F64 (optF tiny Sc Sp ac ap bc bp m M delay n) a + PcF tiny Sc ac bc a T + Kf ac bc) - (FR (nthV F64 (optF tiny Sc Sp ac ap bc bp m M delay n) a + PcF tiny Sc ac bc a T) + K)) <= eps) -> gcapa F64 tiny Sc Sp ac bc ap bp m M delay n = (scoresF, c, p) -> forall l : list CapaSpec.anom, CapaSpec.Valid m M l n -> totalR pc pp l <= totalR pc pp (map CapaSpec.to_anom (capa_predict false c p)) + 3 * INR n * eps.
Proof. exact @capa_F64_near_optimal. Qed.

Theorem C03_binary64_final_score_close_to_true_total : forall (tiny : float -> bool) (Sc : nat -> nat -> list float) (Sp : nat -> list float) (ac ap : float) (bc bp : list float) (m M delay n : nat) (pc : nat -> nat -> R) (pp : nat -> R) (eps : R) (scoresF : list (T F64)) (c p : list (nat * nat)), (2 <= m)%nat -> (m <= M)%nat -> 0 <= eps -> capa_trace_finite tiny Sc Sp ac ap bc bp m M delay n = true -> (forall a T : nat, (a < T <= n)%nat -> Rabs (FR (nthV F64 (optF tiny Sc Sp ac ap bc bp m M delay n) a + PcF tiny Sc ac bc a T) - (FR (nthV F64 (optF tiny Sc Sp ac ap bc bp m M delay n) a) + pc a T)) <= eps) -> (forall t : nat, (t < n)%nat -> Rabs (FR (nthV F64 (optF tiny Sc Sp ac ap bc bp m M delay n) t + PpF tiny Sp ap bp t) - (FR (nthV F64 (optF tiny Sc Sp ac ap bc bp m M delay n) t) + pp t)) <= eps) -> gcapa F64 tiny Sc Sp ac bc ap bp m M delay n = (scoresF, c, p) -> (1 <= n)%nat -> Rabs (FR (nthV F64 scoresF (n - 1)) - totalR pc pp (map CapaSpec.to_anom (capa_predict false c p))) <= INR n * eps.
Proof. exact @capa_F64_final_close. Qed.

Theorem C03_binary64_output_near_optimal_from_saving_error_and_magnitude : forall (tiny : float -> bool) (Sc : nat -> nat -> list float) (Sp : nat -> list float) (ac ap : float) (bc bp : list float) (m M delay n : nat) (pc : nat -> nat -> R) (pp : nat -> R) (K delta Mag : R), capa_trace_finite tiny Sc Sp ac ap bc bp m M delay n = true -> (forall a T : nat, (a < T <= n)%nat -> Rabs (FR (PcF tiny Sc ac bc a T) - pc a T) <= delta) -> (forall t : nat, (t < n)%nat -> Rabs (FR (PpF tiny Sp ap bp t) - pp t) <= delta) -> Rabs (FR (Kf ac bc) - K) <= delta -> (forall a T : nat, (a < T <= n)%nat -> Rabs (FR (nthV F64 (optF tiny Sc Sp ac ap bc bp m M delay n) a) + FR (PcF tiny Sc ac bc a T)) <= Mag) -> (forall t : nat, (t < n)%nat -> Rabs (FR (nthV F64 (optF tiny Sc Sp ac ap bc bp m M delay n) t) + FR (PpF tiny Sp ap bp t)) <= Mag) -> (forall a T : nat, (a < T <= n)%nat -> Rabs (FR (nthV F64 (optF tiny Sc Sp ac ap bc bp m M delay n) a + PcF tiny Sc ac bc a T) + FR (Kf ac bc)) <= Mag) -> 0 <= Mag -> forall (scoresF : list (T F64)) (c p : list (nat * nat)), (2 <= m)%nat -> (m <= M)%nat -> (m <= delay + 1)%nat -> (forall s k e : nat, (s + m <= k)%nat -> (k + m <= e)%nat -> (e <= s + M)%nat -> pc s e <= pc s k + K + pc k e) -> gcapa F64 tiny Sc Sp ac bc ap bp m M delay n = (scoresF, c, p) -> forall l : list CapaSpec.anom, CapaSpec.Valid m M l n -> totalR pc pp l <= totalR pc pp (map CapaSpec.to_anom (capa_predict false c p)) + 3 * INR n * (delta + u53 * Mag).
Proof. exact @capa_F64_near_optimal_bounds. Qed.

Theorem C03_binary64_premise_holds_on_an_example : capa_trace_finite ex_tiny ex_Sc ex_Sp ex_ac ex_ap ex_bc ex_bp 2 4 1 6 = true.
Proof. exact @ex_trace_finite. Qed.

Theorem C03_binary64_premise_rejects_overflow : capa_trace_finite ex_tiny ex_Sc ex_Sp 1.7976931348623157e+308 ex_ap [1.7976931348623157e+308%float] ex_bp 2 4 1 6 = false.
Proof. exact @ex_trace_overflow. Qed.

Print Assumptions C03_binary64_run_is_the_inexact_real_run_on_realised_values.
Print Assumptions C03_binary64_output_near_optimal.
Print Assumptions C03_binary64_final_score_close_to_true_total.
Print Assumptions C03_binary64_output_near_optimal_from_saving_error_and_magnitude.
Print Assumptions C03_binary64_premise_holds_on_an_example.
Print Assumptions C03_binary64_premise_rejects_overflow.
