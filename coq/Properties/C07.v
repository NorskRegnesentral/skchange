(** C07 -- seeded binary segmentation reports exactly the greedy above-threshold splits.

    [sbs CS m thr ivs] is the model of run_seeded_binseg (per-interval first argmax +
    greedy_changepoint_selection) for ANY aggregated change score [CS s k e];
    [seeded_intervals n (2*m) lens] is the integer part of make_seeded_intervals, where
    [lens] (the (interval_len, step) pairs produced by the floating-point front end) is an
    oracle whose postconditions are the hypothesis [lens_ok]. *)
From Coq Require Import ZArith List Lia Permutation.
From SK Require Import Lib.Base Model.Sbs Proofs.ArgmaxLemmas Proofs.SbsProofs.
Import ListNotations.
Open Scope Z_scope.

From SK Require Import Check.Scores Check.SbsCheck Proofs.CheckerSoundness Proofs.ValidCuts.
From SK Require Import Model.Generic Proofs.GenericZ.
From SK Require Import Proofs.GenericSpec Proofs.GreedyZ.
Definition lens_ok (n minlen maxlen : nat) (lens : list (nat * nat)) : Prop :=
  lens <> [] /\ forall len step, In (len, step) lens -> (minlen <= len <= Nat.min maxlen n /\ 1 <= step)%nat.

(** candidate intervals: inside [0,n], lengths between 2m and min(max_interval_length, n), non-empty list *)
Theorem C07_intervals : forall n m maxlen lens, (1 <= 2 * m <= n)%nat -> lens_ok n (2 * m) maxlen lens ->
  seeded_intervals n (2 * m) lens <> [] /\
  forall s e, In (s, e) (seeded_intervals n (2 * m) lens) ->
    (s < e <= n)%nat /\ (2 * m <= e - s <= Nat.min maxlen n)%nat.
Proof.
  intros n m maxlen lens Hn [Hne Hl].
  assert (Hl' : forall len step, In (len, step) lens -> (2 * m <= len <= n /\ 1 <= step)%nat).
  { intros len step H. specialize (Hl len step H). lia. }
  split; [apply seeded_nonempty; auto|].
  intros s e H. destruct (seeded_in_range n (2 * m) lens Hn Hl' s e H) as [(H1 & H2 & H3) (len & step & Hin & Hle)].
  specialize (Hl len step Hin). lia.
Qed.

Section Run.
Variables (CS : nat -> nat -> nat -> Z) (m n : nat) (thr : Z) (ivs : list (nat * nat)).
Hypothesis Hthr : 0 <= thr.
Hypothesis Hm : (1 <= m)%nat.
Hypothesis Hivs : forall s e, In (s, e) ivs -> (s + 2 * m <= e <= n)%nat.
Variables (cpts : list nat) (am : list (nat * Z)).
Hypothesis Hrun : sbs CS m thr ivs = Some (cpts, am).

(** reported score and maximiser of every interval = max and first argmax over admissible splits *)
Theorem C07_interval_scores : length am = length ivs /\
  forall i, (i < length ivs)%nat ->
    let '(s, e) := nth i ivs (0, 0)%nat in let '(k, v) := nth i am (0%nat, 0) in
    (s + m <= k /\ k + m <= e)%nat /\ v = CS s k e /\
    forall k', (s + m <= k' /\ k' + m <= e)%nat -> CS s k' e <= v /\ (CS s k' e = v -> (k <= k')%nat).
Proof using Hthr Hm Hivs Hrun.
  destruct (sbs_inv _ _ _ _ _ _ Hrun) as (Ham & _). destruct (amocs_inv CS m ivs am Ham) as [Hlen Hnth].
  split; [exact Hlen|]. intros i Hi. specialize (Hnth i Hi).
  destruct (nth i ivs (0, 0)%nat) as [s e]. destruct (nth i am (0%nat, 0)) as [k v].
  exact (amoc_spec CS m s e k v Hnth).
Qed.

Lemma run_picks : exists picks, amocs CS m ivs = Some am /\
  greedy_cpts (length ivs) thr ivs (map fst am) (map snd am) = Some picks /\ Permutation cpts picks /\
  greedy_pre thr ivs (map fst am) (map snd am) (length ivs).
Proof.
  destruct (sbs_wellformed CS m thr n ivs cpts am Hthr Hm Hivs Hrun) as (_ & _ & picks & Ham & Hg & _ & Hp).
  exists picks. repeat split; auto.
  - destruct C07_interval_scores as [Hl _]. now rewrite map_length.
  - destruct C07_interval_scores as [Hl _]. now rewrite map_length.
  - intros i Hi. destruct C07_interval_scores as [Hl Hs]. specialize (Hs i Hi).
    destruct (nth i ivs (0, 0)%nat) as [s e] eqn:Ei. destruct (nth i am (0%nat, 0)) as [k v] eqn:Ea.
    destruct Hs as ((Hk1 & Hk2) & _).
    unfold nthN. change 0%nat with (fst (0%nat, 0)). rewrite map_nth, Ea. cbn [fst].
    apply contains_iff. cbn [fst snd]. lia.
Qed.

(** every changepoint is the maximiser of an interval that contains it and scores above the threshold *)
Theorem C07_changepoints_supported : forall c, In c cpts ->
  exists i, (i < length ivs)%nat /\ fst (nth i am (0%nat, 0)) = c /\ thr < snd (nth i am (0%nat, 0))
            /\ contains (nth i ivs (0, 0)%nat) c = true.
Proof.
  intros c Hc. pose proof Hrun as R. rewrite <- gsbs_Z in R.
  destruct (G07_changepoints_supported Zn allZ swo_Z I CS m n thr ivs (fun _ _ _ _ _ _ => I) I (thr_Z thr Hthr)
              Hm Hivs cpts am R c Hc) as (i & Hi & H1 & H2 & H3).
  exists i. split; [exact Hi|]. split; [exact H1|]. split; [apply Z.ltb_lt; exact H2 | exact H3].
Qed.

(** no above-threshold interval is left without a changepoint inside it *)
Theorem C07_no_interval_left : forall i, (i < length ivs)%nat -> thr < snd (nth i am (0%nat, 0)) ->
  exists c, In c cpts /\ contains (nth i ivs (0, 0)%nat) c = true.
Proof.
  intros i Hi Hs. pose proof Hrun as R. rewrite <- gsbs_Z in R.
  apply (G07_no_interval_left Zn allZ swo_Z I CS m n thr ivs (fun _ _ _ _ _ _ => I) I (thr_Z thr Hthr)
           Hm Hivs cpts am R i Hi). apply Z.ltb_lt. exact Hs.
Qed.

(** changepoints are strictly increasing, at least m apart, and leave m samples at both ends (C04) *)
Theorem C07_changepoints_wellformed :
  (forall i, (S i < length cpts)%nat -> (nthN cpts i + m <= nthN cpts (S i))%nat) /\
  (forall c, In c cpts -> (m <= c /\ c + m <= n)%nat).
Proof.
  destruct (sbs_wellformed CS m thr n ivs cpts am Hthr Hm Hivs Hrun) as (H1 & H2 & _).
  split; [intros i Hi; apply H1; exact Hi|exact H2].
Qed.

(** raising the threshold can only remove changepoints *)
Theorem C07_threshold_monotone : forall thr' cpts' am', thr <= thr' ->
  sbs CS m thr' ivs = Some (cpts', am') -> incl cpts' cpts.
Proof.
  intros thr' cpts' am' Hle Hrun'. pose proof Hrun as R. rewrite <- gsbs_Z in R, Hrun'.
  exact (G07_threshold_monotone Zn allZ swo_Z I CS m n thr ivs (fun _ _ _ _ _ _ => I) I (thr_Z thr Hthr)
           Hm Hivs cpts am R thr' cpts' am' I (proj2 (Z.ltb_ge thr' thr) Hle) Hrun').
Qed.
End Run.

(** the run is total on every admissible input (C14) and depends only on the score values (C12) *)
Theorem C07_total : forall CS m thr n ivs, 0 <= thr -> (1 <= m)%nat ->
  (forall s e, In (s, e) ivs -> (s + 2 * m <= e <= n)%nat) -> exists r, sbs CS m thr ivs = Some r.
Proof. exact sbs_total. Qed.
Theorem C07_ext : forall CS1 CS2 m thr ivs, (forall s k e, CS1 s k e = CS2 s k e) -> sbs CS1 m thr ivs = sbs CS2 m thr ivs.
Proof. exact sbs_ext. Qed.

Print Assumptions C07_intervals.
Print Assumptions C07_interval_scores.
Print Assumptions C07_changepoints_supported.
Print Assumptions C07_no_interval_left.
Print Assumptions C07_changepoints_wellformed.
Print Assumptions C07_threshold_monotone.
Print Assumptions C07_total.
Print Assumptions C07_ext.

(** what the boolean checkers that the harness evaluates on every recorded case accept, as
    propositions (Proofs/CheckerSoundness.v); the run depends on the score only at valid cuts
    (Proofs/ValidCuts.v) *)
Theorem C07_checker_sound : forall c : sbs_case, sbs_spec_ok c = true -> (sc_rows c <> [] /\ (forall (s e k : nat) (v : Z), In (s, e, k, v) (sc_rows c) -> (s < e)%nat /\ (e <= sc_n c)%nat /\ (2 * sc_m c <= e - s <= Nat.min (sc_maxlen c) (sc_n c))%nat)) /\ (forall (s e k : nat) (v : Z), In (s, e, k, v) (sc_rows c) -> amoc (cs_agg (sc_score c)) (sc_m c) (s, e) = Some (k, v) /\ ((s + sc_m c <= k)%nat /\ (k + sc_m c <= e)%nat) /\ v = cs_agg (sc_score c) s k e /\ (forall k' : nat, (s + sc_m c <= k')%nat /\ (k' + sc_m c <= e)%nat -> cs_agg (sc_score c) s k' e <= v /\ (cs_agg (sc_score c) s k' e = v -> (k <= k')%nat))) /\ (forall cp : nat, In cp (sc_cpts c) -> exists (s e : nat) (v : Z), In (s, e, cp, v) (sc_rows c) /\ sc_thr c < v /\ (s <= cp < e)%nat) /\ (forall (s e k : nat) (v : Z), In (s, e, k, v) (sc_rows c) -> sc_thr c < v -> exists cp : nat, In cp (sc_cpts c) /\ (s <= cp < e)%nat) /\ (sc_m c <= sc_n c)%nat /\ (forall cp : nat, In cp (sc_cpts c) -> (sc_m c <= cp)%nat /\ (cp + sc_m c <= sc_n c)%nat) /\ (forall i : nat, (S i < length (sc_cpts c))%nat -> (nthN (sc_cpts c) i + sc_m c <= nthN (sc_cpts c) (S i))%nat).
Proof. exact @sbs_spec_ok_sound. Qed.

Theorem C07_model_equality_checker_sound : forall c : sbs_case, sbs_model_eq c = true -> let ivs := seeded_intervals (sc_n c) (2 * sc_m c) (sc_lens c) in map row_iv (sc_rows c) = ivs /\ (exists am : list (nat * Z), sbs (cs_agg (sc_score c)) (sc_m c) (sc_thr c) ivs = Some (sc_cpts c, am) /\ map fst am = map row_arg (sc_rows c) /\ map snd am = map row_score (sc_rows c)).
Proof. exact @sbs_model_eq_sound. Qed.

Theorem C07_only_valid_cuts_matter : forall (CS1 CS2 : nat -> nat -> nat -> Z) (m : nat) (thr : Z) (ivs : list (nat * nat)), (forall s e k : nat, In (s, e) ivs -> (s + m <= k)%nat -> (k + m <= e)%nat -> CS1 s k e = CS2 s k e) -> sbs CS1 m thr ivs = sbs CS2 m thr ivs.
Proof. exact @sbs_ext_valid. Qed.

Print Assumptions C07_checker_sound.
Print Assumptions C07_model_equality_checker_sound.
Print Assumptions C07_only_valid_cuts_matter.

Theorem C07_generic_loop_at_Z_is_the_model : forall (CS : nat -> nat -> nat -> T Zn) (m : nat) (thr : T Zn) (ivs : list (nat * nat)), gsbs Zn CS m thr ivs = sbs CS m thr ivs.
Proof. exact @gsbs_Z. Qed.

Print Assumptions C07_generic_loop_at_Z_is_the_model.
