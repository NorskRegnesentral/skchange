(** C09 for binary64 scores and ANY threshold: instances of Proofs/AnyThreshold.v (Proofs/AnyThresholdF.v). Totality and well-formedness need no
    hypothesis on the numbers at all (NaN included); the specification clauses need non-NaN scores and threshold. *)
From Coq Require Import List.
From SK Require Import Model.Cbs Model.Generic Model.GenericF Model.GenericAny.
From SK Require Import Proofs.GenericOrder Proofs.GenericInstances Proofs.AnyThresholdF.
Import ListNotations.


Theorem C09_float_any_threshold_total : forall (LS : nat -> nat -> nat -> nat -> T F64) (m : nat) (thr : T F64) (ivs : list (nat * nat)), exists r : list (nat * nat) * list (nat * nat * T F64), gcbs_any F64 LS m thr ivs = Some r.
Proof. exact @F64_cbs_any_total. Qed.

Theorem C09_float_any_threshold_wellformed : forall (LS : nat -> nat -> nat -> nat -> T F64) (m : nat) (thr : T F64) (n : nat) (ivs anoms : list (nat * nat)) (am : list (nat * nat * T F64)), (1 <= m)%nat -> (forall s e : nat, In (s, e) ivs -> (e <= n)%nat) -> gcbs_any F64 LS m thr ivs = Some (anoms, am) -> (forall i : nat, (S i < length anoms)%nat -> (fst (CbsProofs.nthP anoms i) < fst (CbsProofs.nthP anoms (S i)))%nat /\ (snd (CbsProofs.nthP anoms i) <= fst (CbsProofs.nthP anoms (S i)))%nat) /\ (forall a z : nat, In (a, z) anoms -> (1 <= a)%nat /\ (a + m <= z <= n - 1)%nat) /\ (forall ab : nat * nat, In ab anoms -> exists i : nat, (i < length ivs)%nat /\ fst (nth i am (0%nat, 0%nat, zero F64)) = ab /\ In ab (anomaly_intervals (fst (CbsProofs.nthP ivs i)) (snd (CbsProofs.nthP ivs i)) m)) /\ am = map (ginner_or_zero F64 LS m) ivs.
Proof. exact @F64_cbs_any_wellformed. Qed.

Theorem C09_float_any_threshold_supported_and_complete : forall (LS : nat -> nat -> nat -> nat -> T F64) (m : nat) (thr : T F64) (ivs : list (nat * nat)), cbs_table_ok F64 nonnan LS m ivs -> nonnan thr -> (1 <= m)%nat -> forall (anoms : list (nat * nat)) (am : list (nat * nat * T F64)), gcbs_any F64 LS m thr ivs = Some (anoms, am) -> (forall ab : nat * nat, In ab anoms -> exists i : nat, (i < length ivs)%nat /\ fst (nth i am (0%nat, 0%nat, zero F64)) = ab /\ gabove F64 thr (cbs_initial F64 (nth i am (0%nat, 0%nat, zero F64))) = true) /\ (forall i : nat, (i < length ivs)%nat -> gabove F64 thr (cbs_initial F64 (nth i am (0%nat, 0%nat, zero F64))) = true -> exists ab : nat * nat, In ab anoms /\ overlaps ab (CbsProofs.nthP ivs i) = true).
Proof. exact @F64_cbs_any_supported_and_complete. Qed.

Print Assumptions C09_float_any_threshold_total.
Print Assumptions C09_float_any_threshold_wellformed.
Print Assumptions C09_float_any_threshold_supported_and_complete.
