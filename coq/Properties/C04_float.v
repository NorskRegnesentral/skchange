(** C04, for ANY number type: the structure of what PELT and CAPA / MVCAPA report cannot be broken by the score values.  The search loops are defined once over an
    arbitrary record of operations (Model/Generic.v, Model/GenericCapa.v; their Z instances are the models tied to the code, Proofs/GenericZ.v, GenericCapaZ.v);
    the well-formedness theorems below assume NOTHING about the operations, so they hold for binary64 scores, NaN and infinities included. *)
From Coq Require Import List Sorted Floats.
From SK Require Import Lib.Base Model.Capa Model.Generic Model.GenericF Model.GenericCapa Proofs.PeltSpec Proofs.CapaSpec.
From SK Require Import Proofs.GenericPeltWf Proofs.GenericCapaWf.
Import ListNotations.


Theorem C04_any_numbers_pelt_changepoints_admissible : forall (N : num) (C : nat -> nat -> T N) (pen : T N) (m delay n : nat), 1 <= m -> 2 * m <= n -> Adm m (snd (gpelt N C pen m delay n)) n.
Proof. exact @gpelt_adm. Qed.

Theorem C04_any_numbers_pelt_wellformed : forall (N : num) (C : nat -> nat -> T N) (pen : T N) (m delay n : nat), 1 <= m -> 2 * m <= n -> let cpts := snd (gpelt N C pen m delay n) in StronglySorted lt cpts /\ (forall c : nat, In c cpts -> 1 <= c <= n - 1 /\ m <= c /\ c + m <= n) /\ (forall i : nat, S i < length cpts -> nthN cpts i + m <= nthN cpts (S i)).
Proof. exact @gpelt_wellformed. Qed.

Theorem C04_any_numbers_pelt_scores_length : forall (N : num) (C : nat -> nat -> T N) (pen : T N) (m delay n : nat), 1 <= m -> 2 * m <= n -> length (fst (gpelt N C pen m delay n)) = n.
Proof. exact @gpelt_scores_length. Qed.

Theorem C04_float_pelt_wellformed : forall (C : nat -> nat -> T F64) (pen : T F64) (m delay n : nat), 1 <= m -> 2 * m <= n -> let cpts := snd (gpelt F64 C pen m delay n) in StronglySorted lt cpts /\ (forall c : nat, In c cpts -> 1 <= c <= n - 1 /\ m <= c /\ c + m <= n) /\ (forall i : nat, S i < length cpts -> nthN cpts i + m <= nthN cpts (S i)).
Proof. exact @F64_pelt_wellformed. Qed.

Theorem C04_float_pelt_wellformed_even_all_nan : forall m delay n : nat, 1 <= m -> 2 * m <= n -> Adm m (snd (gpelt F64 (fun _ _ : nat => nan) nan m delay n)) n.
Proof. exact @F64_pelt_adm_all_nan. Qed.

Theorem C04_any_numbers_capa_output_valid : forall (N : num) (tiny : T N -> bool) (Sc : nat -> nat -> list (T N)) (Sp : nat -> list (T N)) (ac : T N) (bc : list (T N)) (ap : T N) (bp : list (T N)) (m M delay n : nat) (scores : list (T N)) (c p : list (nat * nat)), 2 <= m <= M -> gcapa N tiny Sc Sp ac bc ap bp m M delay n = (scores, c, p) -> Valid m M (map to_anom (capa_predict false c p)) n /\ length scores = n.
Proof. exact @gcapa_wellformed. Qed.

Theorem C04_any_numbers_capa_ignore_points : forall (N : num) (tiny : T N -> bool) (Sc : nat -> nat -> list (T N)) (Sp : nat -> list (T N)) (ac : T N) (bc : list (T N)) (ap : T N) (bp : list (T N)) (m M delay n : nat) (scores : list (T N)) (c p : list (nat * nat)), gcapa N tiny Sc Sp ac bc ap bp m M delay n = (scores, c, p) -> capa_predict true c p = filter (fun se : nat * nat => negb (is_point se)) (capa_predict false c p).
Proof. exact @gcapa_ignore_points. Qed.

Theorem C04_any_numbers_capa_intervals_in_range : forall (N : num) (tiny : T N -> bool) (Sc : nat -> nat -> list (T N)) (Sp : nat -> list (T N)) (ac : T N) (bc : list (T N)) (ap : T N) (bp : list (T N)) (m M delay n : nat) (scores : list (T N)) (c p : list (nat * nat)), gcapa N tiny Sc Sp ac bc ap bp m M delay n = (scores, c, p) -> forall se : nat * nat, In se (capa_predict false c p) -> fst se < snd se <= n.
Proof. exact @gcapa_intervals_in_range. Qed.

Theorem C04_float_capa_output_valid : forall (Sc : nat -> nat -> list float) (Sp : nat -> list float) (ac : float) (bc : list float) (ap : float) (bp : list float) (m M delay n : nat) (scores : list float) (c p : list (nat * nat)), 2 <= m <= M -> gcapa F64 F64_tiny Sc Sp ac bc ap bp m M delay n = (scores, c, p) -> Valid m M (map to_anom (capa_predict false c p)) n /\ length scores = n.
Proof. exact @F64_capa_output_valid. Qed.

Print Assumptions C04_any_numbers_pelt_changepoints_admissible.
Print Assumptions C04_any_numbers_pelt_wellformed.
Print Assumptions C04_any_numbers_pelt_scores_length.
Print Assumptions C04_float_pelt_wellformed.
Print Assumptions C04_float_pelt_wellformed_even_all_nan.
Print Assumptions C04_any_numbers_capa_output_valid.
Print Assumptions C04_any_numbers_capa_ignore_points.
Print Assumptions C04_any_numbers_capa_intervals_in_range.
Print Assumptions C04_float_capa_output_valid.
