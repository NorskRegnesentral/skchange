(** C09, transferred: the specification theorems of the greedy search for ANY number type whose comparison is a strict weak order on the
    values read (Proofs/GenericSpec.v), and their instances for binary64
    scores without NaN (Proofs/GenericInstances.v: PrimFloat.ltb is a strict weak order on non-NaN floats, infinities included). *)
From Coq Require Import List Floats.
From SK Require Import Model.Capa Model.Cbs Model.Generic Model.GenericF.
From SK Require Import Proofs.GenericRank Proofs.GenericOrder Proofs.GenericSpec Proofs.GenericInstances.
Import ListNotations.


Theorem C09_float_F64_swo : swo F64 nonnan.
Proof. exact @F64_swo. Qed.

Theorem C09_float_F64_C09_interval_scores : forall (LS : nat -> nat -> nat -> nat -> float) (m s e a z : nat) (v : T F64), (forall a0 z0 : nat, In (a0, z0) (anomaly_intervals s e m) -> nonnan (LS s a0 z0 e)) -> gbest_inner F64 LS m (s, e) = Some (a, z, v) -> In (a, z) (anomaly_intervals s e m) /\ v = LS s a z e /\ (forall a' z' : nat, In (a', z') (anomaly_intervals s e m) -> (v <? LS s a' z' e)%float = false).
Proof. exact @F64_C09_interval_scores. Qed.

Theorem C09_float_F64_C09_wellformed : forall (LS : nat -> nat -> nat -> nat -> float) (m : nat) (thr : float) (n : nat) (ivs anoms : list (nat * nat)) (am : list (nat * nat * T F64)), F64_cbs_table_ok LS m ivs -> nonnan thr -> (thr <? 0)%float = false -> (1 <= m)%nat -> (forall s e : nat, In (s, e) ivs -> (e <= n)%nat) -> gcbs F64 LS m thr ivs = Some (anoms, am) -> (forall i : nat, (S i < length anoms)%nat -> (fst (CbsProofs.nthP anoms i) < fst (CbsProofs.nthP anoms (S i)))%nat /\ (snd (CbsProofs.nthP anoms i) <= fst (CbsProofs.nthP anoms (S i)))%nat) /\ (forall a z : nat, In (a, z) anoms -> (1 <= a)%nat /\ (a + m <= z <= n - 1)%nat) /\ am = map (ginner_or_zero F64 LS m) ivs /\ (exists picks : list (nat * nat), ggreedy_anoms F64 (length ivs) thr ivs (map fst am) (map snd am) = Some picks /\ anoms = sort_pairs picks /\ Permutation.Permutation anoms picks).
Proof. exact @F64_C09_wellformed. Qed.

Theorem C09_float_F64_C09_total : forall (LS : nat -> nat -> nat -> nat -> float) (m : nat) (thr : float) (ivs : list (nat * nat)), F64_cbs_table_ok LS m ivs -> nonnan thr -> (thr <? 0)%float = false -> exists r : list (nat * nat) * list (nat * nat * T F64), gcbs F64 LS m thr ivs = Some r.
Proof. exact @F64_C09_total. Qed.

Theorem C09_float_F64_C09_anomalies_supported_and_complete : forall (LS : nat -> nat -> nat -> nat -> float) (m : nat) (thr : float) (ivs anoms : list (nat * nat)) (am : list (nat * nat * T F64)), F64_cbs_table_ok LS m ivs -> nonnan thr -> (thr <? 0)%float = false -> gcbs F64 LS m thr ivs = Some (anoms, am) -> (forall ab : nat * nat, In ab anoms -> exists i : nat, (i < length ivs)%nat /\ fst (nth i am (0%nat, 0%nat, 0%float)) = ab /\ (thr <? snd (nth i am (0%nat, 0%nat, 0)))%float = true) /\ (forall i : nat, (i < length ivs)%nat -> (thr <? snd (nth i am (0%nat, 0%nat, 0)))%float = true -> exists ab : nat * nat, In ab anoms /\ overlaps ab (CbsProofs.nthP ivs i) = true).
Proof. exact @F64_C09_anomalies_supported_and_complete. Qed.

Theorem C09_any_order_G09_interval_scores : forall (N : num) (ok : T N -> Prop), swo N ok -> ok (zero N) -> forall (LS : nat -> nat -> nat -> nat -> T N) (m s e a z : nat) (v : T N), (forall a0 z0 : nat, In (a0, z0) (anomaly_intervals s e m) -> ok (LS s a0 z0 e)) -> gbest_inner N LS m (s, e) = Some (a, z, v) -> In (a, z) (anomaly_intervals s e m) /\ v = LS s a z e /\ (forall a' z' : nat, In (a', z') (anomaly_intervals s e m) -> ltb N v (LS s a' z' e) = false).
Proof. exact @G09_interval_scores. Qed.

Theorem C09_any_order_G09_wellformed : forall (N : num) (ok : T N -> Prop), swo N ok -> ok (zero N) -> forall (LS : nat -> nat -> nat -> nat -> T N) (m : nat) (thr : T N) (n : nat) (ivs anoms : list (nat * nat)) (am : list (nat * nat * T N)), cbs_table_ok N ok LS m ivs -> ok thr -> ltb N thr (zero N) = false -> (1 <= m)%nat -> (forall s e : nat, In (s, e) ivs -> (e <= n)%nat) -> gcbs N LS m thr ivs = Some (anoms, am) -> (forall i : nat, (S i < length anoms)%nat -> (fst (CbsProofs.nthP anoms i) < fst (CbsProofs.nthP anoms (S i)))%nat /\ (snd (CbsProofs.nthP anoms i) <= fst (CbsProofs.nthP anoms (S i)))%nat) /\ (forall a z : nat, In (a, z) anoms -> (1 <= a)%nat /\ (a + m <= z <= n - 1)%nat) /\ am = map (ginner_or_zero N LS m) ivs /\ (exists picks : list (nat * nat), ggreedy_anoms N (length ivs) thr ivs (map fst am) (map snd am) = Some picks /\ anoms = sort_pairs picks /\ Permutation.Permutation anoms picks).
Proof. exact @G09_wellformed. Qed.

Print Assumptions C09_float_F64_swo.
Print Assumptions C09_float_F64_C09_interval_scores.
Print Assumptions C09_float_F64_C09_wellformed.
Print Assumptions C09_float_F64_C09_total.
Print Assumptions C09_float_F64_C09_anomalies_supported_and_complete.
Print Assumptions C09_any_order_G09_interval_scores.
Print Assumptions C09_any_order_G09_wellformed.
