(** C06, the L2 SAVING in binary64: `l2_saving_F` executes the operation order of skchange's `l2_saving` kernel (sequential cumsum, difference, square, division by the length)
    on primitive floats; the C06 harness compares it BIT FOR BIT with `L2Saving.evaluate` (Check/FloatSavingCheck.v).  Here: the rounding model, its distance from the regenerated
    real kernel `l2_saving_R`, and the refinement of the primitive-float programme to the rounding model under the boolean premise `l2_saving_trace_ok` (evaluated by the harness on
    every case). *)
From Coq Require Import Reals List PrimFloat.
From SK Require Import Proofs.RealLib Gen.KernelsR Proofs.FloatError Proofs.FloatRefine Check.FloatSavingCheck Proofs.FloatSaving.
Import ListNotations.


Theorem C06_float_l2_saving_rounding_error : forall (xs : list R) (s e : nat), (s < e)%nat -> INR e * u53 <= 1 / 100 -> Rabs (l2_saving_float53 xs s e - l2_saving_R (prefix xs) s e) <= (42 / 10 * INR e + 5) * u53 * (sumR (map Rabs (firstn e xs)) ^ 2 / INR (e - s)).
Proof. exact @l2_saving_float53_error. Qed.

Theorem C06_float_l2_saving_program_refines_rounding_model : forall (l : list float) (s e : nat), l2_saving_trace_ok l s e = true -> FR (l2_saving_F l s e) = l2_saving_float53 (map FR l) s e.
Proof. exact @l2_saving_F_refines. Qed.

Theorem C06_float_l2_saving_within_bound_of_real_kernel : forall (l : list float) (s e : nat), l2_saving_trace_ok l s e = true -> INR e * u53 <= 1 / 100 -> Rabs (FR (l2_saving_F l s e) - l2_saving_R (prefix (map FR l)) s e) <= (42 / 10 * INR e + 5) * u53 * (sumR (map Rabs (firstn e (map FR l))) ^ 2 / INR (e - s)).
Proof. exact @l2_saving_F_vs_R. Qed.

Theorem C06_float_l2_saving_nonnegative : forall (l : list float) (s e : nat), l2_saving_trace_ok l s e = true -> 0 <= FR (l2_saving_F l s e).
Proof. exact @l2_saving_F_nonneg. Qed.

Theorem C06_float_l2_saving_premise_holds_on_an_example : l2_saving_trace_ok demo_xs 1 7 = true.
Proof. exact @demo_saving_trace_ok. Qed.

Print Assumptions C06_float_l2_saving_rounding_error.
Print Assumptions C06_float_l2_saving_program_refines_rounding_model.
Print Assumptions C06_float_l2_saving_within_bound_of_real_kernel.
Print Assumptions C06_float_l2_saving_nonnegative.
Print Assumptions C06_float_l2_saving_premise_holds_on_an_example.
