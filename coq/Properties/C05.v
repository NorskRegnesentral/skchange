(** C05 -- dense labels and sparse detections describe the same events for any index.

    The converters are modelled on integer POSITIONS only (Model/Convert.v): none of the
    model functions receives the index of X, so "whatever the type or values of X's
    index" holds of the model by construction and any index dependence of the real code
    is a correspondence failure.  Valid sparse outputs include adjacent intervals,
    length-1 intervals and events touching 0 and n. *)
From Coq Require Import List Arith Permutation.
From SK Require Import Lib.Base Model.Convert Proofs.ConvertProofs.
Import ListNotations.
Close Scope Z_scope.
Open Scope nat_scope.

From SK Require Import Check.ConvertCheck Proofs.CheckerSoundness.

(** change detectors: label = segment number; length n; exact round trip *)
Theorem C05_change_dense_label : forall n cpts i, cpts_ok n cpts -> i < n ->
  nth i (cd_s2d n cpts) 0 = length (filter (fun c => c <=? i) cpts).
Proof. exact cd_s2d_label. Qed.
Theorem C05_change_dense_length : forall n cpts, length (cd_s2d n cpts) = n.
Proof. exact cd_s2d_length. Qed.
Theorem C05_change_roundtrip : forall n cpts, cpts_ok n cpts -> cd_d2s (cd_s2d n cpts) = cpts.
Proof. exact cd_roundtrip. Qed.
Theorem C05_change_sparse_of_any_labels : forall labels i,
  In i (cd_d2s labels) <-> 1 <= i < length labels /\ nth i labels 0 <> nth (i - 1) labels 0.
Proof. exact cd_d2s_spec. Qed.

(** collective anomalies: label = number of the covering anomaly, 0 if none; exact round trip,
    including adjacent and length-1 anomalies and anomalies at 0 / n.  On arbitrary labels only
    the well-formedness of the result is restated here; that the result is exactly the maximal
    runs of one positive label is [ca_d2s_runs] and [ca_d2s_cover] in Proofs/ConvertProofs.v. *)
Theorem C05_anomaly_dense_label : forall n ivs i, ivs_ok n ivs -> i < n ->
  (forall k s e, nth_error ivs k = Some (s, e) -> s <= i < e -> nth i (ca_s2d n ivs) 0 = S k) /\
  ((forall s e, In (s, e) ivs -> ~ s <= i < e) -> nth i (ca_s2d n ivs) 0 = 0).
Proof. exact ca_s2d_label. Qed.
Theorem C05_anomaly_dense_length : forall n ivs, length (ca_s2d n ivs) = n.
Proof. exact ca_s2d_length. Qed.
Theorem C05_anomaly_roundtrip : forall n ivs, ivs_ok n ivs -> ca_d2s (ca_s2d n ivs) = ivs.
Proof. exact ca_roundtrip. Qed.
Theorem C05_anomaly_sparse_of_any_labels : forall labels, ivs_ok (length labels) (ca_d2s labels).
Proof. exact ca_d2s_spec. Qed.

(** subset anomalies: per affected column; round trip up to the order of the affected columns *)
Theorem C05_subset_dense_shape : forall n p anoms,
  length (sub_s2d n p anoms) = n /\ forall r, In r (sub_s2d n p anoms) -> length r = p.
Proof. exact sub_s2d_shape. Qed.
Theorem C05_subset_dense_label : forall n p anoms i j, anoms_ok n p anoms -> i < n -> j < p ->
  (forall k s e cols, nth_error anoms k = Some (s, e, cols) -> s <= i < e -> In j cols ->
      nth j (nth i (sub_s2d n p anoms) []) 0 = S k) /\
  ((forall s e cols, In (s, e, cols) anoms -> ~ (s <= i < e /\ In j cols)) ->
      nth j (nth i (sub_s2d n p anoms) []) 0 = 0).
Proof. exact sub_s2d_label. Qed.
Theorem C05_subset_roundtrip : forall n p anoms, anoms_ok n p anoms ->
  sub_d2s p (sub_s2d n p anoms) = map (fun a => (fst a, filter (fun j => memb j (snd a)) (seq 0 p))) anoms.
Proof. exact sub_roundtrip. Qed.
Theorem C05_subset_columns_same_set : forall p cols, NoDup cols -> Forall (fun j => j < p) cols ->
  Permutation (filter (fun j => memb j cols) (seq 0 p)) cols.
Proof. exact cols_filter_permutation. Qed.

(** a dense_to_sparse that splits runs only where positions jump, not where the label changes
    ([ca_d2s_pinned]; defect D12 of DESIGN.md), merges adjacent anomalies *)
Theorem C05_adjacent_roundtrip_refuted : exists n ivs, ivs_ok n ivs /\ ca_d2s_pinned (ca_s2d n ivs) <> ivs.
Proof. exact ca_roundtrip_adjacent_refuted. Qed.

Print Assumptions C05_change_dense_label.
Print Assumptions C05_change_dense_length.
Print Assumptions C05_change_roundtrip.
Print Assumptions C05_change_sparse_of_any_labels.
Print Assumptions C05_anomaly_dense_label.
Print Assumptions C05_anomaly_dense_length.
Print Assumptions C05_anomaly_roundtrip.
Print Assumptions C05_anomaly_sparse_of_any_labels.
Print Assumptions C05_subset_dense_shape.
Print Assumptions C05_subset_dense_label.
Print Assumptions C05_subset_roundtrip.
Print Assumptions C05_subset_columns_same_set.
Print Assumptions C05_adjacent_roundtrip_refuted.

(** the checker of Check/ConvertCheck.v: a case that passes has the model's dense labels and
    the model's round trip *)
Theorem C05_change_checker_sound : forall (n : nat) (cpts dense back : list nat), cd_case_ok (n, cpts, dense, back) = true -> cd_s2d n cpts = dense /\ cd_d2s dense = back /\ back = cpts.
Proof. exact @cd_case_ok_sound. Qed.

Theorem C05_anomaly_checker_sound : forall (n : nat) (ivs : list (nat * nat)) (dense : list nat) (back : list (nat * nat)), ca_case_ok (n, ivs, dense, back) = true -> ca_s2d n ivs = dense /\ ca_d2s dense = back /\ back = ivs.
Proof. exact @ca_case_ok_sound. Qed.

Theorem C05_subset_checker_sound : forall (n p : nat) (anoms : list anom3) (dense : list (list nat)) (back : list anom3), sub_case_ok (n, p, anoms, dense, back) = true -> sub_s2d n p anoms = dense /\ sub_d2s p dense = map (norm_cols p) back /\ map (norm_cols p) back = map (norm_cols p) anoms.
Proof. exact @sub_case_ok_sound. Qed.

Print Assumptions C05_change_checker_sound.
Print Assumptions C05_anomaly_checker_sound.
Print Assumptions C05_subset_checker_sound.
