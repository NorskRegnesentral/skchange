(** C18 -- data generators are reproducible and place segments exactly where requested.

    Model/Generate.v is parametric in the number type and in [affine mu v z] (= mu + sqrt v * z):
    every theorem below holds for ANY number type, in particular for the binary64 instance that
    Check/GenerateCheck.v compares bit-for-bit with NumPy.  The standard-normal draw for the seed
    is the input matrix [Zm]; determinism is by construction (the model is a function of its
    arguments and [Zm]).  Statements are those of Proofs/GenerateProofs.v. *)
From Coq Require Import List ZArith.
From SK Require Import Model.Generate Proofs.GenerateProofs.
Import ListNotations.


Theorem C18_changing_shape : forall (num : Type) (affine : num -> num -> num -> num) (n : nat) (neg : bool) (cpts : list nat) (means vars : list (list num)) (Zm : matrix num) (d : num) (out : matrix num), changing num affine n neg cpts means vars Zm d = Ok out -> length out = length Zm /\ (forall i : nat, length (nth i out []) = length (nth i Zm [])).
Proof. exact @changing_shape. Qed.

Theorem C18_anomalous_shape : forall (num : Type) (affine : num -> num -> num -> num) (n : nat) (bad_shape neg : bool) (anoms : list (nat * nat)) (means vars : list (list num)) (Zm : matrix num) (d : num) (out : matrix num), anomalous num affine n bad_shape neg anoms means vars Zm d = Ok out -> length out = length Zm /\ (forall i : nat, length (nth i out []) = length (nth i Zm [])).
Proof. exact @anomalous_shape. Qed.

Theorem C18_alternating_shape : forall (num : Type) (affine : num -> num -> num -> num) (nseg seglen p n_aff : nat) (mean var zero one : num) (Zm : matrix num) (d : num) (out : matrix num), alternating num affine nseg seglen p n_aff mean var zero one Zm d = Ok out -> length out = length Zm /\ (forall i : nat, length (nth i out []) = length (nth i Zm [])).
Proof. exact @alternating_shape. Qed.

Theorem C18_segments_disjoint : forall (cpts : list nat) (n : nat), nondecr 0 cpts -> disjoint_ranges (consecutive 0 cpts n).
Proof. exact @consecutive_disjoint. Qed.

Theorem C18_segments_cover : forall (cpts : list nat) (n i : nat), i < n -> exists k a b : nat, nth_error (consecutive 0 cpts n) k = Some (a, b) /\ a <= i < b.
Proof. exact @consecutive_cover. Qed.

Theorem C18_sequential_application : forall (num : Type) (affine : num -> num -> num -> num) (segs : list (seg num)) (x : list (list num)) (d : num) (i : nat), disjoint_segs num segs -> i < length x -> (forall (a b : nat) (mu va : list num), In (a, b, mu, va) segs -> a <= i < b -> nth i (apply_all num affine x segs d) [] = apply_row num affine mu va d (nth i x [])) /\ ((forall (a b : nat) (mu va : list num), In (a, b, mu, va) segs -> ~ a <= i < b) -> nth i (apply_all num affine x segs d) [] = nth i x []).
Proof. exact @apply_all_disjoint. Qed.

Theorem C18_row_is_affine : forall (num : Type) (affine : num -> num -> num -> num) (mu va : list num) (d : num) (row : list num) (j : nat) (d' d'' : num), j < length row -> nth j (apply_row num affine mu va d row) d' = affine (bc num mu d j) (bc num va d j) (nth j row d'').
Proof. exact @apply_row_nth. Qed.

Theorem C18_changing_placement : forall (num : Type) (affine : num -> num -> num -> num) (n : nat) (neg : bool) (cpts : list nat) (means vars : list (list num)) (Zm : matrix num) (d : num) (out : matrix num), changing num affine n neg cpts means vars Zm d = Ok out -> nondecr 0 cpts -> length Zm = n -> forall i k a b : nat, i < n -> nth_error (consecutive 0 cpts n) k = Some (a, b) -> a <= i < b -> nth i out [] = apply_row num affine (nth k (recycle means (S (length cpts))) []) (nth k (recycle vars (S (length cpts))) []) d (nth i Zm []).
Proof. exact @changing_placement. Qed.

Theorem C18_anomalous_placement : forall (num : Type) (affine : num -> num -> num -> num) (n : nat) (bad_shape neg : bool) (anoms : list (nat * nat)) (means vars : list (list num)) (Zm : matrix num) (d : num) (out : matrix num), anomalous num affine n bad_shape neg anoms means vars Zm d = Ok out -> disjoint_ranges anoms -> length Zm = n -> (forall i k a b : nat, nth_error anoms k = Some (a, b) -> a <= i < b -> nth i out [] = apply_row num affine (nth k (recycle means (length anoms)) []) (nth k (recycle vars (length anoms)) []) d (nth i Zm [])) /\ (forall i : nat, (forall a b : nat, In (a, b) anoms -> ~ a <= i < b) -> nth i out [] = nth i Zm []).
Proof. exact @anomalous_placement. Qed.

Theorem C18_alternating_changepoints : forall (num : Type) (affine : num -> num -> num -> num) (nseg seglen p n_aff : nat) (mean var zero one : num) (Zm : matrix num) (d : num), alternating num affine nseg seglen p n_aff mean var zero one Zm d = changing num affine (seglen * nseg) false (alt_cpts nseg seglen) (alt_means num nseg p n_aff mean zero) (alt_means num nseg p n_aff var one) Zm d /\ length (alt_cpts nseg seglen) = nseg - 1 /\ (forall k : nat, k < nseg - 1 -> nth k (alt_cpts nseg seglen) 0 = seglen * S k).
Proof. exact @alternating_cpts. Qed.

Theorem C18_alternating_placement : forall (num : Type) (affine : num -> num -> num -> num) (nseg seglen p n_aff : nat) (mean var zero one : num) (Zm : matrix num) (d : num) (out : matrix num), alternating num affine nseg seglen p n_aff mean var zero one Zm d = Ok out -> length Zm = seglen * nseg -> 0 < seglen -> n_aff <= p -> (forall i : nat, i < length Zm -> length (nth i Zm []) = p) -> forall (i j : nat) (d' : num), i < seglen * nseg -> j < p -> nth j (nth i out []) d' = (if Nat.even (i / seglen) then affine zero one (nth j (nth i Zm []) d') else if j <? n_aff then affine mean var (nth j (nth i Zm []) d') else affine zero one (nth j (nth i Zm []) d')).
Proof. exact @alternating_placement. Qed.

Theorem C18_changing_valid_iff : forall (num : Type) (affine : num -> num -> num -> num) (n : nat) (neg : bool) (cpts : list nat) (means vars : list (list num)) (Zm : matrix num) (d : num), (exists out : matrix num, changing num affine n neg cpts means vars Zm d = Ok out) <-> changing_valid num n neg cpts means vars = true.
Proof. exact @changing_ok_iff. Qed.

Theorem C18_changing_valid_spec : forall (num : Type) (n : nat) (neg : bool) (cpts : list nat) (means vars : list (list num)), changing_valid num n neg cpts means vars = true <-> length (recycle means (S (length cpts))) = S (length cpts) /\ length (recycle vars (S (length cpts))) = S (length cpts) /\ (forall c : nat, In c cpts -> c <= n - 1) /\ neg = false /\ (forall v : list num, In v (recycle means (S (length cpts))) -> length v = 1 \/ length v = length (hd [] (recycle means (S (length cpts))))) /\ (forall v : list num, In v (recycle vars (S (length cpts))) -> length v = 1 \/ length v = length (hd [] (recycle means (S (length cpts))))).
Proof. exact @changing_valid_spec. Qed.

Theorem C18_changing_err_count : forall (num : Type) (affine : num -> num -> num -> num) (n : nat) (neg : bool) (cpts : list nat) (means vars : list (list num)) (Zm : matrix num) (d : num), length (recycle means (S (length cpts))) <> S (length cpts) \/ length (recycle vars (S (length cpts))) <> S (length cpts) -> changing num affine n neg cpts means vars Zm d = Err.
Proof. exact @changing_err_count. Qed.

Theorem C18_changing_err_range : forall (num : Type) (affine : num -> num -> num -> num) (n : nat) (neg : bool) (cpts : list nat) (means vars : list (list num)) (Zm : matrix num) (d : num), (exists c : nat, In c cpts /\ n - 1 < c) -> changing num affine n neg cpts means vars Zm d = Err.
Proof. exact @changing_err_range. Qed.

Theorem C18_changing_err_negative : forall (num : Type) (affine : num -> num -> num -> num) (n : nat) (cpts : list nat) (means vars : list (list num)) (Zm : matrix num) (d : num), changing num affine n true cpts means vars Zm d = Err.
Proof. exact @changing_err_neg. Qed.

Theorem C18_anomalous_valid_iff : forall (num : Type) (affine : num -> num -> num -> num) (n : nat) (bad_shape neg : bool) (anoms : list (nat * nat)) (means vars : list (list num)) (Zm : matrix num) (d : num), (exists out : matrix num, anomalous num affine n bad_shape neg anoms means vars Zm d = Ok out) <-> anomalous_valid num n bad_shape neg anoms means vars = true.
Proof. exact @anomalous_ok_iff. Qed.

Theorem C18_anomalous_valid_spec : forall (num : Type) (n : nat) (bad_shape neg : bool) (anoms : list (nat * nat)) (means vars : list (list num)), anomalous_valid num n bad_shape neg anoms means vars = true <-> length (recycle means (length anoms)) = length anoms /\ length (recycle vars (length anoms)) = length anoms /\ bad_shape = false /\ (forall se : nat * nat, In se anoms -> fst se < snd se) /\ (forall se : nat * nat, In se anoms -> snd se <= n) /\ neg = false /\ (forall v : list num, In v (recycle means (length anoms)) -> length v = 1 \/ length v = length (hd [] (recycle means (length anoms)))) /\ (forall v : list num, In v (recycle vars (length anoms)) -> length v = 1 \/ length v = length (hd [] (recycle means (length anoms)))).
Proof. exact @anomalous_valid_spec. Qed.

Theorem C18_anomalous_err_count : forall (num : Type) (affine : num -> num -> num -> num) (n : nat) (bad_shape neg : bool) (anoms : list (nat * nat)) (means vars : list (list num)) (Zm : matrix num) (d : num), length (recycle means (length anoms)) <> length anoms \/ length (recycle vars (length anoms)) <> length anoms -> anomalous num affine n bad_shape neg anoms means vars Zm d = Err.
Proof. exact @anomalous_err_count. Qed.

Theorem C18_anomalous_err_shape : forall (num : Type) (affine : num -> num -> num -> num) (n : nat) (neg : bool) (anoms : list (nat * nat)) (means vars : list (list num)) (Zm : matrix num) (d : num), anomalous num affine n true neg anoms means vars Zm d = Err.
Proof. exact @anomalous_err_shape. Qed.

Theorem C18_anomalous_err_empty : forall (num : Type) (affine : num -> num -> num -> num) (n : nat) (bad_shape neg : bool) (anoms : list (nat * nat)) (means vars : list (list num)) (Zm : matrix num) (d : num), (exists se : nat * nat, In se anoms /\ snd se <= fst se) -> anomalous num affine n bad_shape neg anoms means vars Zm d = Err.
Proof. exact @anomalous_err_empty. Qed.

Theorem C18_anomalous_err_range : forall (num : Type) (affine : num -> num -> num -> num) (n : nat) (bad_shape neg : bool) (anoms : list (nat * nat)) (means vars : list (list num)) (Zm : matrix num) (d : num), (exists se : nat * nat, In se anoms /\ n < snd se) -> anomalous num affine n bad_shape neg anoms means vars Zm d = Err.
Proof. exact @anomalous_err_range. Qed.

Theorem C18_anomalous_err_negative : forall (num : Type) (affine : num -> num -> num -> num) (n : nat) (bad_shape : bool) (anoms : list (nat * nat)) (means vars : list (list num)) (Zm : matrix num) (d : num), anomalous num affine n bad_shape true anoms means vars Zm d = Err.
Proof. exact @anomalous_err_neg. Qed.

Theorem C18_outliers_rows : forall (num : Type) (add : num -> num -> num) (x : list (list num)) (pos : list nat) (size : num) (i : nat), i < length x -> nth i (add_outliers num add x pos size) [] = (if existsb (Nat.eqb i) pos then map (fun z : num => add z size) (nth i x []) else nth i x []).
Proof. exact @add_outliers_nth. Qed.

Theorem C18_outliers_count : forall (num : Type) (add : num -> num -> num) (x : list (list num)) (size : num) (n k : nat) (pos : list nat), positions_ok n k pos = true -> k <= n -> length x = n -> exists hit : list nat, NoDup hit /\ length hit = k /\ (forall i : nat, In i hit -> i < n /\ nth i (add_outliers num add x pos size) [] = map (fun z : num => add z size) (nth i x [])) /\ (forall i : nat, ~ In i hit -> nth i (add_outliers num add x pos size) [] = nth i x []).
Proof. exact @add_outliers_count. Qed.

Theorem C18_positions_consequences : forall (n k : nat) (pos : list nat), positions_ok n k pos = true -> length pos = k /\ (1 <= k -> hd 0 pos = 0) /\ (2 <= k -> last pos 0 = n - 1) /\ (k <= n -> NoDup pos).
Proof. exact @positions_ok_consequences. Qed.

Theorem C18_positions_count : forall (n k : nat) (pos : list nat), positions_ok n k pos = true -> k <= n -> length (filter (fun i : nat => existsb (Nat.eqb i) pos) (seq 0 n)) = k.
Proof. exact @positions_ok_count. Qed.

Theorem C18_integer_linspace_ok : forall n k : nat, positions_ok n k (linspace_int n k) = true.
Proof. exact @linspace_int_ok_all. Qed.

Theorem C18_integer_linspace_distinct : forall n k : nat, k <= n -> NoDup (linspace_int n k).
Proof. exact @linspace_int_NoDup. Qed.

Print Assumptions C18_changing_shape.
Print Assumptions C18_anomalous_shape.
Print Assumptions C18_alternating_shape.
Print Assumptions C18_segments_disjoint.
Print Assumptions C18_segments_cover.
Print Assumptions C18_sequential_application.
Print Assumptions C18_row_is_affine.
Print Assumptions C18_changing_placement.
Print Assumptions C18_anomalous_placement.
Print Assumptions C18_alternating_changepoints.
Print Assumptions C18_alternating_placement.
Print Assumptions C18_changing_valid_iff.
Print Assumptions C18_changing_valid_spec.
Print Assumptions C18_changing_err_count.
Print Assumptions C18_changing_err_range.
Print Assumptions C18_changing_err_negative.
Print Assumptions C18_anomalous_valid_iff.
Print Assumptions C18_anomalous_valid_spec.
Print Assumptions C18_anomalous_err_count.
Print Assumptions C18_anomalous_err_shape.
Print Assumptions C18_anomalous_err_empty.
Print Assumptions C18_anomalous_err_range.
Print Assumptions C18_anomalous_err_negative.
Print Assumptions C18_outliers_rows.
Print Assumptions C18_outliers_count.
Print Assumptions C18_positions_consequences.
Print Assumptions C18_positions_count.
Print Assumptions C18_integer_linspace_ok.
Print Assumptions C18_integer_linspace_distinct.
