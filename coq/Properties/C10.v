(** C10 -- results depend only on hyper-parameters, training data and the input.

    Model/Objects.v is a state machine over a heap of scorer objects and detector objects that
    mirrors the attribute mutations of the real code: detectors keep the user's scorer object and
    refit it in place at every predict / transform / transform_scores (and at fit when the
    threshold is tuned), store the scores of the last predict on themselves, remember the
    training data for update; set_params = assign + reset; clone = fresh unfitted copies.
    The OUTPUT of an observing operation is its dependency tuple.  The theorems are proved for
    ALL histories (induction over the operation list): non-interference of earlier calls and of
    other detectors sharing scorers, equality with a freshly constructed object fitted the same
    way, update = fit on the combined data, frame properties of hyper-parameters.
    Limit made explicit: [stale_sparams_possible] -- changing a nested scorer's hyper-parameter
    behind a fitted detector's back leaves the fitted attributes computed from the old value.

    Model/Adapters.v is the same kind of state machine for the score adapters (ChangeScore, Saving,
    LocalAnomalyScore) built on a cost object that the user keeps and may share between adapters
    ([C10_adapter_*]): evaluate right after fit gives the value of a fresh adapter (up to a field
    that a ChangeScore never reads, [aout_norm]); evaluate reads the LAST fit of the shared cost,
    whoever made it; set_params on the cost makes its adapters refuse until they are fitted again. *)
From Coq Require Import List.
From SK Require Import Model.Objects Proofs.ObjectsProofs.
Import ListNotations.
From SK Require Import Check.ObjectsCheck Proofs.CheckerSoundness.
From SK Require Import Model.Adapters Check.AdaptersCheck Proofs.AdaptersProofs.


Theorem C10_wellformed_heaps : forall h : heap, reachable h -> heap_ok h.
Proof. exact @reachable_heap_ok. Qed.

Theorem C10_observation_reads_only : forall (h : heap) (ob : obsop) (i x : nat) (d : detector) (fr : fitrec), nth_error (detectors h) i = Some d -> d_fit d = Some fr -> snd (step h (Observe ob i x)) = ODet ob (d_params d) (sparams_of (scorers h) (d_scorers d)) fr x.
Proof. exact @observe_reads. Qed.

Theorem C10_unfitted_detector_refuses : forall (h : heap) (ob : obsop) (i x : nat) (d : detector), nth_error (detectors h) i = Some d -> d_fit d = None -> snd (step h (Observe ob i x)) = ONotFitted /\ fst (step h (Observe ob i x)) = h.
Proof. exact @observe_unfitted. Qed.

Theorem C10_evaluate_reads_only : forall (h : heap) (r c : nat) (s : scorer), nth_error (scorers h) r = Some s -> step h (EvalS r c) = (h, match s_fit s with | Some D => OEval (s_param s) D c | None => ONotFitted end).
Proof. exact @eval_reads. Qed.

Theorem C10_fitted_means_current_params : forall (h : heap) (i : nat) (d : detector) (fr : fitrec), reachable h -> nth_error (detectors h) i = Some d -> d_fit d = Some fr -> f_params fr = d_params d /\ d_X d = Some (f_data fr).
Proof. exact @fitted_params_current. Qed.

Theorem C10_earlier_calls_do_not_interfere : forall (h : heap) (o : op) (i : nat) (ob : obsop) (x : nat), benign i o = true -> heap_ok h -> i < length (detectors h) -> snd (step (fst (step h o)) (Observe ob i x)) = snd (step h (Observe ob i x)).
Proof. exact @benign_preserves_observation. Qed.

Theorem C10_any_benign_history_does_not_interfere : forall (ops : list op) (h : heap) (i : nat) (ob : obsop) (x : nat), forallb (benign i) ops = true -> heap_ok h -> i < length (detectors h) -> snd (step (fst (run h ops)) (Observe ob i x)) = snd (step h (Observe ob i x)).
Proof. exact @benign_seq_preserves_observation. Qed.

Theorem C10_history_suffix_irrelevant : forall (pre ops : list op) (i : nat) (ob : obsop) (x : nat), forallb (benign i) ops = true -> i < length (detectors (fst (run empty pre))) -> snd (step (fst (run empty (pre ++ ops))) (Observe ob i x)) = snd (step (fst (run empty pre)) (Observe ob i x)).
Proof. exact @benign_suffix_irrelevant. Qed.

Theorem C10_evaluate_not_interfered : forall (h : heap) (o : op) (r c : nat), eval_benign h r o = true -> r < length (scorers h) -> snd (step (fst (step h o)) (EvalS r c)) = snd (step h (EvalS r c)).
Proof. exact @eval_preserved. Qed.

Theorem C10_evaluate_history : forall (ops : list op) (h : heap) (r c : nat), forallb (eval_benign_static r) ops = true -> r < length (scorers h) -> snd (step (fst (run h ops)) (EvalS r c)) = snd (step h (EvalS r c)).
Proof. exact @eval_seq_preserved. Qed.

Theorem C10_fresh_object_observation : forall (P : nat) (tn : bool) (SP : list nat) (D : dterm) (ob : obsop) (x : nat), snd (step (fst (run empty (fresh_history P tn SP D))) (Observe ob 0 x)) = ODet ob P SP {| f_params := P; f_sparams := SP; f_data := D |} x.
Proof. exact @fresh_observation. Qed.

Theorem C10_equals_fresh_object : forall (h : heap) (i : nat) (d : detector) (fr : fitrec) (ob : obsop) (x : nat), reachable h -> nth_error (detectors h) i = Some d -> d_fit d = Some fr -> f_sparams fr = sparams_of (scorers h) (d_scorers d) -> snd (step h (Observe ob i x)) = snd (step (fst (run empty (fresh_history (d_params d) (d_tunes d) (sparams_of (scorers h) (d_scorers d)) (f_data fr)))) (Observe ob 0 x)).
Proof. exact @observe_equals_fresh. Qed.

Theorem C10_equals_fresh_object_without_nested_sets : forall (ops : list op) (i : nat) (d : detector) (fr : fitrec) (ob : obsop) (x : nat), forallb (fun o : op => negb (is_sset o)) ops = true -> let h := fst (run empty ops) in nth_error (detectors h) i = Some d -> d_fit d = Some fr -> snd (step h (Observe ob i x)) = snd (step (fst (run empty (fresh_history (d_params d) (d_tunes d) (sparams_of (scorers h) (d_scorers d)) (f_data fr)))) (Observe ob 0 x)).
Proof. exact @observe_equals_fresh_no_sets. Qed.

Theorem C10_equal_configuration_equal_output : forall (h1 h2 : heap) (i1 i2 : nat) (d1 d2 : detector) (fr1 fr2 : fitrec) (ob : obsop) (x : nat), reachable h1 -> reachable h2 -> nth_error (detectors h1) i1 = Some d1 -> nth_error (detectors h2) i2 = Some d2 -> d_fit d1 = Some fr1 -> d_fit d2 = Some fr2 -> f_sparams fr1 = sparams_of (scorers h1) (d_scorers d1) -> f_sparams fr2 = sparams_of (scorers h2) (d_scorers d2) -> d_params d1 = d_params d2 -> sparams_of (scorers h1) (d_scorers d1) = sparams_of (scorers h2) (d_scorers d2) -> f_data fr1 = f_data fr2 -> snd (step h1 (Observe ob i1 x)) = snd (step h2 (Observe ob i2 x)).
Proof. exact @observations_agree. Qed.

Theorem C10_stale_nested_parameter_possible : exists (ops : list op) (i : nat) (d : detector) (fr : fitrec), nth_error (detectors (fst (run empty ops))) i = Some d /\ d_fit d = Some fr /\ f_sparams fr <> sparams_of (scorers (fst (run empty ops))) (d_scorers d).
Proof. exact @stale_sparams_possible. Qed.

Theorem C10_update_is_fit_on_combined : forall (h : heap) (i : nat) (d : detector) (fr : fitrec) (D : nat), reachable h -> nth_error (detectors h) i = Some d -> d_fit d = Some fr -> step h (UpdateD i D) = step h (FitD i (Comb (Raw D) (f_data fr))).
Proof. exact @update_is_fit_on_combined_reachable. Qed.

Theorem C10_update_unfitted : forall (h : heap) (i : nat) (d : detector) (D : nat), nth_error (detectors h) i = Some d -> d_fit d = None -> snd (step h (UpdateD i D)) = ONotFitted /\ fst (step h (UpdateD i D)) = h.
Proof. exact @update_unfitted. Qed.

Theorem C10_set_params_unfits : forall (h : heap) (i : nat) (d : detector) (p : nat) (tn : bool), nth_error (detectors h) i = Some d -> nth_error (detectors (fst (step h (SetD i p tn)))) i = Some (reset_d d p tn) /\ (forall (ob : obsop) (x : nat), step (fst (step h (SetD i p tn))) (Observe ob i x) = (fst (step h (SetD i p tn)), ONotFitted)) /\ (forall D : nat, step (fst (step h (SetD i p tn))) (UpdateD i D) = (fst (step h (SetD i p tn)), ONotFitted)).
Proof. exact @set_params_unfits. Qed.

Theorem C10_nested_set_params_unfits : forall (h : heap) (i k p : nat) (d : detector) (r : nat), heap_ok h -> nth_error (detectors h) i = Some d -> nth_error (d_scorers d) k = Some r -> let h' := fst (step h (SetNested i k p)) in nth_error (detectors h') i = Some (reset_d d (d_params d) (d_tunes d)) /\ nth_error (scorers h') r = Some {| s_param := p; s_fit := None |} /\ (forall (ob : obsop) (x : nat), step h' (Observe ob i x) = (h', ONotFitted)).
Proof. exact @set_nested_unfits. Qed.

Theorem C10_clone_is_unfitted_copy : forall (h : heap) (i : nat) (d : detector), nth_error (detectors h) i = Some d -> let h' := fst (step h (CloneD i)) in snd (step h (CloneD i)) = ONew (length (detectors h)) /\ (exists d' : detector, nth_error (detectors h') (length (detectors h)) = Some d' /\ d_params d' = d_params d /\ d_tunes d' = d_tunes d /\ d_fit d' = None /\ d_X d' = None /\ d_scores d' = None /\ length (d_scorers d') = length (d_scorers d) /\ NoDup (d_scorers d') /\ (forall r : nat, In r (d_scorers d') -> length (scorers h) <= r /\ (exists s : scorer, nth_error (scorers h') r = Some s /\ s_fit s = None)) /\ sparams_of (scorers h') (d_scorers d') = sparams_of (scorers h) (d_scorers d)).
Proof. exact @clone_is_unfitted_copy. Qed.

Theorem C10_clone_leaves_original : forall (h : heap) (i : nat), exists (ss : list scorer) (ds : list detector), scorers (fst (step h (CloneD i))) = scorers h ++ ss /\ detectors (fst (step h (CloneD i))) = detectors h ++ ds.
Proof. exact @clone_does_not_touch_original. Qed.

Theorem C10_hyperparameters_change_only_by_set_params : forall (h : heap) (o : op), (forall (i : nat) (d : detector), nth_error (detectors h) i = Some d -> touches_params i o = false -> exists d' : detector, nth_error (detectors (fst (step h o))) i = Some d' /\ d_params d' = d_params d /\ d_tunes d' = d_tunes d /\ d_scorers d' = d_scorers d) /\ (forall (r : nat) (s : scorer), nth_error (scorers h) r = Some s -> param_target h o <> Some r -> exists s' : scorer, nth_error (scorers (fst (step h o))) r = Some s' /\ s_param s' = s_param s).
Proof. exact @hyperparams_only_by_set. Qed.

Theorem C10_scorer_references_never_change : forall (h : heap) (o : op) (i : nat) (d : detector), nth_error (detectors h) i = Some d -> exists d' : detector, nth_error (detectors (fst (step h o))) i = Some d' /\ d_scorers d' = d_scorers d.
Proof. exact @scorer_refs_never_change. Qed.

Theorem C10_twin_checker_sound : forall (ops : list op) (outs : list out) (sd ss : list (nat * bool)), hist_ok (ops, outs, (sd, ss)) = true -> snd (run empty ops) = outs /\ summary (fst (run empty ops)) = (sd, ss).
Proof. exact @hist_ok_sound. Qed.

Theorem C10_adapter_heaps_wellformed : forall h : aheap, areachable h -> aheap_ok h.
Proof. exact @areachable_aheap_ok. Qed.

Theorem C10_adapter_fit_then_evaluate_is_fresh : forall (h : aheap) (a D : nat) (ad : adapter) (co : cost), aheap_ok h -> nth_error (adapters h) a = Some ad -> nth_error (costs h) (a_cost ad) = Some co -> aout_norm (snd (astep (fst (astep h (FitA a D))) (EvalA a))) = fresh_val (a_kind ad) (c_param co) D.
Proof. exact @fit_then_eval_is_fresh_norm. Qed.

Theorem C10_adapter_fresh_value : forall (k : akind) (p D : nat), snd (arun aempty [NewC p; NewA k 0; FitA 0 D; EvalA 0]) = [ANew 0; ANew 0; ANone; fresh_val k p D].
Proof. exact @fresh_adapter_val. Qed.

Theorem C10_adapter_reads_last_fit_of_shared_cost : forall (h : aheap) (a : nat) (ad : adapter) (co : cost) (own D' : nat), nth_error (adapters h) a = Some ad -> nth_error (costs h) (a_cost ad) = Some co -> a_fit ad = Some own -> snd (astep (fst (astep h (FitC (a_cost ad) D'))) (EvalA a)) = AVal (a_kind ad) (c_param co) D' (a_clone_param ad) (a_clone_fit ad) own.
Proof. exact @eval_reads_last_cost_fit. Qed.

Theorem C10_adapter_reads_last_fit_by_other_adapter : forall (h : aheap) (a b : nat) (ad bd : adapter) (co : cost) (own D' : nat), nth_error (adapters h) a = Some ad -> nth_error (adapters h) b = Some bd -> b <> a -> a_cost bd = a_cost ad -> nth_error (costs h) (a_cost ad) = Some co -> a_fit ad = Some own -> snd (astep (fst (astep h (FitA b D'))) (EvalA a)) = AVal (a_kind ad) (c_param co) D' (a_clone_param ad) (a_clone_fit ad) own.
Proof. exact @eval_reads_last_adapter_fit. Qed.

Theorem C10_adapter_unaffected_by_unrelated_operations : forall (ops : list aop) (h : aheap) (a : nat) (ad : adapter), aheap_ok h -> nth_error (adapters h) a = Some ad -> untouching (a_cost ad) a h ops = true -> snd (astep (fst (arun h ops)) (EvalA a)) = snd (astep h (EvalA a)).
Proof. exact @eval_unaffected_run. Qed.

Theorem C10_adapter_refuses_after_cost_reset : forall (h : aheap) (a : nat) (ad : adapter) (p : nat), nth_error (adapters h) a = Some ad -> a_cost ad < length (costs h) -> a_fit ad <> None -> snd (astep (fst (astep h (SetC (a_cost ad) p))) (EvalA a)) = ANotFitted.
Proof. exact @set_behind_back_refuses. Qed.

Theorem C10_adapter_refit_recovers : forall (h : aheap) (a : nat) (ad : adapter) (p D : nat), aheap_ok h -> nth_error (adapters h) a = Some ad -> aout_norm (snd (astep (fst (astep (fst (astep h (SetC (a_cost ad) p))) (FitA a D))) (EvalA a))) = fresh_val (a_kind ad) p D.
Proof. exact @refit_recovers_norm. Qed.

Theorem C10_adapter_unfitted_refuses : forall (h : aheap) (a : nat) (ad : adapter), nth_error (adapters h) a = Some ad -> a_cost ad < length (costs h) -> a_fit ad = None -> snd (astep h (EvalA a)) = ANotFitted.
Proof. exact @unfitted_adapter_refuses. Qed.

Theorem C10_adapter_twin_checker_sound : forall (ops : list aop) (outs : list aout) (sc : list (nat * bool)) (sa : list bool), ahist_ok (ops, outs, (sc, sa)) = true -> snd (arun aempty ops) = outs /\ asummary (fst (arun aempty ops)) = (sc, sa).
Proof. exact @ahist_ok_sound. Qed.

Print Assumptions C10_wellformed_heaps.
Print Assumptions C10_observation_reads_only.
Print Assumptions C10_unfitted_detector_refuses.
Print Assumptions C10_evaluate_reads_only.
Print Assumptions C10_fitted_means_current_params.
Print Assumptions C10_earlier_calls_do_not_interfere.
Print Assumptions C10_any_benign_history_does_not_interfere.
Print Assumptions C10_history_suffix_irrelevant.
Print Assumptions C10_evaluate_not_interfered.
Print Assumptions C10_evaluate_history.
Print Assumptions C10_fresh_object_observation.
Print Assumptions C10_equals_fresh_object.
Print Assumptions C10_equals_fresh_object_without_nested_sets.
Print Assumptions C10_equal_configuration_equal_output.
Print Assumptions C10_stale_nested_parameter_possible.
Print Assumptions C10_update_is_fit_on_combined.
Print Assumptions C10_update_unfitted.
Print Assumptions C10_set_params_unfits.
Print Assumptions C10_nested_set_params_unfits.
Print Assumptions C10_clone_is_unfitted_copy.
Print Assumptions C10_clone_leaves_original.
Print Assumptions C10_hyperparameters_change_only_by_set_params.
Print Assumptions C10_scorer_references_never_change.
Print Assumptions C10_twin_checker_sound.
Print Assumptions C10_adapter_heaps_wellformed.
Print Assumptions C10_adapter_fit_then_evaluate_is_fresh.
Print Assumptions C10_adapter_fresh_value.
Print Assumptions C10_adapter_reads_last_fit_of_shared_cost.
Print Assumptions C10_adapter_reads_last_fit_by_other_adapter.
Print Assumptions C10_adapter_unaffected_by_unrelated_operations.
Print Assumptions C10_adapter_refuses_after_cost_reset.
Print Assumptions C10_adapter_refit_recovers.
Print Assumptions C10_adapter_unfitted_refuses.
Print Assumptions C10_adapter_twin_checker_sound.
