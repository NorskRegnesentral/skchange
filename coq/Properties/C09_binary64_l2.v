(** C09 END TO END in binary64, squared-error local anomaly score on one column: `gcbs_any F64 (local_l2_F xs) m thr ivs` is the run the harness compares bit for bit with the real
    CircularBinarySegmentation FROM THE DATA (`local_l2_F` = outer cost - (inner cost + cost of the concatenated surrounding rows, fitted afresh), on the kernel twin `l2_cost_F`).  Under
    the boolean premise `cbs_local_trace_ok` (evaluated on every case of that stream) and a finite threshold of any sign: the kernel is within the explicit `local_E` of the TRUE local
    anomaly score (residual sums of squares of the real numbers the floats denote); every reported anomaly is the first float maximiser of the inner intervals of some seeded interval,
    its true score exceeds the threshold up to the error (soundness); a candidate whose true score exceeds the threshold by more than the error forces a reported anomaly overlapping
    its seeded interval (completeness); the reported anomalies are sorted, disjoint and respect the minimum length (well-formedness, no real-number axiom). *)
From Coq Require Import Reals List Floats.
From SK Require Import Proofs.FloatRefine.
(* the list vocabulary of the detectors ([slice] on any list) is imported last: it shadows the real-number one *)
From SK Require Import Model.Cbs Model.GenericF Model.GenericAny.
From SK Require Import Proofs.CbsProofs Proofs.MwSbsFloatCusum Check.FloatRunCheck.
Import ListNotations.
From SK Require Import Proofs.CbsFloatL2.


Theorem C09_binary64_local_score_within_bound_of_true_score : forall (l : list PrimFloat.float) (s a b e : nat), local_l2_trace_ok l s a b e = true -> small_n (length l) = true -> (Rabs (FR (local_l2_F l s a b e) - local_R (map FR l) s a b e) <= local_E l s a b e)%R.
Proof. exact @local_l2_F_vs_R. Qed.

Theorem C09_binary64_l2_interval_maximum : forall (xs : list PrimFloat.float) (m : nat) (thr : PrimFloat.float) (ivs anoms : list (nat * nat)) (am : list (nat * nat * PrimFloat.float)), cbs_local_trace_ok xs m ivs = true -> gcbs_any F64 (local_l2_F xs) m thr ivs = Some (anoms, am) -> length am = length ivs /\ (forall i s e : nat, (i < length ivs)%nat -> nth i ivs (0%nat, 0%nat) = (s, e) -> anomaly_intervals s e m = [] /\ nth i am (0%nat, 0%nat, 0%float) = (0%nat, 0%nat, 0%float) \/ (exists a b : nat, nth i am (0%nat, 0%nat, 0%float) = (a, b, local_l2_F xs s a b e) /\ In (a, b) (anomaly_intervals s e m) /\ ((s < a)%nat /\ (a + m <= b)%nat /\ (b < e)%nat /\ (m <= e - b + (a - s))%nat) /\ finF (local_l2_F xs s a b e) = true /\ (forall a' b' : nat, In (a', b') (anomaly_intervals s e m) -> (local_l2_F xs s a b e <? local_l2_F xs s a' b' e)%float = false) /\ (exists j : nat, (j < length (anomaly_intervals s e m))%nat /\ nth j (anomaly_intervals s e m) (0%nat, 0%nat) = (a, b) /\ (forall j' : nat, (j' < j)%nat -> (local_l2_F xs s (fst (nth j' (anomaly_intervals s e m) (0%nat, 0%nat))) (snd (nth j' (anomaly_intervals s e m) (0%nat, 0%nat))) e <? local_l2_F xs s a b e)%float = true)) /\ (Rabs (FR (local_l2_F xs s a b e) - local_R (map FR xs) s a b e) <= local_E xs s a b e)%R /\ (forall a' b' : nat, In (a', b') (anomaly_intervals s e m) -> (local_R (map FR xs) s a' b' e - local_E xs s a' b' e <= FR (local_l2_F xs s a b e))%R) /\ (forall a' b' : nat, In (a', b') (anomaly_intervals s e m) -> (local_R (map FR xs) s a' b' e <= local_R (map FR xs) s a b e + local_E xs s a b e + local_E xs s a' b' e)%R))).
Proof. exact @cbs_F64_local_interval_max. Qed.

Theorem C09_binary64_l2_sound : forall (xs : list PrimFloat.float) (m : nat) (thr : PrimFloat.float) (ivs anoms : list (nat * nat)) (am : list (nat * nat * PrimFloat.float)), cbs_local_trace_ok xs m ivs = true -> finF thr = true -> gcbs_any F64 (local_l2_F xs) m thr ivs = Some (anoms, am) -> forall a b : nat, In (a, b) anoms -> exists i s e : nat, (i < length ivs)%nat /\ nth i ivs (0%nat, 0%nat) = (s, e) /\ nth i am (0%nat, 0%nat, 0%float) = (a, b, local_l2_F xs s a b e) /\ In (a, b) (anomaly_intervals s e m) /\ ((s < a)%nat /\ (a + m <= b)%nat /\ (b < e)%nat /\ (e <= length xs)%nat /\ (m <= e - b + (a - s))%nat) /\ (thr <? local_l2_F xs s a b e)%float = true /\ (forall a' b' : nat, In (a', b') (anomaly_intervals s e m) -> (local_l2_F xs s a b e <? local_l2_F xs s a' b' e)%float = false) /\ (local_R (map FR xs) s a b e > FR thr - local_E xs s a b e)%R /\ (forall a' b' : nat, In (a', b') (anomaly_intervals s e m) -> (local_R (map FR xs) s a' b' e <= local_R (map FR xs) s a b e + local_E xs s a b e + local_E xs s a' b' e)%R).
Proof. exact @cbs_F64_local_sound. Qed.

Theorem C09_binary64_l2_complete : forall (xs : list PrimFloat.float) (m : nat) (thr : PrimFloat.float) (ivs anoms : list (nat * nat)) (am : list (nat * nat * PrimFloat.float)), cbs_local_trace_ok xs m ivs = true -> finF thr = true -> gcbs_any F64 (local_l2_F xs) m thr ivs = Some (anoms, am) -> forall i s e a b : nat, (i < length ivs)%nat -> nth i ivs (0%nat, 0%nat) = (s, e) -> In (a, b) (anomaly_intervals s e m) -> (local_R (map FR xs) s a b e > FR thr + local_E xs s a b e)%R -> (thr <? local_l2_F xs s a b e)%float = true /\ (thr <? snd (nth i am (0%nat, 0%nat, 0)))%float = true /\ (exists a' b' : nat, In (a', b') anoms /\ (s < b')%nat /\ (a' < e)%nat).
Proof. exact @cbs_F64_local_complete. Qed.

Theorem C09_binary64_l2_wellformed : forall (xs : list PrimFloat.float) (m : nat) (thr : PrimFloat.float) (ivs anoms : list (nat * nat)) (am : list (nat * nat * PrimFloat.float)), cbs_local_trace_ok xs m ivs = true -> gcbs_any F64 (local_l2_F xs) m thr ivs = Some (anoms, am) -> (forall i : nat, (S i < length anoms)%nat -> (fst (nthP anoms i) < fst (nthP anoms (S i)))%nat /\ (snd (nthP anoms i) <= fst (nthP anoms (S i)))%nat) /\ (forall a b : nat, In (a, b) anoms -> (1 <= a)%nat /\ (a + m <= b <= length xs - 1)%nat).
Proof. exact @cbs_F64_local_wellformed. Qed.

Theorem C09_binary64_l2_example_premise : cbs_local_trace_ok demo_bump 2 demo_civs = true.
Proof. exact @demo_cbs_premise. Qed.

Theorem C09_binary64_l2_example_error_small : (local_E demo_bump 2 4 8 10 <= 1 / 1000000000)%R.
Proof. exact @demo_cbs_error_small. Qed.

Print Assumptions C09_binary64_local_score_within_bound_of_true_score.
Print Assumptions C09_binary64_l2_interval_maximum.
Print Assumptions C09_binary64_l2_sound.
Print Assumptions C09_binary64_l2_complete.
Print Assumptions C09_binary64_l2_wellformed.
Print Assumptions C09_binary64_l2_example_premise.
Print Assumptions C09_binary64_l2_example_error_small.
