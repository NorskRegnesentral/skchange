(** C09 for ANY threshold: Model/GenericAny.v models the selection loop with a removed candidate, and a candidate without inner interval, as [None] (the code sets their
    scores to -inf), so that they can never be selected.  It coincides with the model of Properties/C09.v for a non-negative threshold, and for EVERY threshold -- a tuned threshold can
    be slightly negative -- it is total, its result is well-formed and satisfies the greedy specification. *)
From Coq Require Import ZArith List.
From SK Require Import Model.Cbs Model.Generic Model.GenericAny.
From SK Require Import Proofs.GenericRank Proofs.GenericOrder Proofs.AnyThreshold.
Import ListNotations.


Theorem C09_any_threshold_total : forall (N : num) (LS : nat -> nat -> nat -> nat -> T N) (m : nat) (thr : T N) (ivs : list (nat * nat)), exists r : list (nat * nat) * list (nat * nat * T N), gcbs_any N LS m thr ivs = Some r.
Proof. exact @gcbs_any_total. Qed.

Theorem C09_any_threshold_wellformed : forall (N : num) (LS : nat -> nat -> nat -> nat -> T N) (m : nat) (thr : T N) (n : nat) (ivs anoms : list (nat * nat)) (am : list (nat * nat * T N)), (1 <= m)%nat -> (forall s e : nat, In (s, e) ivs -> (e <= n)%nat) -> gcbs_any N LS m thr ivs = Some (anoms, am) -> (forall i : nat, (S i < length anoms)%nat -> (fst (CbsProofs.nthP anoms i) < fst (CbsProofs.nthP anoms (S i)))%nat /\ (snd (CbsProofs.nthP anoms i) <= fst (CbsProofs.nthP anoms (S i)))%nat) /\ (forall a z : nat, In (a, z) anoms -> (1 <= a)%nat /\ (a + m <= z <= n - 1)%nat) /\ (forall ab : nat * nat, In ab anoms -> exists i : nat, (i < length ivs)%nat /\ fst (nth i am (0%nat, 0%nat, zero N)) = ab /\ In ab (anomaly_intervals (fst (CbsProofs.nthP ivs i)) (snd (CbsProofs.nthP ivs i)) m)) /\ am = map (ginner_or_zero N LS m) ivs.
Proof. exact @gcbs_any_wellformed. Qed.

Theorem C09_any_threshold_agrees_with_model : forall (LS : nat -> nat -> nat -> nat -> T Zn) (m : nat) (thr : Z) (ivs : list (nat * nat)), 0 <= thr -> (1 <= m)%nat -> gcbs_any Zn LS m thr ivs = cbs LS m thr ivs.
Proof. exact @cbs_any_Z. Qed.

Theorem C09_any_threshold_agrees_for_any_order : forall (N : num) (ok : T N -> Prop), swo N ok -> ok (zero N) -> forall thr : T N, ok thr -> ltb N thr (zero N) = false -> forall (LS : nat -> nat -> nat -> nat -> T N) (m : nat) (ivs : list (nat * nat)), (1 <= m)%nat -> cbs_table_ok N ok LS m ivs -> gcbs_any N LS m thr ivs = gcbs N LS m thr ivs.
Proof. exact @gcbs_any_agrees. Qed.

Theorem C09_any_threshold_supported_and_complete : forall (N : num) (ok : T N -> Prop), swo N ok -> forall (LS : nat -> nat -> nat -> nat -> T N) (m : nat) (thr : T N) (ivs : list (nat * nat)), cbs_table_ok N ok LS m ivs -> ok thr -> (1 <= m)%nat -> forall (anoms : list (nat * nat)) (am : list (nat * nat * T N)), gcbs_any N LS m thr ivs = Some (anoms, am) -> (forall ab : nat * nat, In ab anoms -> exists i : nat, (i < length ivs)%nat /\ fst (nth i am (0%nat, 0%nat, zero N)) = ab /\ gabove N thr (cbs_initial N (nth i am (0%nat, 0%nat, zero N))) = true) /\ (forall i : nat, (i < length ivs)%nat -> gabove N thr (cbs_initial N (nth i am (0%nat, 0%nat, zero N))) = true -> exists ab : nat * nat, In ab anoms /\ overlaps ab (CbsProofs.nthP ivs i) = true).
Proof. exact @gcbs_any_supported_and_complete. Qed.

Print Assumptions C09_any_threshold_total.
Print Assumptions C09_any_threshold_wellformed.
Print Assumptions C09_any_threshold_agrees_with_model.
Print Assumptions C09_any_threshold_agrees_for_any_order.
Print Assumptions C09_any_threshold_supported_and_complete.
