(** C02 END TO END in binary64, squared-error cost, one column: from the float DATA to the changepoints.  `gpelt F64 (l2_cost_F l) penf m (m-1) n` is the run the harness compares
    bit for bit with the real PELT (table stream) and `l2_cost_F` the kernel twin it compares bit for bit with `L2Cost.evaluate` (C01).  All premises are boolean and evaluated by
    `vm_compute` (on every univariate L2 case of the float stream: Check/FloatRunCheck.v): every cost's computation stays in the normal range (`l2_all_trace_ok`), every float of
    the run is finite (`pelt_trace_finite`), the sums formed are below `Magf` (`pelt_mag_ok`), the data below `Bf` (`l2_absmax_ok`).  Conclusion: the reported changepoints are
    admissible and their penalised RESIDUAL SUM OF SQUARES (of the real numbers the floats denote) is within an explicit `3 n (delta + 2 u Mag)` of the minimum. *)
From Coq Require Import Reals List.
From SK Require Import Model.Generic Model.GenericF Proofs.PeltSpec Proofs.PeltReal Proofs.RealLib Proofs.FloatError Check.FloatKernelCheck Proofs.PeltFloat Proofs.PeltFloatL2.
Import ListNotations.


Theorem C02_binary64_l2_end_to_end : forall (l : list float) (penf Magf : float) (m : nat) (Sc : R), let n := length l in let Cf := l2_cost_F l in (1 <= m)%nat -> (2 * m <= n)%nat -> INR n * u53 <= 1 / 100 -> l2_all_trace_ok l = true -> pelt_trace_finite Cf penf m (m - 1) n = true -> pelt_mag_ok Cf penf m (m - 1) n Magf = true -> (forall a T : nat, (a < T <= n)%nat -> l2_scale (map FR l) a T <= Sc) -> let cpts := snd (gpelt F64 Cf penf m (m - 1) n) in let delta := (42 / 10 * INR n + 6) * u53 * Sc in let Mag := FR Magf / (1 - u53) in Adm m cpts n /\ (forall c : list nat, Adm m c n -> pencostR (fun s e : nat => rss (slice s e (map FR l))) (FR penf) cpts n <= pencostR (fun s e : nat => rss (slice s e (map FR l))) (FR penf) c n + 3 * INR n * (delta + 2 * u53 * Mag)).
Proof. exact @pelt_F64_l2_end_to_end. Qed.

Theorem C02_binary64_l2_final_score : forall (l : list float) (penf Magf : float) (m : nat) (Sc : R), let n := length l in let Cf := l2_cost_F l in (1 <= m)%nat -> (2 * m <= n)%nat -> INR n * u53 <= 1 / 100 -> l2_all_trace_ok l = true -> pelt_trace_finite Cf penf m (m - 1) n = true -> pelt_mag_ok Cf penf m (m - 1) n Magf = true -> (forall a T : nat, (a < T <= n)%nat -> l2_scale (map FR l) a T <= Sc) -> let out := gpelt F64 Cf penf m (m - 1) n in let delta := (42 / 10 * INR n + 6) * u53 * Sc in let Mag := FR Magf / (1 - u53) in Rabs (FR (nthV F64 (fst out) (n - 1)) - pencostR (fun s e : nat => rss (slice s e (map FR l))) (FR penf) (snd out) n) <= INR n * (delta + 2 * u53 * Mag).
Proof. exact @pelt_F64_l2_final_score. Qed.

Theorem C02_binary64_l2_end_to_end_all_premises_boolean : forall (l : list float) (penf Magf Bf : float) (m : nat), let n := length l in let Cf := l2_cost_F l in (1 <= m)%nat -> (2 * m <= n)%nat -> INR n * u53 <= 1 / 100 -> l2_all_trace_ok l = true -> pelt_trace_finite Cf penf m (m - 1) n = true -> pelt_mag_ok Cf penf m (m - 1) n Magf = true -> l2_absmax_ok l Bf = true -> let cpts := snd (gpelt F64 Cf penf m (m - 1) n) in let Sc := INR n * (INR n + 1) * FR Bf ^ 2 in let delta := (42 / 10 * INR n + 6) * u53 * Sc in let Mag := FR Magf / (1 - u53) in Adm m cpts n /\ (forall c : list nat, Adm m c n -> pencostR (fun s e : nat => rss (slice s e (map FR l))) (FR penf) cpts n <= pencostR (fun s e : nat => rss (slice s e (map FR l))) (FR penf) c n + 3 * INR n * (delta + 2 * u53 * Mag)).
Proof. exact @pelt_F64_l2_end_to_end_absmax. Qed.

Theorem C02_binary64_l2_example_premises_hold : pelt_mag_ok (l2_cost_F e2_xs) e2_pen 2 1 8 e2_Mag = true.
Proof. exact @e2_mag_ok. Qed.

Theorem C02_binary64_l2_example_within_1e9_of_optimal : forall c : list nat, Adm 2 c 8 -> pencostR (fun s e : nat => rss (slice s e e2_xsR)) (3 / 2) [4%nat] 8 <= pencostR (fun s e : nat => rss (slice s e e2_xsR)) (3 / 2) c 8 + 1 / 1000000000.
Proof. exact @e2_end_to_end_1e9. Qed.

Print Assumptions C02_binary64_l2_end_to_end.
Print Assumptions C02_binary64_l2_final_score.
Print Assumptions C02_binary64_l2_end_to_end_all_premises_boolean.
Print Assumptions C02_binary64_l2_example_premises_hold.
Print Assumptions C02_binary64_l2_example_within_1e9_of_optimal.
