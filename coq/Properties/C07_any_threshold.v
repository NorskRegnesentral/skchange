(** C07 for ANY threshold: Model/GenericAny.v models the selection loop with a removed candidate as [None] (the code sets its score to -inf), so that it can never
    be selected again.  It coincides with the model of Properties/C07.v for a non-negative threshold, and for EVERY threshold -- a tuned threshold can be slightly negative -- it is total,
    its result is well-formed and satisfies the greedy specification. *)
From Coq Require Import ZArith List.
From SK Require Import Lib.Base Model.Sbs Model.Generic Model.GenericAny.
From SK Require Import Proofs.GenericRank Proofs.GenericOrder Proofs.AnyThreshold.
Import ListNotations.


Theorem C07_any_threshold_total : forall (N : num) (CS : nat -> nat -> nat -> T N) (m : nat) (thr : T N) (n : nat) (ivs : list (nat * nat)), (1 <= m)%nat -> (forall s e : nat, In (s, e) ivs -> (s + 2 * m <= e <= n)%nat) -> exists r : list nat * list (nat * T N), gsbs_any N CS m thr ivs = Some r.
Proof. exact @gsbs_any_total. Qed.

Theorem C07_any_threshold_wellformed : forall (N : num) (CS : nat -> nat -> nat -> T N) (m : nat) (thr : T N) (n : nat) (ivs : list (nat * nat)) (cpts : list nat) (am : list (nat * T N)), (1 <= m)%nat -> (forall s e : nat, In (s, e) ivs -> (s + 2 * m <= e <= n)%nat) -> gsbs_any N CS m thr ivs = Some (cpts, am) -> (forall i : nat, (S i < length cpts)%nat -> (nthN cpts i < nthN cpts (S i))%nat /\ (nthN cpts i + m <= nthN cpts (S i))%nat) /\ (forall c : nat, In c cpts -> (m <= c)%nat /\ (c + m <= n)%nat) /\ (forall c : nat, In c cpts -> exists i : nat, (i < length ivs)%nat /\ fst (nth i am (0%nat, zero N)) = c /\ contains (nth i ivs (0%nat, 0%nat)) c = true) /\ gamocs N CS m ivs = Some am.
Proof. exact @gsbs_any_wellformed. Qed.

Theorem C07_any_threshold_agrees_with_model : forall (CS : nat -> nat -> nat -> T Zn) (m : nat) (thr : Z) (ivs : list (nat * nat)), 0 <= thr -> gsbs_any Zn CS m thr ivs = sbs CS m thr ivs.
Proof. exact @sbs_any_Z. Qed.

Theorem C07_any_threshold_agrees_for_any_order : forall (N : num) (ok : T N -> Prop), swo N ok -> ok (zero N) -> forall thr : T N, ok thr -> ltb N thr (zero N) = false -> forall (CS : nat -> nat -> nat -> T N) (m : nat) (ivs : list (nat * nat)), sbs_table_ok N ok CS m ivs -> gsbs_any N CS m thr ivs = gsbs N CS m thr ivs.
Proof. exact @gsbs_any_agrees. Qed.

Theorem C07_any_threshold_changepoints_supported : forall (N : num) (ok : T N -> Prop), swo N ok -> forall (CS : nat -> nat -> nat -> T N) (m n : nat) (thr : T N) (ivs : list (nat * nat)), sbs_table_ok N ok CS m ivs -> ok thr -> (1 <= m)%nat -> (forall s e : nat, In (s, e) ivs -> (s + 2 * m <= e <= n)%nat) -> forall (cpts : list nat) (am : list (nat * T N)), gsbs_any N CS m thr ivs = Some (cpts, am) -> forall c : nat, In c cpts -> exists i : nat, (i < length ivs)%nat /\ fst (nth i am (0%nat, zero N)) = c /\ ltb N thr (snd (nth i am (0%nat, zero N))) = true /\ contains (nth i ivs (0%nat, 0%nat)) c = true.
Proof. exact @gsbs_any_supported. Qed.

Theorem C07_any_threshold_no_interval_left : forall (N : num) (ok : T N -> Prop), swo N ok -> forall (CS : nat -> nat -> nat -> T N) (m n : nat) (thr : T N) (ivs : list (nat * nat)), sbs_table_ok N ok CS m ivs -> ok thr -> (1 <= m)%nat -> (forall s e : nat, In (s, e) ivs -> (s + 2 * m <= e <= n)%nat) -> forall (cpts : list nat) (am : list (nat * T N)), gsbs_any N CS m thr ivs = Some (cpts, am) -> forall i : nat, (i < length ivs)%nat -> ltb N thr (snd (nth i am (0%nat, zero N))) = true -> exists c : nat, In c cpts /\ contains (nth i ivs (0%nat, 0%nat)) c = true.
Proof. exact @gsbs_any_no_interval_left. Qed.

Theorem C07_any_threshold_monotone : forall (N : num) (ok : T N -> Prop), swo N ok -> forall (CS : nat -> nat -> nat -> T N) (m n : nat) (thr : T N) (ivs : list (nat * nat)), sbs_table_ok N ok CS m ivs -> ok thr -> (1 <= m)%nat -> (forall s e : nat, In (s, e) ivs -> (s + 2 * m <= e <= n)%nat) -> forall (cpts : list nat) (am : list (nat * T N)), gsbs_any N CS m thr ivs = Some (cpts, am) -> forall (thr' : T N) (cpts' : list nat) (am' : list (nat * T N)), ok thr' -> ltb N thr' thr = false -> gsbs_any N CS m thr' ivs = Some (cpts', am') -> incl cpts' cpts.
Proof. exact @gsbs_any_threshold_monotone. Qed.

Print Assumptions C07_any_threshold_total.
Print Assumptions C07_any_threshold_wellformed.
Print Assumptions C07_any_threshold_agrees_with_model.
Print Assumptions C07_any_threshold_agrees_for_any_order.
Print Assumptions C07_any_threshold_changepoints_supported.
Print Assumptions C07_any_threshold_no_interval_left.
Print Assumptions C07_any_threshold_monotone.
