(** C02 for the BINARY64 run: `gpelt F64` is the generic PELT loop at Coq's primitive floats, which the float-table stream compares bit for bit with the real PELT.  On a run all of
    whose floats are finite (the boolean, vm_compute-able premise `pelt_trace_finite`, evaluated by the harness on every float-table case) that loop IS the inexact real-valued loop
    of Model/PeltA.v on the table of realised values; hence the changepoints the binary64 run reports are admissible, its final score is within n eps of the TRUE penalised cost of
    the reported segmentation and that cost is within 3 n eps of the optimum, where eps bounds the error of one candidate value: the cost's own error delta plus two binary64
    roundings, 2 u Mag (u = 2^-53, Mag a bound on the sums formed). *)
From Coq Require Import Reals List PrimFloat.
From SK Require Import Model.PeltA Model.Generic Model.GenericF Proofs.PeltSpec Proofs.PeltReal Proofs.FloatError Proofs.FloatRefine Proofs.PeltFloat.
Import ListNotations.


Theorem C02_binary64_run_is_the_inexact_real_run_on_realised_values : forall (Cf : nat -> nat -> float) (penf : float) (m delay n : nat), pelt_trace_finite Cf penf m delay n = true -> (1 <= m)%nat -> (2 * m <= n)%nat -> peltA (Vt Cf penf m delay n) (Wt Cf penf m delay n) (I0t Cf) (FR penf) m delay n = (map FR (fst (gpelt F64 Cf penf m delay n)), snd (gpelt F64 Cf penf m delay n)).
Proof. exact @gpelt_F64_is_peltA. Qed.

Theorem C02_binary64_one_candidate_rounding_error : forall g c p : float, finF g = true -> finF c = true -> finF p = true -> finF (g + c) = true -> finF (g + c + p) = true -> Rabs (FR (g + c + p) - (FR g + FR c + FR p)) <= u53 * Rabs (FR g + FR c) + u53 * Rabs (FR (g + c) + FR p).
Proof. exact @FR_cand_error. Qed.

Theorem C02_binary64_output_near_optimal : forall (Cf : nat -> nat -> float) (penf : float) (C : nat -> nat -> R) (eps : R) (m delay n : nat), (1 <= m)%nat -> (m <= delay + 1)%nat -> (2 * m <= n)%nat -> pelt_trace_finite Cf penf m delay n = true -> (forall s k e : nat, (s + m <= k)%nat -> (k + m <= e)%nat -> (e <= n)%nat -> C s k + C k e <= C s e) -> (forall a T : nat, (a < T <= n)%nat -> Rabs (FR (nthV F64 (optF64 Cf penf m delay n) a + Cf a T + penf) - (FR (nthV F64 (optF64 Cf penf m delay n) a) + C a T + FR penf)) <= eps) -> (forall T : nat, (T <= n)%nat -> Rabs (FR (nthV F64 (optF64 Cf penf m delay n) T + penf) - (FR (nthV F64 (optF64 Cf penf m delay n) T) + FR penf)) <= eps) -> (forall e : nat, (m <= e < 2 * m)%nat -> Rabs (FR (Cf 0%nat e) - C 0%nat e) <= eps) -> forall c : list nat, Adm m c n -> pencostR C (FR penf) (snd (gpelt F64 Cf penf m delay n)) n <= pencostR C (FR penf) c n + 3 * INR n * eps.
Proof. exact @pelt_F64_near_optimal. Qed.

Theorem C02_binary64_final_score_close_to_true_cost : forall (Cf : nat -> nat -> float) (penf : float) (C : nat -> nat -> R) (eps : R) (m delay n : nat), (1 <= m)%nat -> (2 * m <= n)%nat -> pelt_trace_finite Cf penf m delay n = true -> (forall a T : nat, (a < T <= n)%nat -> Rabs (FR (nthV F64 (optF64 Cf penf m delay n) a + Cf a T + penf) - (FR (nthV F64 (optF64 Cf penf m delay n) a) + C a T + FR penf)) <= eps) -> (forall e : nat, (m <= e < 2 * m)%nat -> Rabs (FR (Cf 0%nat e) - C 0%nat e) <= eps) -> Rabs (nth (n - 1) (map FR (fst (gpelt F64 Cf penf m delay n))) 0 - pencostR C (FR penf) (snd (gpelt F64 Cf penf m delay n)) n) <= INR n * eps.
Proof. exact @pelt_F64_final_close. Qed.

Theorem C02_binary64_output_near_optimal_from_cost_error_and_magnitude : forall (Cf : nat -> nat -> float) (penf : float) (C : nat -> nat -> R) (delta Mag : R) (m delay n : nat), (1 <= m)%nat -> (m <= delay + 1)%nat -> (2 * m <= n)%nat -> pelt_trace_finite Cf penf m delay n = true -> (forall s k e : nat, (s + m <= k)%nat -> (k + m <= e)%nat -> (e <= n)%nat -> C s k + C k e <= C s e) -> (forall a T : nat, (a < T <= n)%nat -> Rabs (FR (Cf a T) - C a T) <= delta) -> (forall a T : nat, (a < T <= n)%nat -> Rabs (FR (nthV F64 (optF64 Cf penf m delay n) a) + FR (Cf a T)) <= Mag) -> (forall a T : nat, (a < T <= n)%nat -> Rabs (FR (nthV F64 (optF64 Cf penf m delay n) a + Cf a T) + FR penf) <= Mag) -> (forall T : nat, (T <= n)%nat -> Rabs (FR (nthV F64 (optF64 Cf penf m delay n) T) + FR penf) <= Mag) -> forall c : list nat, Adm m c n -> pencostR C (FR penf) (snd (gpelt F64 Cf penf m delay n)) n <= pencostR C (FR penf) c n + 3 * INR n * (delta + 2 * u53 * Mag).
Proof. exact @pelt_F64_near_optimal_bounds. Qed.

Theorem C02_binary64_premise_holds_on_an_example : pelt_trace_finite ex_Cf ex_pen 1 0 6 = true.
Proof. exact @ex_trace_finite. Qed.

Print Assumptions C02_binary64_run_is_the_inexact_real_run_on_realised_values.
Print Assumptions C02_binary64_one_candidate_rounding_error.
Print Assumptions C02_binary64_output_near_optimal.
Print Assumptions C02_binary64_final_score_close_to_true_cost.
Print Assumptions C02_binary64_output_near_optimal_from_cost_error_and_magnitude.
Print Assumptions C02_binary64_premise_holds_on_an_example.
