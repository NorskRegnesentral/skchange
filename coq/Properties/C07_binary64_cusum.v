(** C07 END TO END in binary64, CUSUM score on one column: `gsbs_any F64 (cusum_F xs) m thr ivs` is the run the harness compares bit for bit with the real SeededBinarySegmentation FROM THE DATA
    (`cusum_F` = the kernel twin, compared bit for bit with `CUSUM.evaluate` by C06).  Under the boolean premise `sbs_cusum_trace_ok` (evaluated on every case of that stream) and a finite
    threshold of ANY sign: the reported per-interval maximum is the float maximum over the admissible splits, within the proved error of the maximum of the TRUE statistic; every reported
    changepoint is the first float maximiser of an interval that contains it, and its true statistic exceeds the threshold up to that error (soundness); if some admissible split of an
    interval has a true statistic exceeding the threshold by more than the error, the interval's float maximum exceeds the threshold and a changepoint is reported inside it (completeness). *)
From Coq Require Import Reals List Floats.
From SK Require Import Gen.KernelsR Proofs.RealLib Check.FloatKernelCheck2 Proofs.FloatRefine.
(* the list vocabulary of the detectors ([slice] on any list) is imported last: it shadows the real-number one *)
From SK Require Import Model.GenericF Model.GenericAny.
Import ListNotations.

From SK Require Import Proofs.MwSbsFloatCusum.


Theorem C07_binary64_cusum_interval_maximum : forall (xs : list PrimFloat.float) (m : nat) (thr : PrimFloat.float) (ivs : list (nat * nat)) (cpts : list nat) (am : list (nat * PrimFloat.float)), sbs_cusum_trace_ok xs m ivs = true -> gsbs_any F64 (cusum_F xs) m thr ivs = Some (cpts, am) -> length am = length ivs /\ (forall i s e : nat, (i < length ivs)%nat -> nth i ivs (0%nat, 0%nat) = (s, e) -> exists k : nat, nth i am (0%nat, 0%float) = (k, cusum_F xs s k e) /\ (s + m <= k)%nat /\ (k + m <= e)%nat /\ finF (cusum_F xs s k e) = true /\ (forall k' : nat, (s + m <= k')%nat -> (k' + m <= e)%nat -> (cusum_F xs s k e <? cusum_F xs s k' e)%float = false) /\ (forall k' : nat, (s + m <= k')%nat -> (k' < k)%nat -> (cusum_F xs s k' e <? cusum_F xs s k e)%float = true) /\ (Rabs (FR (cusum_F xs s k e) - cusum_score_R (prefix (map FR xs)) s k e) <= cusum_E xs s k e)%R /\ (forall k' : nat, (s + m <= k')%nat -> (k' + m <= e)%nat -> (cusum_score_R (prefix (map FR xs)) s k' e - cusum_E xs s k' e <= FR (cusum_F xs s k e))%R) /\ (forall k' : nat, (s + m <= k')%nat -> (k' + m <= e)%nat -> (cusum_score_R (prefix (map FR xs)) s k' e <= cusum_score_R (prefix (map FR xs)) s k e + cusum_E xs s k e + cusum_E xs s k' e)%R)).
Proof. exact @sbs_F64_cusum_interval_max. Qed.

Theorem C07_binary64_cusum_sound : forall (xs : list PrimFloat.float) (m : nat) (thr : PrimFloat.float) (ivs : list (nat * nat)) (cpts : list nat) (am : list (nat * PrimFloat.float)), sbs_cusum_trace_ok xs m ivs = true -> finF thr = true -> gsbs_any F64 (cusum_F xs) m thr ivs = Some (cpts, am) -> forall c : nat, In c cpts -> exists i s e : nat, (i < length ivs)%nat /\ nth i ivs (0%nat, 0%nat) = (s, e) /\ nth i am (0%nat, 0%float) = (c, cusum_F xs s c e) /\ (s + m <= c)%nat /\ (c + m <= e)%nat /\ (thr <? cusum_F xs s c e)%float = true /\ (forall k' : nat, (s + m <= k')%nat -> (k' + m <= e)%nat -> (cusum_F xs s c e <? cusum_F xs s k' e)%float = false) /\ (forall k' : nat, (s + m <= k')%nat -> (k' < c)%nat -> (cusum_F xs s k' e <? cusum_F xs s c e)%float = true) /\ (cusum_score_R (prefix (map FR xs)) s c e > FR thr - cusum_E xs s c e)%R /\ (forall k' : nat, (s + m <= k')%nat -> (k' + m <= e)%nat -> (cusum_score_R (prefix (map FR xs)) s k' e <= cusum_score_R (prefix (map FR xs)) s c e + cusum_E xs s c e + cusum_E xs s k' e)%R).
Proof. exact @sbs_F64_cusum_sound. Qed.

Theorem C07_binary64_cusum_complete : forall (xs : list PrimFloat.float) (m : nat) (thr : PrimFloat.float) (ivs : list (nat * nat)) (cpts : list nat) (am : list (nat * PrimFloat.float)), sbs_cusum_trace_ok xs m ivs = true -> finF thr = true -> gsbs_any F64 (cusum_F xs) m thr ivs = Some (cpts, am) -> forall i s e k : nat, (i < length ivs)%nat -> nth i ivs (0%nat, 0%nat) = (s, e) -> (s + m <= k)%nat -> (k + m <= e)%nat -> (cusum_score_R (prefix (map FR xs)) s k e > FR thr + cusum_E xs s k e)%R -> (thr <? cusum_F xs s k e)%float = true /\ (thr <? snd (nth i am (0%nat, 0)))%float = true /\ (exists c : nat, In c cpts /\ (s <= c < e)%nat).
Proof. exact @sbs_F64_cusum_complete. Qed.

Theorem C07_binary64_cusum_example_sound : exists s e : nat, In (s, e) demo_ivs /\ (s + 2 <= 6)%nat /\ (6 + 2 <= e)%nat /\ (2 <? cusum_F demo_shift s 6 e)%float = true /\ (cusum_score_R (prefix (map FR demo_shift)) s 6 e > FR 2 - cusum_E demo_shift s 6 e)%R.
Proof. exact @demo_sbs_sound. Qed.

Print Assumptions C07_binary64_cusum_interval_maximum.
Print Assumptions C07_binary64_cusum_sound.
Print Assumptions C07_binary64_cusum_complete.
Print Assumptions C07_binary64_cusum_example_sound.
