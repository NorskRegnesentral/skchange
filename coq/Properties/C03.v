(** C03 -- CAPA / MVCAPA anomalies maximise the total penalised saving.

    [capa_code] is the model of run_base_capa + get_anomalies + the _predict
    post-processing: point anomalies are reported as [t,t+1), the optimal start is taken
    from the pruned start list, alpha is charged once, pruning decisions wait m-1
    iterations, and point anomalies are allowed in the first m-1 samples.  [Sc s e] / [Sp t] are the per-column savings -- ANY functions, which is the
    quantifier "built-in and user-defined savings". *)
From Coq Require Import List Lia.
From SK Require Import Lib.Base Model.Capa Proofs.CapaSpec Proofs.CapaDP Proofs.Penalise Check.CapaCheck.
Open Scope Z_scope.

From SK Require Import Proofs.ValidCuts.
From Coq Require Import Reals.
From SK Require Import Gen.KernelsR Proofs.ScoreKernels.
From SK Require Import Model.PeltR Model.CapaR Proofs.CapaReal.
Close Scope R_scope.
Open Scope Z_scope.
Definition capa_code Sc Sp ac bc ap bp m M n := capa Sc Sp ac bc ap bp m M (m - 1) n.

Section C03.
Variables (Sc : nat -> nat -> list Z) (Sp : nat -> list Z) (ac : Z) (bc : list Z) (ap : Z) (bp : list Z).
Variables (m M n : nat).
Hypothesis Hm : (2 <= m)%nat.
Hypothesis HM : (m <= M)%nat.

Notation PC := (Pc Sc ac bc).
Notation PP := (Pp Sp ap bp).

(** hypotheses of the property: p >= 1 columns, non-negative per-component penalties,
    non-negative savings that are sub-additive under splitting (column by column) *)
Definition penalties_ok : Prop :=
  (1 <= length bc)%nat /\ (1 <= length bp)%nat /\ 0 <= ac /\ 0 <= ap /\
  (forall b, In b bc -> 0 <= b) /\ (forall b, In b bp -> 0 <= b).
Definition savings_ok : Prop :=
  (forall s e, length (Sc s e) = length bc) /\ (forall t, length (Sp t) = length bp) /\
  (forall s e x, In x (Sc s e) -> 0 <= x) /\ (forall t x, In x (Sp t) -> 0 <= x).
Definition subadditive : Prop :=
  forall s k e j, (s + m <= k)%nat -> (k + m <= e)%nat -> (e <= s + M)%nat -> (j < length bc)%nat ->
    nthZ (Sc s e) j <= nthZ (Sc s k) j + nthZ (Sc k e) j.

Lemma Hsub_from_columns : penalties_ok -> savings_ok -> subadditive ->
  forall s k e, (s + m <= k)%nat -> (k + m <= e)%nat -> (e <= s + M)%nat ->
    PC s e <= PC s k + (ac + sumZ bc) + PC k e.
Proof.
  intros (Hb1 & _ & _ & _ & Hbc & _) (Hl & _ & Hnn & _) Hsa s k e H1 H2 H3.
  unfold Pc. apply penalise_subadditive; auto.
  - intros x Hx. eapply Hnn; eauto.
  - intros x Hx. eapply Hnn; eauto.
  - intros x Hx. eapply Hnn; eauto.
Qed.

Variables (scores : list Z) (c p : list (nat * nat)).
Hypothesis Hrun : capa_code Sc Sp ac bc ap bp m M n = (scores, c, p).

(** (1) the cumulative score at every time is the optimum for that prefix, where the
        optimum is taken w.r.t. the TRUE best-subset penalised saving [Pbest] *)
Theorem C03_scores_are_prefix_optima : penalties_ok -> savings_ok -> subadditive ->
  forall t, (t < n)%nat ->
    nthZ scores t = G (fun s e => Pbest (Sc s e) ac bc) (fun t => Pbest (Sp t) ap bp) m M (S t).
Proof.
  intros Hp Hs Hsa t Ht.
  rewrite <- G_penalise_eq_Pbest; try tauto.
  - eapply capa_scores_optimal_min_delay; eauto. apply Hsub_from_columns; auto.
  - destruct Hp; tauto. - destruct Hp; tauto. - destruct Hp; tauto. - destruct Hp; tauto.
  - destruct Hs; tauto. - destruct Hs; tauto.
  - destruct Hp as (_&_&_&_&H&_); exact H. - destruct Hp as (_&_&_&_&_&H); exact H.
  - destruct Hs as (_&_&H&_); exact H. - destruct Hs as (_&_&_&H); exact H.
Qed.

(** (2) the reported anomalies are a valid anomaly set (any savings) *)
Theorem C03_output_valid :
  Valid m M (map to_anom (capa_predict false c p)) n.
Proof. eapply capa_wellformed; eauto. Qed.

(** (3) re-evaluating the reported anomalies gives exactly the final score (any savings) *)
Theorem C03_reevaluation_gives_final_score :
  value PC PP (map to_anom (capa_predict false c p)) = nthZ (0 :: scores) n.
Proof. eapply capa_value_is_final_score; eauto. Qed.

(** (4) the reported anomalies maximise the total penalised saving over ALL valid sets *)
Theorem C03_output_is_maximiser : penalties_ok -> savings_ok -> subadditive ->
  forall l, Valid m M l n ->
    value PC PP l <= value PC PP (map to_anom (capa_predict false c p)).
Proof.
  intros Hp Hs Hsa. eapply capa_optimal; eauto; [lia|]. apply Hsub_from_columns; auto.
Qed.

(** (5) scores are non-negative and non-decreasing (any savings) *)
Theorem C03_scores_nonneg_monotone :
  (forall t, (t < n)%nat -> 0 <= nthZ scores t) /\
  (forall t, (S t < n)%nat -> nthZ scores t <= nthZ scores (S t)).
Proof. split; [eapply capa_scores_nonneg|eapply capa_scores_monotone]; eauto. Qed.

(** (6) ignore_point_anomalies drops exactly the point anomalies *)
Theorem C03_ignore_points :
  capa_predict true c p = filter (fun se => negb (is_point se)) (capa_predict false c p).
Proof. eapply capa_ignore_points; eauto. Qed.
End C03.

(** the penalised saving computed by the code is the best over non-empty component sets *)
Theorem C03_Pbest_is_best_subset : forall sav alpha betas, length betas = length sav -> (1 <= length sav)%nat ->
  (forall J, subset_ok (length sav) J -> subset_value sav alpha betas J <= Pbest sav alpha betas) /\
  (exists J, subset_ok (length sav) J /\ subset_value sav alpha betas J = Pbest sav alpha betas).
Proof. intros; split; [intros; apply Pbest_upper; auto|apply Pbest_attained; auto]. Qed.

Theorem C03_penalise_vs_best_subset : forall sav alpha betas, length betas = length sav -> (1 <= length sav)%nat ->
  (forall b, In b betas -> 0 <= b) -> (forall x, In x sav -> 0 <= x) ->
  Pbest sav alpha betas <= penalise sav alpha betas <= Z.max (Pbest sav alpha betas) (- alpha).
Proof. exact penalise_spec. Qed.

(** G is the maximum over all valid anomaly sets *)
Theorem C03_G_is_upper_bound : forall pc pp m M, (1 <= m)%nat ->
  forall T l, Valid m M l T -> value pc pp l <= G pc pp m M T.
Proof. exact G_upper. Qed.
Theorem C03_G_is_attained : forall pc pp m M, (1 <= m)%nat ->
  forall T, exists l, Valid m M l T /\ value pc pp l = G pc pp m M T.
Proof. exact G_attained. Qed.

(** pruning applied at once (delay = 0), what run_base_capa did before its pruning decisions
    were made to wait m-1 iterations, violates the property *)
Theorem C03_immediate_pruning_refuted :
  exists Sc Sp ac bc ap bp m M n, (2 <= m <= M)%nat /\
    (forall s k e, (s + m <= k)%nat -> (k + m <= e)%nat -> (e <= s + M)%nat ->
        Pc Sc ac bc s e <= Pc Sc ac bc s k + (ac + sumZ bc) + Pc Sc ac bc k e) /\
    exists t scores c p, (t < n)%nat /\ capa Sc Sp ac bc ap bp m M 0 n = (scores, c, p) /\
      nthZ scores t <> G (Pc Sc ac bc) (Pp Sp ap bp) m M (S t).
Proof. exact capa_immediate_pruning_refuted. Qed.

Theorem C03_checker_sound : forall c, (1 <= cc_m c)%nat -> capa_wf_ok c = true ->
  nthZ (0 :: cc_scores c) (cc_n c) = G (cc_PC c) (cc_PP c) (cc_m c) (cc_M c) (cc_n c) ->
  Valid (cc_m c) (cc_M c) (map to_anom (cc_anoms c)) (cc_n c)
  /\ forall l, Valid (cc_m c) (cc_M c) l (cc_n c) ->
       value (cc_PC c) (cc_PP c) l <= value (cc_PC c) (cc_PP c) (map to_anom (cc_anoms c)).
Proof. exact capa_check_sound. Qed.

Print Assumptions C03_scores_are_prefix_optima.
Print Assumptions C03_output_valid.
Print Assumptions C03_reevaluation_gives_final_score.
Print Assumptions C03_output_is_maximiser.
Print Assumptions C03_scores_nonneg_monotone.
Print Assumptions C03_ignore_points.
Print Assumptions C03_Pbest_is_best_subset.
Print Assumptions C03_penalise_vs_best_subset.
Print Assumptions C03_G_is_upper_bound.
Print Assumptions C03_G_is_attained.
Print Assumptions C03_immediate_pruning_refuted.
Print Assumptions C03_checker_sound.

Theorem C03_only_valid_cuts_matter : forall (Sc1 Sc2 : nat -> nat -> list Z) (Sp1 Sp2 : nat -> list Z) (ac : Z) (bc : list Z) (ap : Z) (bp : list Z) (m M delay n : nat), (1 <= m)%nat -> (m <= M)%nat -> (forall s e : nat, (s + m <= e)%nat -> (e <= s + M)%nat -> (e <= n)%nat -> Sc1 s e = Sc2 s e) -> (forall t : nat, (t < n)%nat -> Sp1 t = Sp2 t) -> capa Sc1 Sp1 ac bc ap bp m M delay n = capa Sc2 Sp2 ac bc ap bp m M delay n.
Proof. exact @capa_ext_valid_maxlen. Qed.

Print Assumptions C03_only_valid_cuts_matter.

(* from here on numerals and operators are read in R *)
Open Scope R_scope.
Theorem C03_builtin_l2_saving_nonneg : forall (S1 : nat -> R) (s e : nat), (s < e)%nat -> 0 <= l2_saving_R S1 s e.
Proof. exact @l2_saving_nonneg. Qed.

Theorem C03_builtin_l2_saving_subadditive : forall (S1 : nat -> R) (s k e : nat), (s < k)%nat -> (k < e)%nat -> l2_saving_R S1 s e <= l2_saving_R S1 s k + l2_saving_R S1 k e.
Proof. exact @l2_saving_subadditive. Qed.

Theorem C03_cost_derived_savings_subadditive : forall (Cf Co : nat -> nat -> R) (s k e : nat), Cf s e = Cf s k + Cf k e -> Co s k + Co k e <= Co s e -> saving Cf Co s e <= saving Cf Co s k + saving Cf Co k e.
Proof. exact @saving_subadditive_of_parts. Qed.

Print Assumptions C03_builtin_l2_saving_nonneg.
Print Assumptions C03_builtin_l2_saving_subadditive.
Print Assumptions C03_cost_derived_savings_subadditive.

Theorem C03_real_savings_scores_are_prefix_optima : forall (Sc : nat -> nat -> list R) (Sp : nat -> list R) (ac : R) (bc : list R) (ap : R) (bp : list R) (m M n : nat), (2 <= m)%nat -> (m <= M)%nat -> forall (scores : list R) (c p : list (nat * nat)), capaR_code Sc Sp ac bc ap bp m M n = (scores, c, p) -> penalties_okR ac bc ap bp -> savings_okR Sc Sp bc bp -> subadditiveR Sc bc m M -> forall t : nat, (t < n)%nat -> nthR scores t = GR (fun s e : nat => PbestR (Sc s e) ac bc) (fun t0 : nat => PbestR (Sp t0) ap bp) m M (S t).
Proof. exact @capaR_scores_are_prefix_optima. Qed.

Theorem C03_real_savings_output_valid : forall (Sc : nat -> nat -> list R) (Sp : nat -> list R) (ac : R) (bc : list R) (ap : R) (bp : list R) (m M n : nat), (2 <= m)%nat -> (m <= M)%nat -> forall (scores : list R) (c p : list (nat * nat)), capaR_code Sc Sp ac bc ap bp m M n = (scores, c, p) -> Valid m M (map to_anom (capa_predict false c p)) n.
Proof. exact @capaR_output_valid. Qed.

Theorem C03_real_savings_reevaluation_gives_final_score : forall (Sc : nat -> nat -> list R) (Sp : nat -> list R) (ac : R) (bc : list R) (ap : R) (bp : list R) (m M n : nat), (2 <= m)%nat -> (m <= M)%nat -> forall (scores : list R) (c p : list (nat * nat)), capaR_code Sc Sp ac bc ap bp m M n = (scores, c, p) -> totalR (PcR Sc ac bc) (PpR Sp ap bp) (map to_anom (capa_predict false c p)) = nthR (0 :: scores) n.
Proof. exact @capaR_reevaluation_gives_final_score. Qed.

Theorem C03_real_savings_output_is_maximiser : forall (Sc : nat -> nat -> list R) (Sp : nat -> list R) (ac : R) (bc : list R) (ap : R) (bp : list R) (m M n : nat), (2 <= m)%nat -> (m <= M)%nat -> forall (scores : list R) (c p : list (nat * nat)), capaR_code Sc Sp ac bc ap bp m M n = (scores, c, p) -> penalties_okR ac bc ap bp -> savings_okR Sc Sp bc bp -> subadditiveR Sc bc m M -> forall l : list anom, Valid m M l n -> totalR (PcR Sc ac bc) (PpR Sp ap bp) l <= totalR (PcR Sc ac bc) (PpR Sp ap bp) (map to_anom (capa_predict false c p)).
Proof. exact @capaR_output_is_maximiser. Qed.

Theorem C03_real_savings_scores_nonneg_monotone : forall (Sc : nat -> nat -> list R) (Sp : nat -> list R) (ac : R) (bc : list R) (ap : R) (bp : list R) (m M n : nat), (2 <= m)%nat -> (m <= M)%nat -> forall (scores : list R) (c p : list (nat * nat)), capaR_code Sc Sp ac bc ap bp m M n = (scores, c, p) -> (forall t : nat, (t < n)%nat -> 0 <= nthR scores t) /\ (forall t : nat, (S t < n)%nat -> nthR scores t <= nthR scores (S t)).
Proof. exact @capaR_scores_nonneg_monotone. Qed.

Theorem C03_real_savings_ignore_points : forall (Sc : nat -> nat -> list R) (Sp : nat -> list R) (ac : R) (bc : list R) (ap : R) (bp : list R) (m M n : nat) (scores : list R) (c p : list (nat * nat)), capaR_code Sc Sp ac bc ap bp m M n = (scores, c, p) -> capa_predict true c p = filter (fun se : nat * nat => negb (is_point se)) (capa_predict false c p).
Proof. exact @capaR_ignore_point_anomalies. Qed.

Theorem C03_real_savings_Pbest_is_best_subset : forall (sav : list R) (alpha : R) (betas : list R), length betas = length sav -> (1 <= length sav)%nat -> (forall J : list nat, subset_ok (length sav) J -> subset_valueR sav alpha betas J <= PbestR sav alpha betas) /\ (exists J : list nat, subset_ok (length sav) J /\ subset_valueR sav alpha betas J = PbestR sav alpha betas).
Proof. exact @PbestR_is_best_subset. Qed.

Theorem C03_real_savings_penalise_vs_best_subset : forall (sav : list R) (alpha : R) (betas : list R), length betas = length sav -> (1 <= length sav)%nat -> (forall b : R, In b betas -> 0 <= b) -> (forall x : R, In x sav -> 0 <= x) -> penaliseR sav alpha betas = (if all_tinyR betas then PbestR sav alpha betas else if all_equalR betas then Rmax (PbestR sav alpha betas) (- alpha) else PbestR sav alpha betas).
Proof. exact @penaliseR_eq_Pbest. Qed.

Theorem C03_real_model_extends_integer_model : forall (Sc : nat -> nat -> list Z) (Sp : nat -> list Z) (ac : Z) (bc : list Z) (ap : Z) (bp : list Z) (m M d n : nat) (scores : list Z) (c p : list (nat * nat)), capa Sc Sp ac bc ap bp m M d n = (scores, c, p) -> capaR (fun s e : nat => map IZR (Sc s e)) (fun t : nat => map IZR (Sp t)) (IZR ac) (map IZR bc) (IZR ap) (map IZR bp) m M d n = (map IZR scores, c, p).
Proof. exact @capaR_of_Z. Qed.

Theorem C03_builtin_l2_saving_end_to_end : forall (xss : list (list R)) (ac : R) (bc : list R) (ap : R) (bp : list R) (m M n : nat) (scores : list R) (c p : list (nat * nat)), (2 <= m)%nat -> (m <= M)%nat -> (1 <= length xss)%nat -> length bc = length xss -> length bp = length xss -> 0 <= ac -> 0 <= ap -> (forall b : R, In b bc -> 0 <= b) -> (forall b : R, In b bp -> 0 <= b) -> capaR (l2Sc xss) (l2Sp xss) ac bc ap bp m M (m - 1) n = (scores, c, p) -> let PC := PcR (l2Sc xss) ac bc in let PP := PpR (l2Sp xss) ap bp in let out := map to_anom (capa_predict false c p) in Valid m M out n /\ totalR PC PP out = nthR (0 :: scores) n /\ (forall l : list anom, Valid m M l n -> totalR PC PP l <= totalR PC PP out) /\ (forall t : nat, (t < n)%nat -> nthR scores t = GR (fun s e : nat => PbestR (l2Sc xss s e) ac bc) (fun t0 : nat => PbestR (l2Sp xss t0) ap bp) m M (S t)).
Proof. exact @capa_l2_end_to_end. Qed.

Print Assumptions C03_real_savings_scores_are_prefix_optima.
Print Assumptions C03_real_savings_output_valid.
Print Assumptions C03_real_savings_reevaluation_gives_final_score.
Print Assumptions C03_real_savings_output_is_maximiser.
Print Assumptions C03_real_savings_scores_nonneg_monotone.
Print Assumptions C03_real_savings_ignore_points.
Print Assumptions C03_real_savings_Pbest_is_best_subset.
Print Assumptions C03_real_savings_penalise_vs_best_subset.
Print Assumptions C03_real_model_extends_integer_model.
Print Assumptions C03_builtin_l2_saving_end_to_end.
