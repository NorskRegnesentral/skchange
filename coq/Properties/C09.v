(** C09 -- circular binary segmentation reports greedy disjoint above-threshold anomalies.
    [cbs LS m thr ivs] models run_circular_binseg for ANY aggregated local anomaly score
    [LS s a z e]. *)
From Coq Require Import ZArith List Lia Permutation.
From SK Require Import Lib.Base Model.Sbs Model.Cbs Model.Capa Proofs.CbsProofs.
Import ListNotations.
Open Scope Z_scope.

From SK Require Import Check.Scores Check.CbsCheck Proofs.CheckerSoundness Proofs.ValidCuts.
From SK Require Import Model.Generic Proofs.GenericZ Proofs.GreedyZ.
(** the inner candidates of [s,e): strictly inside, length >= m, >= m surrounding samples *)
Theorem C09_inner_candidates : forall s e m a z, In (a, z) (anomaly_intervals s e m) <->
  (s < a /\ a + m <= z /\ z < e /\ m <= (e - z) + (a - s))%nat.
Proof. exact anomaly_intervals_spec. Qed.

(** reported score / inner interval of a candidate = max / a maximiser over its inner candidates;
    a candidate without inner candidates has score 0 *)
Theorem C09_interval_scores : forall LS m s e a z v, best_inner LS m (s, e) = Some ((a, z), v) ->
  In (a, z) (anomaly_intervals s e m) /\ v = LS s a z e /\
  forall a' z', In (a', z') (anomaly_intervals s e m) -> LS s a' z' e <= v.
Proof. exact best_inner_spec. Qed.
Theorem C09_no_inner_candidate : forall LS m s e, best_inner LS m (s, e) = None <-> anomaly_intervals s e m = [].
Proof. exact best_inner_none. Qed.

(** anomalies are sorted, pairwise disjoint, of length >= m, strictly inside the data (C04);
    they are the sorted picks of the greedy loop over the per-interval maximisers *)
Theorem C09_wellformed : forall LS m thr n ivs anoms am, 0 <= thr -> (1 <= m)%nat ->
  (forall s e, In (s, e) ivs -> (e <= n)%nat) -> cbs LS m thr ivs = Some (anoms, am) ->
  (forall i, (S i < length anoms)%nat ->
      (fst (nthP anoms i) < fst (nthP anoms (S i)) /\ snd (nthP anoms i) <= fst (nthP anoms (S i)))%nat) /\
  (forall a z, In (a, z) anoms -> (1 <= a /\ a + m <= z <= n - 1)%nat) /\
  am = map (inner_or_zero LS m) ivs /\
  exists picks, greedy_anoms (length ivs) thr ivs (map fst am) (map snd am) = Some picks /\
                anoms = sort_pairs picks /\ Permutation anoms picks.
Proof. exact cbs_wellformed. Qed.

(** greedy characterisation: every pick is the inner interval of a candidate scoring above the
    threshold; no above-threshold candidate is left without an overlapping anomaly; raising the
    threshold can only remove anomalies *)
Theorem C09_picks_supported : forall thr ivs inner scores N fuel picks, anoms_pre thr ivs inner scores N ->
  greedy_anoms fuel thr ivs inner scores = Some picks ->
  forall ab, In ab picks -> exists i, (i < N)%nat /\ nthP inner i = ab /\ thr < nthZ scores i.
Proof. exact greedy_anoms_supported. Qed.
Theorem C09_no_candidate_left : forall thr ivs inner scores N fuel picks, anoms_pre thr ivs inner scores N ->
  greedy_anoms fuel thr ivs inner scores = Some picks ->
  forall i, (i < N)%nat -> thr < nthZ scores i -> exists ab, In ab picks /\ overlaps ab (nthP ivs i) = true.
Proof. exact greedy_anoms_complete. Qed.
Theorem C09_threshold_monotone : forall thr thr' ivs inner scores fuel fuel' picks picks',
  length ivs = length scores -> thr <= thr' ->
  greedy_anoms fuel thr ivs inner scores = Some picks -> greedy_anoms fuel' thr' ivs inner scores = Some picks' ->
  incl picks' picks.
Proof. exact greedy_anoms_threshold_incl. Qed.

(** total on every input with thr >= 0 (C14), depends only on score values (C12) *)
Theorem C09_total : forall LS m thr ivs, 0 <= thr -> exists r, cbs LS m thr ivs = Some r.
Proof. exact cbs_total. Qed.
Theorem C09_ext : forall LS1 LS2 m thr ivs, (forall s a z e, LS1 s a z e = LS2 s a z e) -> cbs LS1 m thr ivs = cbs LS2 m thr ivs.
Proof. exact cbs_ext. Qed.

(** with min_segment_length = 1 a candidate interval of length 2 has no inner candidate: the pinned
    code called np.argmax on an empty array there *)
Theorem C09_m1_len2_has_no_inner : forall s, anomaly_intervals s (s + 2) 1 = [].
Proof. intros s. apply anomaly_intervals_empty. lia. Qed.

Print Assumptions C09_inner_candidates.
Print Assumptions C09_interval_scores.
Print Assumptions C09_no_inner_candidate.
Print Assumptions C09_wellformed.
Print Assumptions C09_picks_supported.
Print Assumptions C09_no_candidate_left.
Print Assumptions C09_threshold_monotone.
Print Assumptions C09_total.
Print Assumptions C09_ext.
Print Assumptions C09_m1_len2_has_no_inner.

(** what the boolean checkers that the harness evaluates on every recorded case accept, as
    propositions (Proofs/CheckerSoundness.v); the run depends on the score only at valid cuts
    (Proofs/ValidCuts.v) *)
Theorem C09_checker_sound : forall c : cbs_case, cbs_spec_ok c = true -> (forall (s e a z : nat) (v : Z), In (s, e, (a, z), v) (bc_rows c) -> anomaly_intervals s e (bc_m c) = [] /\ v = 0 \/ In (a, z) (anomaly_intervals s e (bc_m c)) /\ ((s < a)%nat /\ (a + bc_m c <= z)%nat /\ (z < e)%nat /\ (bc_m c <= e - z + (a - s))%nat) /\ v = ls_agg (bc_score c) s a z e /\ (forall a' z' : nat, In (a', z') (anomaly_intervals s e (bc_m c)) -> ls_agg (bc_score c) s a' z' e <= v)) /\ ((forall a z : nat, In (a, z) (bc_anoms c) -> (1 <= a)%nat /\ (a + bc_m c <= z)%nat /\ (z + 1 <= bc_n c)%nat) /\ (forall i : nat, (S i < length (bc_anoms c))%nat -> (snd (nthP (bc_anoms c) i) <= fst (nthP (bc_anoms c) (S i)))%nat)) /\ (forall a z : nat, In (a, z) (bc_anoms c) -> exists (s e : nat) (v : Z), In (s, e, (a, z), v) (bc_rows c) /\ bc_thr c < v) /\ (forall (s e : nat) (ab : nat * nat) (v : Z), In (s, e, ab, v) (bc_rows c) -> bc_thr c < v -> exists a z : nat, In (a, z) (bc_anoms c) /\ (s < z)%nat /\ (a < e)%nat).
Proof. exact @cbs_spec_ok_sound. Qed.

Theorem C09_model_equality_checker_sound : forall c : cbs_case, cbs_model_eq c = true -> let ivs := seeded_intervals (bc_n c) (2 * bc_m c) (bc_lens c) in map brow_iv (bc_rows c) = ivs /\ (exists am : list (nat * nat * Z), cbs (ls_agg (bc_score c)) (bc_m c) (bc_thr c) ivs = Some (bc_anoms c, am) /\ map fst am = map brow_inner (bc_rows c) /\ map snd am = map brow_score (bc_rows c)).
Proof. exact @cbs_model_eq_sound. Qed.

Theorem C09_only_valid_cuts_matter : forall (LS1 LS2 : nat -> nat -> nat -> nat -> Z) (m : nat) (thr : Z) (ivs : list (nat * nat)), (forall s e a z : nat, In (s, e) ivs -> (s < a)%nat -> (a + m <= z)%nat -> (z < e)%nat -> (m <= a - s + (e - z))%nat -> LS1 s a z e = LS2 s a z e) -> cbs LS1 m thr ivs = cbs LS2 m thr ivs.
Proof. exact @cbs_ext_valid_arith. Qed.

Print Assumptions C09_checker_sound.
Print Assumptions C09_model_equality_checker_sound.
Print Assumptions C09_only_valid_cuts_matter.

Theorem C09_generic_loop_at_Z_is_the_model : forall (LS : nat -> nat -> nat -> nat -> T Zn) (m : nat) (thr : T Zn) (ivs : list (nat * nat)), gcbs Zn LS m thr ivs = cbs LS m thr ivs.
Proof. exact @gcbs_Z. Qed.

Print Assumptions C09_generic_loop_at_Z_is_the_model.
