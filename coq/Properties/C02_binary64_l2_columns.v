(** C02 END TO END in binary64, squared-error cost, SEVERAL columns (fewer than 8: NumPy's `np.sum(costs, axis=1)` then adds the per-column costs sequentially from the left,
    `aggF`; checked bit for bit by the from-data stream with 1..7 columns).  All premises boolean (`cols_length_ok`, `l2_all_trace_ok_cols`, `pelt_trace_finite`, `pelt_mag_ok`,
    `agg_mag_ok`, `l2_absmax_ok_cols`), evaluated by `vm_compute` on every case of that stream.  Objective: the sum over the columns of the residual sums of squares (the one of
    `C02_builtin_l2_cost_end_to_end` for several columns). *)
From Coq Require Import Reals List.
From SK Require Import Model.Generic Model.GenericF Proofs.PeltSpec Proofs.PeltReal Proofs.RealLib Proofs.FloatError Proofs.FloatRefine Check.FloatKernelCheck Proofs.PeltFloat Proofs.PeltFloatL2 Proofs.PeltFloatL2Multi.
Import ListNotations.


Theorem C02_binary64_aggregation_error : forall (Magf : float) (delta : R) (cs : list float) (rs : list R), finF Magf = true -> agg_ok Magf cs = true -> close_list delta cs rs -> Rabs (FR (aggF cs) - sumRl rs) <= INR (length cs) * delta + INR (length cs - 1) * u53 * (FR Magf / (1 - u53)).
Proof. exact @agg_error. Qed.

Theorem C02_binary64_l2_columns_end_to_end : forall (ls : list (list float)) (penf Magf Bf : float) (m n : nat), let p := length ls in let Cf := CfM ls in (1 <= m)%nat -> (2 * m <= n)%nat -> INR n * u53 <= 1 / 100 -> (1 <= p)%nat -> cols_length_ok ls n = true -> l2_all_trace_ok_cols ls = true -> pelt_trace_finite Cf penf m (m - 1) n = true -> pelt_mag_ok Cf penf m (m - 1) n Magf = true -> agg_mag_ok ls n Magf = true -> l2_absmax_ok_cols ls Bf = true -> let cpts := snd (gpelt F64 Cf penf m (m - 1) n) in let Ctrue := fun s e : nat => sumRl (map (fun l : list float => rss (slice s e (map FR l))) ls) in let delta := (42 / 10 * INR n + 6) * u53 * (INR n * (INR n + 1) * FR Bf ^ 2) in let Mag := FR Magf / (1 - u53) in Adm m cpts n /\ (forall c : list nat, Adm m c n -> pencostR Ctrue (FR penf) cpts n <= pencostR Ctrue (FR penf) c n + 3 * INR n * (INR p * delta + (INR p + 1) * u53 * Mag)).
Proof. exact @pelt_F64_l2_multi_end_to_end. Qed.

Theorem C02_binary64_l2_columns_final_score : forall (ls : list (list float)) (penf Magf Bf : float) (m n : nat), let p := length ls in let Cf := CfM ls in (1 <= m)%nat -> (2 * m <= n)%nat -> INR n * u53 <= 1 / 100 -> (1 <= p)%nat -> cols_length_ok ls n = true -> l2_all_trace_ok_cols ls = true -> pelt_trace_finite Cf penf m (m - 1) n = true -> pelt_mag_ok Cf penf m (m - 1) n Magf = true -> agg_mag_ok ls n Magf = true -> l2_absmax_ok_cols ls Bf = true -> let out := gpelt F64 Cf penf m (m - 1) n in let Ctrue := fun s e : nat => sumRl (map (fun l : list float => rss (slice s e (map FR l))) ls) in let delta := (42 / 10 * INR n + 6) * u53 * (INR n * (INR n + 1) * FR Bf ^ 2) in let Mag := FR Magf / (1 - u53) in Rabs (FR (nthV F64 (fst out) (n - 1)) - pencostR Ctrue (FR penf) (snd out) n) <= INR n * (INR p * delta + (INR p + 1) * u53 * Mag).
Proof. exact @pelt_F64_l2_multi_final_score. Qed.

Theorem C02_binary64_l2_columns_one_column_is_the_kernel : forall l : list float, CfM [l] = l2_cost_F l.
Proof. exact @CfM_one_column. Qed.

Theorem C02_binary64_l2_columns_example_within_1e9_of_optimal : forall c : list nat, Adm 2 c 8 -> pencostR (rss_multi e3_colsR) 3 [4%nat] 8 <= pencostR (rss_multi e3_colsR) 3 c 8 + 1 / 1000000000.
Proof. exact @e3_end_to_end_1e9. Qed.

Print Assumptions C02_binary64_aggregation_error.
Print Assumptions C02_binary64_l2_columns_end_to_end.
Print Assumptions C02_binary64_l2_columns_final_score.
Print Assumptions C02_binary64_l2_columns_one_column_is_the_kernel.
Print Assumptions C02_binary64_l2_columns_example_within_1e9_of_optimal.
