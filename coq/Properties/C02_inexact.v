(** C02 under INEXACT arithmetic: the pruned programme in which every arithmetic step the binary64 code rounds (the cost, the two additions of the candidate value, the sum on the
    right of the prune test, the initial block) is replaced by an ARBITRARY function within eps of the exact expression (Model/PeltA.v; with the exact functions it IS peltR).
    Exact optimality is not a theorem about rounded arithmetic; what holds is: the output is admissible whatever the values, the reported final score is within n eps of the TRUE
    penalised cost of the reported segmentation, and that cost is within 3 n eps of the optimum.  The `_run` versions need the eps-hypotheses only at the values the run itself
    stores, so that V / W can be instantiated by tables of realised binary64 values. *)
From Coq Require Import Reals List.
From SK Require Import Model.PeltR Model.PeltA Proofs.PeltSpec Proofs.PeltReal Proofs.PeltApprox.
Import ListNotations.


Theorem C02_inexact_model_with_exact_steps_is_the_real_model : forall (C : nat -> nat -> R) (pen : R) (m delay n : nat), peltA (fun (a T : nat) (g : R) => g + C a T + pen) (fun (_ : nat) (b : R) => b + pen) (C 0%nat) pen m delay n = peltR C pen m delay n.
Proof. exact @peltA_exact. Qed.

Theorem C02_inexact_output_admissible : forall (V : nat -> nat -> R -> R) (W : nat -> R -> R) (I0 : nat -> R) (pen : R) (m delay n : nat), (1 <= m)%nat -> (2 * m <= n)%nat -> Adm m (snd (peltA V W I0 pen m delay n)) n.
Proof. exact @peltA_adm. Qed.

Theorem C02_inexact_final_score_close_to_true_cost : forall (V : nat -> nat -> R -> R) (W : nat -> R -> R) (I0 : nat -> R) (C : nat -> nat -> R) (pen eps : R) (m delay n : nat), (1 <= m)%nat -> (2 * m <= n)%nat -> (forall (a T : nat) (g : R), Rabs (V a T g - (g + C a T + pen)) <= eps) -> (forall e : nat, Rabs (I0 e - C 0%nat e) <= eps) -> Rabs (nth (n - 1) (fst (peltA V W I0 pen m delay n)) 0 - pencostR C pen (snd (peltA V W I0 pen m delay n)) n) <= INR n * eps.
Proof. exact @peltA_final_close. Qed.

Theorem C02_inexact_output_near_optimal : forall (V : nat -> nat -> R -> R) (W : nat -> R -> R) (I0 : nat -> R) (C : nat -> nat -> R) (pen eps : R) (m delay n N : nat), (1 <= m)%nat -> (m <= delay + 1)%nat -> (2 * m <= n)%nat -> (n <= N)%nat -> (forall s k e : nat, (s + m <= k)%nat -> (k + m <= e)%nat -> (e <= N)%nat -> C s k + C k e <= C s e) -> (forall (a T : nat) (g : R), Rabs (V a T g - (g + C a T + pen)) <= eps) -> (forall (T : nat) (b : R), Rabs (W T b - (b + pen)) <= eps) -> (forall e : nat, Rabs (I0 e - C 0%nat e) <= eps) -> forall c : list nat, Adm m c n -> pencostR C pen (snd (peltA V W I0 pen m delay n)) n <= pencostR C pen c n + K_pelt * INR n * eps.
Proof. exact @peltA_near_optimal. Qed.

Theorem C02_inexact_final_score_close_realised_values : forall (V : nat -> nat -> R -> R) (W : nat -> R -> R) (I0 : nat -> R) (C : nat -> nat -> R) (pen eps : R) (m delay n : nat), (1 <= m)%nat -> (2 * m <= n)%nat -> (forall a T : nat, (a < T <= n)%nat -> Rabs (V a T (storedA V W I0 pen m delay n a) - (storedA V W I0 pen m delay n a + C a T + pen)) <= eps) -> (forall e : nat, (m <= e < 2 * m)%nat -> Rabs (I0 e - C 0%nat e) <= eps) -> Rabs (nth (n - 1) (fst (peltA V W I0 pen m delay n)) 0 - pencostR C pen (snd (peltA V W I0 pen m delay n)) n) <= INR n * eps.
Proof. exact @peltA_final_close_run. Qed.

Theorem C02_inexact_output_near_optimal_realised_values : forall (V : nat -> nat -> R -> R) (W : nat -> R -> R) (I0 : nat -> R) (C : nat -> nat -> R) (pen eps : R) (m delay n N : nat), (1 <= m)%nat -> (m <= delay + 1)%nat -> (2 * m <= n)%nat -> (n <= N)%nat -> (forall s k e : nat, (s + m <= k)%nat -> (k + m <= e)%nat -> (e <= N)%nat -> C s k + C k e <= C s e) -> (forall a T : nat, (a < T <= n)%nat -> Rabs (V a T (storedA V W I0 pen m delay n a) - (storedA V W I0 pen m delay n a + C a T + pen)) <= eps) -> (forall T : nat, (T <= n)%nat -> Rabs (W T (storedA V W I0 pen m delay n T) - (storedA V W I0 pen m delay n T + pen)) <= eps) -> (forall e : nat, (m <= e < 2 * m)%nat -> Rabs (I0 e - C 0%nat e) <= eps) -> forall c : list nat, Adm m c n -> pencostR C pen (snd (peltA V W I0 pen m delay n)) n <= pencostR C pen c n + K_pelt * INR n * eps.
Proof. exact @peltA_near_optimal_run. Qed.

Theorem C02_inexact_scores_close_to_prefix_optima : forall (V : nat -> nat -> R -> R) (W : nat -> R -> R) (I0 : nat -> R) (C : nat -> nat -> R) (pen eps : R) (m delay n N : nat), (1 <= m)%nat -> (m <= delay + 1)%nat -> (2 * m <= n)%nat -> (n <= N)%nat -> (forall s k e : nat, (s + m <= k)%nat -> (k + m <= e)%nat -> (e <= N)%nat -> C s k + C k e <= C s e) -> (forall (a T : nat) (g : R), Rabs (V a T g - (g + C a T + pen)) <= eps) -> (forall (T : nat) (b : R), Rabs (W T b - (b + pen)) <= eps) -> (forall e : nat, Rabs (I0 e - C 0%nat e) <= eps) -> forall t : nat, (m <= t <= n)%nat -> FR C pen m t - INR t * eps <= nth (t - 1) (fst (peltA V W I0 pen m delay n)) 0 <= FR C pen m t + 2 * INR t * eps.
Proof. exact @peltA_scores_close. Qed.

Theorem C02_inexact_hypotheses_satisfiable : forall c : list nat, Adm 1 c 10 -> pencostR (fun _ _ : nat => 0) 1 (snd (peltA (Vbad (fun _ _ : nat => 0) 1 (1 / 8)) (Wbad 1 (1 / 8)) (Ibad (fun _ _ : nat => 0) (1 / 8)) 1 1 0 10)) 10 <= pencostR (fun _ _ : nat => 0) 1 c 10 + 3 * INR 10 * (1 / 8).
Proof. exact @peltA_near_optimal_instance. Qed.

Print Assumptions C02_inexact_model_with_exact_steps_is_the_real_model.
Print Assumptions C02_inexact_output_admissible.
Print Assumptions C02_inexact_final_score_close_to_true_cost.
Print Assumptions C02_inexact_output_near_optimal.
Print Assumptions C02_inexact_final_score_close_realised_values.
Print Assumptions C02_inexact_output_near_optimal_realised_values.
Print Assumptions C02_inexact_scores_close_to_prefix_optima.
Print Assumptions C02_inexact_hypotheses_satisfiable.
