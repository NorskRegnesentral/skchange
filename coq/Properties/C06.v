(** C06 -- scores derived from costs equal their defining cost differences.

    The adapters (ChangeScore / Saving / LocalAnomalyScore) are modelled by hand for ANY cost
    function (change_score, saving, local_score of Proofs/ScoreKernels.v); the directly
    implemented scores (CUSUM, L2 saving) and the built-in costs are the kernels REGENERATED from
    /repo on every run.  The statements are over Coq's real numbers ("up to rounding" = exact),
    except the last block: the rounding error of the binary64 CUSUM score.
    The multivariate Gaussian inequalities are NOT proved (matrix analysis): supported by the
    differential run only. *)
From Coq Require Import Reals List.
From SK Require Import Gen.KernelsR Proofs.RealLib Proofs.ScoreKernels.
Import ListNotations.
From SK Require Import Check.KernelCheck Proofs.CheckerSoundness.


Theorem C06_change_score_is_cost_difference : forall (C : nat -> nat -> R) (s k e : nat), change_score C s k e = (C s e - (C s k + C k e))%R.
Proof. exact @change_score_def. Qed.

Theorem C06_saving_is_cost_difference : forall (Cf Co : nat -> nat -> R) (s e : nat), saving Cf Co s e = (Cf s e - Co s e)%R.
Proof. exact @saving_def. Qed.

Theorem C06_local_score_is_cost_difference : forall (C : nat -> nat -> R) (Cpool : R) (s a b e : nat), local_score C Cpool s a b e = (C s e - (C a b + Cpool))%R.
Proof. exact @local_score_def. Qed.

Theorem C06_change_score_nonneg_when_split_holds : forall (C : nat -> nat -> R) (s k e : nat), (C s k + C k e <= C s e)%R -> (0 <= change_score C s k e)%R.
Proof. exact @change_score_nonneg_of_split. Qed.

Theorem C06_saving_nonneg_when_optim_le_fixed : forall (Cf Co : nat -> nat -> R) (s e : nat), (Co s e <= Cf s e)%R -> (0 <= saving Cf Co s e)%R.
Proof. exact @saving_nonneg_of_optim_le_fixed. Qed.

Theorem C06_local_score_nonneg_when_split_holds : forall (C : nat -> nat -> R) (Cpool : R) (s a b e : nat), (C a b + Cpool <= C s e)%R -> (0 <= local_score C Cpool s a b e)%R.
Proof. exact @local_score_nonneg_of_split. Qed.

Theorem C06_squared_cusum_is_l2_change_score : forall (S1 S2 : nat -> R) (s k e : nat), (s < k)%nat -> (k < e)%nat -> (cusum_score_R S1 s k e ^ 2)%R = change_score (l2_cost_optim_R S1 S2) s k e.
Proof. exact @cusum_sq_is_l2_change_score. Qed.

Theorem C06_l2_saving_is_saving_of_l2_cost_at_zero : forall (S1 S2 : nat -> R) (s e : nat), (s < e)%nat -> l2_saving_R S1 s e = saving (l2_cost_fixed_R S1 S2 0) (l2_cost_optim_R S1 S2) s e.
Proof. exact @l2_saving_is_saving_of_l2. Qed.

Theorem C06_l2_optim_le_fixed : forall (S1 S2 : nat -> R) (mu : R) (s e : nat), (s < e)%nat -> (l2_cost_optim_R S1 S2 s e <= l2_cost_fixed_R S1 S2 mu s e)%R.
Proof. exact @l2_optim_le_fixed. Qed.

Theorem C06_l2_split_never_increases : forall (S1 S2 : nat -> R) (s k e : nat), (s < k)%nat -> (k < e)%nat -> (l2_cost_optim_R S1 S2 s k + l2_cost_optim_R S1 S2 k e <= l2_cost_optim_R S1 S2 s e)%R.
Proof. exact @l2_split. Qed.

Theorem C06_l2_optim_nonneg : forall (xs : list R) (s e : nat), (s < e)%nat -> (e <= length xs)%nat -> (0 <= l2_cost_optim_R (prefix xs) (prefix (sq xs)) s e)%R.
Proof. exact @l2_optim_nonneg. Qed.

Theorem C06_gaussian_optim_le_fixed : forall (S1 S2 : nat -> R) (mu v : R) (s e : nat), (s < e)%nat -> (floor_var <= V S1 S2 s e)%R -> (0 < v)%R -> (gaussian_var_cost_optim_R S1 S2 s e <= gaussian_var_cost_fixed_R S1 S2 mu v s e)%R.
Proof. exact @gvar_optim_le_fixed. Qed.

Theorem C06_gaussian_split_never_increases : forall (S1 S2 : nat -> R) (s k e : nat), (s < k)%nat -> (k < e)%nat -> (floor_var <= V S1 S2 s k)%R -> (floor_var <= V S1 S2 k e)%R -> (floor_var <= V S1 S2 s e)%R -> (gaussian_var_cost_optim_R S1 S2 s k + gaussian_var_cost_optim_R S1 S2 k e <= gaussian_var_cost_optim_R S1 S2 s e)%R.
Proof. exact @gvar_split. Qed.

Theorem C06_variance_floor : forall (S1 S2 : nat -> R) (s e : nat), (s < e)%nat -> (floor_var <= var_from_sums_R S1 S2 s e)%R.
Proof. exact @var_from_sums_ge_floor. Qed.

Theorem C06_adapter_checker_sound : forall c : ad_case, ad_ok c = true -> match c with | AdChange c_se c_sk c_ke impl => impl = c_se - (c_sk + c_ke) | AdSaving c_fixed c_optim impl => impl = c_fixed - c_optim | AdLocal c_se c_ab c_pool impl => impl = c_se - (c_ab + c_pool) end.
Proof. exact @ad_ok_sound. Qed.

Theorem C06_twin_checker_sound : forall c : kq_case, kq_ok c = true -> QArith_base.Qle (kq_lo c) (kq_value c) /\ QArith_base.Qle (kq_value c) (kq_hi c) /\ QArith_base.Qeq (kq_value c) (kq_direct c).
Proof. exact @kq_ok_sound. Qed.

Print Assumptions C06_change_score_is_cost_difference.
Print Assumptions C06_saving_is_cost_difference.
Print Assumptions C06_local_score_is_cost_difference.
Print Assumptions C06_change_score_nonneg_when_split_holds.
Print Assumptions C06_saving_nonneg_when_optim_le_fixed.
Print Assumptions C06_local_score_nonneg_when_split_holds.
Print Assumptions C06_squared_cusum_is_l2_change_score.
Print Assumptions C06_l2_saving_is_saving_of_l2_cost_at_zero.
Print Assumptions C06_l2_optim_le_fixed.
Print Assumptions C06_l2_split_never_increases.
Print Assumptions C06_l2_optim_nonneg.
Print Assumptions C06_gaussian_optim_le_fixed.
Print Assumptions C06_gaussian_split_never_increases.
Print Assumptions C06_variance_floor.
Print Assumptions C06_adapter_checker_sound.
Print Assumptions C06_twin_checker_sound.

Theorem C06_l2_saving_subadditive : forall (S1 : nat -> R) (s k e : nat), (s < k)%nat -> (k < e)%nat -> (l2_saving_R S1 s e <= l2_saving_R S1 s k + l2_saving_R S1 k e)%R.
Proof. exact @l2_saving_subadditive. Qed.

Theorem C06_l2_saving_split_gap_is_l2_change_score : forall (S1 S2 : nat -> R) (s k e : nat), (s < k)%nat -> (k < e)%nat -> (l2_saving_R S1 s k + l2_saving_R S1 k e - l2_saving_R S1 s e)%R = change_score (l2_cost_optim_R S1 S2) s k e.
Proof. exact @l2_saving_split_gap_is_change_score. Qed.

Theorem C06_fixed_l2_cost_additive : forall (S1 S2 : nat -> R) (mu : R) (s k e : nat), (s <= k)%nat -> (k <= e)%nat -> l2_cost_fixed_R S1 S2 mu s e = (l2_cost_fixed_R S1 S2 mu s k + l2_cost_fixed_R S1 S2 mu k e)%R.
Proof. exact @l2_fixed_additive. Qed.

Theorem C06_fixed_gaussian_cost_additive : forall (S1 S2 : nat -> R) (mu v : R) (s k e : nat), (s <= k)%nat -> (k <= e)%nat -> v <> 0%R -> gaussian_var_cost_fixed_R S1 S2 mu v s e = (gaussian_var_cost_fixed_R S1 S2 mu v s k + gaussian_var_cost_fixed_R S1 S2 mu v k e)%R.
Proof. exact @gvar_fixed_additive. Qed.

Theorem C06_cost_saving_subadditive_when_split_holds : forall (Cf Co : nat -> nat -> R) (s k e : nat), Cf s e = (Cf s k + Cf k e)%R -> (Co s k + Co k e <= Co s e)%R -> (saving Cf Co s e <= saving Cf Co s k + saving Cf Co k e)%R.
Proof. exact @saving_subadditive_of_parts. Qed.

Theorem C06_l2_cost_saving_subadditive : forall (S1 S2 : nat -> R) (mu : R) (s k e : nat), (s < k)%nat -> (k < e)%nat -> (saving (l2_cost_fixed_R S1 S2 mu) (l2_cost_optim_R S1 S2) s e <= saving (l2_cost_fixed_R S1 S2 mu) (l2_cost_optim_R S1 S2) s k + saving (l2_cost_fixed_R S1 S2 mu) (l2_cost_optim_R S1 S2) k e)%R.
Proof. exact @l2_cost_saving_subadditive. Qed.

Theorem C06_gaussian_cost_saving_subadditive_above_floor : forall (S1 S2 : nat -> R) (mu v : R) (s k e : nat), (s < k)%nat -> (k < e)%nat -> v <> 0%R -> (floor_var <= V S1 S2 s k)%R -> (floor_var <= V S1 S2 k e)%R -> (floor_var <= V S1 S2 s e)%R -> (saving (gaussian_var_cost_fixed_R S1 S2 mu v) (gaussian_var_cost_optim_R S1 S2) s e <= saving (gaussian_var_cost_fixed_R S1 S2 mu v) (gaussian_var_cost_optim_R S1 S2) s k + saving (gaussian_var_cost_fixed_R S1 S2 mu v) (gaussian_var_cost_optim_R S1 S2) k e)%R.
Proof. exact @gvar_cost_saving_subadditive. Qed.

Theorem C06_gaussian_split_can_fail_at_the_floor : let W := fun n V : R => (n * ln (2 * PI * Rmax V floor_var) + n)%R in exists nb na Vb Va Vn : R, (0 < nb)%R /\ (0 < na)%R /\ (0 <= Vb)%R /\ (0 <= Va)%R /\ (nb * Vb + na * Va)%R = ((nb + na) * Vn)%R /\ (W (nb + na) Vn < W nb Vb + W na Va)%R.
Proof. exact @gvar_split_can_fail_at_the_floor. Qed.

Print Assumptions C06_l2_saving_subadditive.
Print Assumptions C06_l2_saving_split_gap_is_l2_change_score.
Print Assumptions C06_fixed_l2_cost_additive.
Print Assumptions C06_fixed_gaussian_cost_additive.
Print Assumptions C06_cost_saving_subadditive_when_split_holds.
Print Assumptions C06_l2_cost_saving_subadditive.
Print Assumptions C06_gaussian_cost_saving_subadditive_above_floor.
Print Assumptions C06_gaussian_split_can_fail_at_the_floor.

From SK Require Import Check.FloatKernelCheck2 Proofs.FloatError Proofs.FloatRefine Proofs.FloatKernels2.
Open Scope R_scope.
(** Flocq rounding model and the primitive-float program of the CUSUM score: Proofs/FloatKernels2.v *)
Theorem C06_float_cusum_error : forall (l : list R) (s k e : nat), (s < k)%nat -> (k < e)%nat -> INR e * u53 <= 1 / 100 -> Rabs (cusum_float53 l s k e - cusum_score_R (prefix l) s k e) <= (204 / 100 * INR e + 6) * u53 * (cusum_bw s k e * sumR (map Rabs (firstn e l)) + cusum_aw s k e * sumR (map Rabs (firstn e l))).
Proof. exact @cusum_float53_error. Qed.

Theorem C06_primitive_float_cusum_program_refines_rounding_model : forall (l : list PrimFloat.float) (s k e : nat), cusum_trace_ok l s k e = true -> FR (cusum_F l s k e) = cusum_float53 (map FR l) s k e.
Proof. exact @cusum_F_refines. Qed.

Theorem C06_primitive_float_cusum_within_bound_of_real_score : forall (l : list PrimFloat.float) (s k e : nat), cusum_trace_ok l s k e = true -> INR e * u53 <= 1 / 100 -> Rabs (FR (cusum_F l s k e) - cusum_score_R (prefix (map FR l)) s k e) <= (204 / 100 * INR e + 6) * u53 * (cusum_bw s k e * sumR (map Rabs (firstn e (map FR l))) + cusum_aw s k e * sumR (map Rabs (firstn e (map FR l)))).
Proof. exact @cusum_F_vs_score_R. Qed.

Theorem C06_primitive_float_sqrt_is_binary64_rounding : forall x : PrimFloat.float, FR (PrimFloat.sqrt x) = rnd_binary64 (sqrt (FR x)).
Proof. exact @FR_sqrt. Qed.

Print Assumptions C06_float_cusum_error.
Print Assumptions C06_primitive_float_cusum_program_refines_rounding_model.
Print Assumptions C06_primitive_float_cusum_within_bound_of_real_score.
Print Assumptions C06_primitive_float_sqrt_is_binary64_rounding.
