(** C08, transferred: the specification theorems of the greedy search for ANY number type whose comparison is a strict weak order on the
    values read (Proofs/GenericSpec.v), and their instances for binary64
    scores without NaN (Proofs/GenericInstances.v: PrimFloat.ltb is a strict weak order on non-NaN floats, infinities included). *)
From Coq Require Import List Bool Arith Floats.
From SK Require Import Model.Mw Model.Generic Model.GenericF.
From SK Require Import Proofs.GenericRank Proofs.GenericOrder Proofs.GenericSpec Proofs.GenericInstances.
Import ListNotations.


Theorem C08_float_F64_swo : swo F64 nonnan.
Proof. exact @F64_swo. Qed.

Theorem C08_float_F64_C08_run : forall (CS : nat -> nat -> nat -> float) (b n : nat) (thr : float) (mdi : nat) (scores : list (T F64)) (cpts : list nat), (forall t : nat, (b <= t)%nat -> (t + b <= n)%nat -> nonnan (CS (t - b)%nat t (t + b)%nat)) -> nonnan thr -> gmw F64 CS b n thr mdi = (scores, cpts) -> scores = gmw_scores F64 CS b n /\ Forall nonnan scores /\ Sorted.StronglySorted lt cpts /\ (forall c : nat, In c cpts <-> (exists a z : nat, In (a, z) (where_runs (map (fun v : float => (thr <? v)%float) scores)) /\ (mdi <= z - a)%nat /\ (a <= c < z)%nat /\ (forall i : nat, (a <= i < z)%nat -> (nthV F64 scores c <? nthV F64 scores i)%float = false) /\ (forall i : nat, (a <= i < c)%nat -> (nthV F64 scores i <? nthV F64 scores c)%float = true))).
Proof. exact @F64_C08_run. Qed.

Theorem C08_float_F64_C08_changepoints_in_range : forall (CS : nat -> nat -> nat -> float) (b n : nat) (thr : float) (mdi c : nat), (forall t : nat, (b <= t)%nat -> (t + b <= n)%nat -> nonnan (CS (t - b)%nat t (t + b)%nat)) -> nonnan thr -> (thr <? 0)%float = false -> In c (snd (gmw F64 CS b n thr mdi)) -> (b <= c)%nat /\ (c + b <= n)%nat.
Proof. exact @F64_C08_changepoints_in_range. Qed.

Theorem C08_float_F64_C08_changepoints_above_threshold : forall (scores : list float) (thr : float) (mdi c : nat), Forall nonnan scores -> nonnan thr -> In c (gmw_cpts F64 scores thr mdi) -> (c < length scores)%nat /\ (thr <? nthV F64 scores c)%float = true.
Proof. exact @F64_C08_changepoints_above_threshold. Qed.

Theorem C08_any_order_G08_changepoints_are_run_peaks : forall (N : num) (ok : T N -> Prop), swo N ok -> ok (zero N) -> forall (scores : list (T N)) (thr : T N) (mdi c : nat), Forall ok scores -> ok thr -> In c (gmw_cpts N scores thr mdi) <-> (exists a z : nat, In (a, z) (where_runs (map (fun v : T N => ltb N thr v) scores)) /\ (mdi <= z - a)%nat /\ (a <= c < z)%nat /\ (forall i : nat, (a <= i < z)%nat -> ltb N (nthV N scores c) (nthV N scores i) = false) /\ (forall i : nat, (a <= i < c)%nat -> ltb N (nthV N scores i) (nthV N scores c) = true)).
Proof. exact @G08_changepoints_are_run_peaks. Qed.

Theorem C08_any_order_G08_scores : forall (N : num) (CS : nat -> nat -> nat -> T N) (b n t : nat), (t < n)%nat -> length (gmw_scores N CS b n) = n /\ nthV N (gmw_scores N CS b n) t = (if (b <=? t)%nat && (t + b <=? n)%nat then CS (t - b)%nat t (t + b)%nat else zero N).
Proof. exact @G08_scores. Qed.

Theorem C08_any_order_G08_reversal : forall (N : num) (CS : nat -> nat -> nat -> T N) (b n t : nat), (1 <= t < n)%nat -> nthV N (gmw_scores N (fun s k e : nat => CS (n - e)%nat (n - k)%nat (n - s)%nat) b n) t = nthV N (gmw_scores N CS b n) (n - t).
Proof. exact @G08_reversal. Qed.

Print Assumptions C08_float_F64_swo.
Print Assumptions C08_float_F64_C08_run.
Print Assumptions C08_float_F64_C08_changepoints_in_range.
Print Assumptions C08_float_F64_C08_changepoints_above_threshold.
Print Assumptions C08_any_order_G08_changepoints_are_run_peaks.
Print Assumptions C08_any_order_G08_scores.
Print Assumptions C08_any_order_G08_reversal.
