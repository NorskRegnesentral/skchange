(** C03 END TO END in binary64, CAPA with the L2 saving on SEVERAL columns, every beta negligible (what the CAPA class uses).  `penalise_savings` adds the row of per-column savings with
    `savings.sum(axis=1)`: for fewer than 8 columns NumPy adds sequentially from the left starting from the first element, which IS `gsum` of Model/GenericCapa.v (the left fold).  All
    premises boolean (`cols_length_ok`, `l2_saving_all_trace_ok_cols`, `capa_trace_finite`, `capa_mag_ok`, `sav_agg_mag_ok`, `l2_absmax_ok_cols`).  Objective: the column sum of the L2
    savings minus the penalty (the one of `C03_builtin_l2_saving_end_to_end` for several columns, `PcR (l2Sc ..) alpha (repeat 0 p)`). *)
From Coq Require Import Reals List PrimFloat.
From SK Require Import Model.Capa Model.CapaR Model.Generic Model.GenericF Model.GenericCapa Proofs.CapaSpec Proofs.CapaReal Proofs.RealLib Gen.KernelsR Proofs.FloatError Proofs.GenericCapaWf Proofs.CapaFloat Proofs.PeltFloatL2Multi Proofs.CapaFloatL2 Proofs.CapaFloatL2Multi.
Import ListNotations.


Theorem C03_binary64_l2_columns_row_sum_is_numpy_order : forall cs : list float, gsum F64 cs = aggF cs.
Proof. exact @gsum_F64_is_aggF. Qed.

Theorem C03_binary64_l2_columns_penalised_saving_shape : forall (sav : list float) (alpha : float) (p : nat), gpenalise F64 F64_tiny sav alpha (repeat 0%float p) = (gsum F64 sav + - alpha)%float.
Proof. exact @penalise_l2_multi_shape. Qed.

Theorem C03_binary64_l2_columns_objective_is_the_real_models : forall (ls : list (list float)) (alpha : R) (p s e : nat), PcR (l2Sc (map (map FR) ls)) alpha (repeat 0 p) s e = sumRl (map (fun l => l2_saving_R (prefix (map FR l)) s e) ls) - alpha.
Proof. exact @l2_multi_pc_is_PcR. Qed.

Theorem C03_binary64_l2_columns_end_to_end : forall (ls : list (list float)) (acf apf Magf Bf : float) (m M n : nat) (scoresF : list float) (c pa : list (nat * nat)), let p := length ls in let z := repeat 0%float p in (2 <= m)%nat -> (m <= M)%nat -> INR n * u53 <= 1 / 100 -> (1 <= p)%nat -> cols_length_ok ls n = true -> l2_saving_all_trace_ok_cols ls = true -> capa_trace_finite F64_tiny (l2ScFM ls) (l2SpFM ls) acf apf z z m M (m - 1) n = true -> capa_mag_ok F64_tiny (l2ScFM ls) (l2SpFM ls) acf apf z z m M (m - 1) n Magf = true -> sav_agg_mag_ok ls n Magf = true -> l2_absmax_ok_cols ls Bf = true -> gcapa F64 F64_tiny (l2ScFM ls) (l2SpFM ls) acf z apf z m M (m - 1) n = (scoresF, c, pa) -> let pc := fun s e : nat => sumRl (map (fun l => l2_saving_R (prefix (map FR l)) s e) ls) - FR acf in let pp := fun t : nat => sumRl (map (fun l => l2_saving_R (prefix (map FR l)) t (S t)) ls) - FR apf in let out := map to_anom (capa_predict false c pa) in let Mag := FR Magf / (1 - u53) in let delta := (42 / 10 * INR n + 5) * u53 * (INR n * FR Bf) ^ 2 in Valid m M out n /\ (forall l' : list anom, Valid m M l' n -> totalR pc pp l' <= totalR pc pp out + 3 * INR n * (INR p * delta + (INR p + 1) * u53 * Mag)).
Proof. exact @capa_F64_l2_multi_end_to_end. Qed.

Theorem C03_binary64_l2_columns_final_score : forall (ls : list (list float)) (acf apf Magf Bf : float) (m M n : nat) (scoresF : list float) (c pa : list (nat * nat)), let p := length ls in let z := repeat 0%float p in (2 <= m)%nat -> (m <= M)%nat -> (1 <= n)%nat -> INR n * u53 <= 1 / 100 -> (1 <= p)%nat -> cols_length_ok ls n = true -> l2_saving_all_trace_ok_cols ls = true -> capa_trace_finite F64_tiny (l2ScFM ls) (l2SpFM ls) acf apf z z m M (m - 1) n = true -> capa_mag_ok F64_tiny (l2ScFM ls) (l2SpFM ls) acf apf z z m M (m - 1) n Magf = true -> sav_agg_mag_ok ls n Magf = true -> l2_absmax_ok_cols ls Bf = true -> gcapa F64 F64_tiny (l2ScFM ls) (l2SpFM ls) acf z apf z m M (m - 1) n = (scoresF, c, pa) -> let pc := fun s e : nat => sumRl (map (fun l => l2_saving_R (prefix (map FR l)) s e) ls) - FR acf in let pp := fun t : nat => sumRl (map (fun l => l2_saving_R (prefix (map FR l)) t (S t)) ls) - FR apf in let out := map to_anom (capa_predict false c pa) in let Mag := FR Magf / (1 - u53) in let delta := (42 / 10 * INR n + 5) * u53 * (INR n * FR Bf) ^ 2 in Rabs (FR (nthV F64 scoresF (n - 1)) - totalR pc pp out) <= INR n * (INR p * delta + (INR p + 1) * u53 * Mag).
Proof. exact @capa_F64_l2_multi_final_score. Qed.

Theorem C03_binary64_l2_columns_one_column_is_the_one_column_run : forall (l : list float) (acf apf : float) (m M n : nat), gcapa F64 F64_tiny (l2ScFM [l]) (l2SpFM [l]) acf (repeat 0%float 1) apf (repeat 0%float 1) m M (m - 1) n = gcapa F64 F64_tiny (l2ScF l) (l2SpF l) acf [0%float] apf [0%float] m M (m - 1) n.
Proof. exact @capa_multi_one_column_run. Qed.

Theorem C03_binary64_l2_columns_example_within_1e9_of_optimal : forall l' : list anom, Valid 2 4 l' 8 -> totalR (fun s e : nat => sumRl (map (fun xs => l2_saving_R (prefix xs) s e) m3_colsR) - 12) (fun t : nat => sumRl (map (fun xs => l2_saving_R (prefix xs) t (S t)) m3_colsR) - 20) l' <= 13069 / 192 + 1 / 1000000000.
Proof. exact @m3_end_to_end_1e9. Qed.

Print Assumptions C03_binary64_l2_columns_row_sum_is_numpy_order.
Print Assumptions C03_binary64_l2_columns_penalised_saving_shape.
Print Assumptions C03_binary64_l2_columns_objective_is_the_real_models.
Print Assumptions C03_binary64_l2_columns_end_to_end.
Print Assumptions C03_binary64_l2_columns_final_score.
Print Assumptions C03_binary64_l2_columns_one_column_is_the_one_column_run.
Print Assumptions C03_binary64_l2_columns_example_within_1e9_of_optimal.
