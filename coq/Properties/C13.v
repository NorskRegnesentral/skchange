(** C13 -- evaluate either rejects a cuts array or scores exactly the cuts it describes.
    The last five theorems are about machine integers: why check_cuts_array widens every
    integer dtype to int64 before it tests anything. *)
From Coq Require Import ZArith List.
From SK Require Import Lib.Base Model.Cuts Proofs.CutsProofs.

Theorem C13_accepts_iff_valid : forall (A : Type) (score : list Z -> A) sk n arg r,
  evaluate score sk n arg = Some r <->
  exists rows, arg = IntRows (width_of sk) rows /\ Forall (row_valid sk n) rows /\ r = map score rows.
Proof. exact @evaluate_accepts_iff. Qed.
Print Assumptions C13_accepts_iff_valid.

Theorem C13_never_scores_invalid : forall (A : Type) (score : list Z -> A) sk n w rows r,
  (match sk with Plain _ ms => (1 <= ms)%Z | Local _ => True end) ->
  evaluate score sk n (IntRows w rows) = Some r ->
  forall row, In row rows ->
    (forall x, In x row -> (0 <= x <= n)%Z) /\
    (forall i j, (i < j < length row)%nat -> (nthZ row i < nthZ row j)%Z).
Proof. exact @evaluate_never_scores_invalid. Qed.
Print Assumptions C13_never_scores_invalid.

Theorem C13_rejects_nonint_and_3d : forall (A : Type) (score : list Z -> A) sk n,
  evaluate score sk n NonInt = None /\ evaluate score sk n Dim3 = None.
Proof. exact @evaluate_rejects_nonint_and_3d. Qed.
Print Assumptions C13_rejects_nonint_and_3d.

Theorem C13_rejects_wrong_width : forall (A : Type) (score : list Z -> A) sk n w rows,
  w <> width_of sk -> evaluate score sk n (IntRows w rows) = None.
Proof. exact @evaluate_rejects_wrong_width. Qed.
Print Assumptions C13_rejects_wrong_width.

(** Machine integers (defects D22, D24 of DESIGN.md): in an unsigned or a narrow dtype the
    differences and products that the tests and the scores compute wrap around; in int64 they are
    exact.  Arithmetic on [wrapu] / [wraps] over Z only: [evaluate], whose rows are over Z, does
    not occur.  [_refuted] names the defect that is shown to exist. *)
Theorem C13_unsigned_differences_accept_a_decreasing_row_refuted : exists w a b min_size : Z, b < a /\ 0 <= b /\ a < 2 ^ w /\ 1 <= min_size <= wrapu w (b - a).
Proof. exact @unsigned_diff_accepts_decreasing_row_refuted. Qed.

Theorem C13_narrow_dtype_position_product_wraps_refuted : exists w n nb : Z, 0 < nb < n /\ n < 2 ^ (w - 1) /\ wraps w (n * nb) <> n * nb.
Proof. exact @narrow_dtype_product_wraps_refuted. Qed.

Theorem C13_int64_holds_every_narrower_value : forall w x : Z, 1 <= w <= 63 -> 0 <= x < 2 ^ w -> wraps 64 x = x.
Proof. exact @int64_holds_every_narrower_value. Qed.

Theorem C13_int64_differences_exact : forall a b : Z, 0 <= a < 2 ^ 62 -> 0 <= b < 2 ^ 62 -> wraps 64 (b - a) = b - a.
Proof. exact @int64_differences_exact. Qed.

Theorem C13_int64_position_products_exact : forall n a : Z, 0 <= a <= n -> n < 2 ^ 31 -> wraps 64 (n * a) = n * a.
Proof. exact @int64_position_products_exact. Qed.

Print Assumptions C13_unsigned_differences_accept_a_decreasing_row_refuted.
Print Assumptions C13_narrow_dtype_position_product_wraps_refuted.
Print Assumptions C13_int64_holds_every_narrower_value.
Print Assumptions C13_int64_differences_exact.
Print Assumptions C13_int64_position_products_exact.
