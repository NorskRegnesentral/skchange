(** C14 -- documented-valid configurations always run; invalid ones fail with ValueError.

    Model/Config.v states which (detector, configuration, data shape) combinations must end in
    ValueError and which must complete; the correspondence run enumerates the grid and compares
    the real outcome class with [expected].  The theorems below say (i) what [expected] means in
    terms of the documented domain, (ii) that inside the domain -- including the boundary values
    min_segment_length = 1, bandwidth = 1, max_interval_length = 2 * min_segment_length and n at
    the minimum length -- the algorithm models are total and their search ranges non-empty
    (the places where the originally pinned code crashed or silently detected nothing). *)
From Coq Require Import ZArith List Bool Lia.
From SK Require Import Lib.Base Model.Config Model.Sbs Model.Cbs Model.Mw Model.Pelt Model.Capa.
From SK Require Import Proofs.SbsProofs Proofs.MwProofs Proofs.PeltRefine.
Import ListNotations.
Open Scope Z_scope.

From SK Require Import Model.Cuts Proofs.ValidCuts Proofs.GreedyZ.
(** (i) the run completes exactly on the documented domain *)
Theorem C14_completes_iff : forall d c n nan,
  expected d c n nan = Completes <->
  config_ok d c = true /\ nan = false /\ min_len d c <= n /\ scorer_ok d c = true.
Proof.
  intros d c n nan. unfold expected.
  destruct (config_ok d c); cbn [negb]; [|split; [discriminate|intros (H & _); discriminate]].
  destruct nan; [split; [discriminate|intros (_ & H & _); discriminate]|].
  destruct (n <? min_len d c) eqn:En.
  - apply Z.ltb_lt in En. split; [discriminate|intros (_ & _ & H & _); lia].
  - apply Z.ltb_ge in En. destruct (scorer_ok d c); cbn [negb].
    + split; [intros _; repeat split; auto|reflexivity].
    + split; [discriminate|intros (_ & _ & _ & H); discriminate].
Qed.

(** ValueError is mandatory exactly outside the documented domain / on missing values / on short data *)
Theorem C14_must_raise_iff : forall d c n nan,
  expected d c n nan = RaisesValueError <-> config_ok d c = false \/ nan = true \/ n < min_len d c.
Proof.
  intros d c n nan. unfold expected.
  destruct (config_ok d c); cbn [negb]; [|split; [intros _; left; reflexivity|reflexivity]].
  destruct nan; [split; [intros _; right; left; reflexivity|reflexivity]|].
  destruct (n <? min_len d c) eqn:En.
  - apply Z.ltb_lt in En. split; [intros _; right; right; exact En|reflexivity].
  - apply Z.ltb_ge in En. destruct (scorer_ok d c); cbn [negb];
      (split; [discriminate|intros [H|[H|H]]; [discriminate|discriminate|lia]]).
Qed.

Theorem C14_invalid_configuration_raises : forall d c n nan, config_ok d c = false -> expected d c n nan = RaisesValueError.
Proof. intros d c n nan H. unfold expected. rewrite H. reflexivity. Qed.
Theorem C14_missing_values_raise : forall d c n, expected d c n true = RaisesValueError.
Proof. intros d c n. unfold expected. destruct (config_ok d c); reflexivity. Qed.
Theorem C14_short_data_raise : forall d c n nan, n < min_len d c -> expected d c n nan = RaisesValueError.
Proof.
  intros d c n nan H. unfold expected. destruct (config_ok d c); cbn [negb]; [|reflexivity].
  destruct nan; [reflexivity|]. apply Z.ltb_lt in H. rewrite H. reflexivity.
Qed.
Theorem C14_anomaliser_bounds : forall d c n nan, expected_anomaliser false d c n nan = RaisesValueError.
Proof. reflexivity. Qed.

(** the documented domains, spelled out *)
Theorem C14_domains : forall c,
  (config_ok Pelt c = true <-> c_scales_ok c = true /\ 1 <= c_m c) /\
  (config_ok Mw c = true <-> c_scales_ok c = true /\ 1 <= c_b c /\ 1 <= c_mdi c /\ (c_mdi c <= 1 \/ 2 * c_mdi c + 2 <= c_b c)) /\
  (config_ok Sbs c = true <-> c_scales_ok c = true /\ 1 <= c_m c /\ 2 * c_m c <= c_M c /\ c_gf_ok c = true) /\
  (config_ok Cbs c = true <-> config_ok Sbs c = true) /\
  (config_ok Capa c = true <-> c_scales_ok c = true /\ 2 <= c_m c /\ c_m c <= c_M c /\ c_pms c = 1) /\
  (config_ok Mvcapa c = true <-> config_ok Capa c = true).
Proof.
  intros c. unfold config_ok.
  rewrite !andb_true_iff, !orb_true_iff, !Z.leb_le, !Z.eqb_eq. tauto.
Qed.

(** (ii) boundary values: the search ranges are non-empty and the models total *)
(** seeded intervals exist for every n >= 2m, also when max_interval_length = 2m *)
Theorem C14_sbs_runs : forall CS m thr n maxlen lens, 0 <= thr -> (1 <= m)%nat -> (2 * m <= n)%nat ->
  lens <> [] -> (forall len step, In (len, step) lens -> (2 * m <= len <= Nat.min maxlen n /\ 1 <= step)%nat) ->
  seeded_intervals n (2 * m) lens <> [] /\ exists r, sbs CS m thr (seeded_intervals n (2 * m) lens) = Some r.
Proof.
  intros CS m thr n maxlen lens Hthr Hm Hn Hne Hl.
  assert (Hl' : forall len step, In (len, step) lens -> (2 * m <= len <= n /\ 1 <= step)%nat).
  { intros len step H. specialize (Hl len step H). lia. }
  assert (Hn' : (1 <= 2 * m <= n)%nat) by lia.
  split; [apply seeded_nonempty; auto|].
  apply (sbs_total CS m thr n); auto.
  intros s e H. destruct (seeded_in_range n (2 * m) lens Hn' Hl' s e H) as [(H1 & H2 & H3) _]. lia.
Qed.
(** circular binary segmentation is total for every m >= 1, including candidates without an inner interval *)
Theorem C14_cbs_runs : forall LS m thr ivs, 0 <= thr -> exists r, cbs LS m thr ivs = Some r.
Proof. exact cbs_total. Qed.
(** moving window with bandwidth 1: the score at every b <= t <= n - b is the symmetric change score (a valid, increasing cut) *)
Theorem C14_mw_bandwidth_one : forall CS n t, (1 <= t)%nat -> (t + 1 <= n)%nat ->
  nthZ (mw_scores CS 1 n) t = CS (t - 1)%nat t (t + 1)%nat.
Proof.
  intros CS n t H1 H2. rewrite mw_scores_nth by lia.
  replace ((1 <=? t)%nat && (t + 1 <=? n)%nat) with true; [reflexivity|].
  symmetry. apply andb_true_iff. split; apply Nat.leb_le; lia.
Qed.
(** PELT returns an admissible segmentation for every m >= 1 and n >= 2m, in particular n = 2m *)
Theorem C14_pelt_minimum_length : forall C pen m, (1 <= m)%nat -> Proofs.PeltSpec.Adm m (snd (pelt C pen m (m - 1) (2 * m))) (2 * m).
Proof. intros C pen m Hm. apply pelt_adm; [assumption|lia]. Qed.

Print Assumptions C14_completes_iff.
Print Assumptions C14_must_raise_iff.
Print Assumptions C14_invalid_configuration_raises.
Print Assumptions C14_missing_values_raise.
Print Assumptions C14_short_data_raise.
Print Assumptions C14_anomaliser_bounds.
Print Assumptions C14_domains.
Print Assumptions C14_sbs_runs.
Print Assumptions C14_cbs_runs.
Print Assumptions C14_mw_bandwidth_one.
Print Assumptions C14_pelt_minimum_length.

(** no model asks its scorer for a cut that [evaluate] would reject: the runs depend on the scores at
    valid cuts only (Proofs/ValidCuts.v) *)
Theorem C14_pelt_asks_only_valid_cuts : forall (C1 C2 : nat -> nat -> Z) (pen : Z) (m n : nat), (1 <= m)%nat -> (2 * m <= n)%nat -> (forall s e : nat, (s + m <= e)%nat -> (e <= n)%nat -> C1 s e = C2 s e) -> pelt C1 pen m (m - 1) n = pelt C2 pen m (m - 1) n.
Proof. exact @pelt_ext_valid. Qed.

Theorem C14_moving_window_asks_only_valid_cuts : forall (CS1 CS2 : nat -> nat -> nat -> Z) (b n : nat) (thr : Z) (mdi : nat), (forall t : nat, (b <= t)%nat -> (t + b <= n)%nat -> CS1 (t - b)%nat t (t + b)%nat = CS2 (t - b)%nat t (t + b)%nat) -> mw CS1 b n thr mdi = mw CS2 b n thr mdi.
Proof. exact @mw_ext_valid. Qed.

Theorem C14_sbs_asks_only_valid_cuts : forall (CS1 CS2 : nat -> nat -> nat -> Z) (m : nat) (thr : Z) (ivs : list (nat * nat)), (forall s e k : nat, In (s, e) ivs -> (s + m <= k)%nat -> (k + m <= e)%nat -> CS1 s k e = CS2 s k e) -> sbs CS1 m thr ivs = sbs CS2 m thr ivs.
Proof. exact @sbs_ext_valid. Qed.

Theorem C14_cbs_asks_only_valid_cuts : forall (LS1 LS2 : nat -> nat -> nat -> nat -> Z) (m : nat) (thr : Z) (ivs : list (nat * nat)), (forall s e a z : nat, In (s, e) ivs -> (s < a)%nat -> (a + m <= z)%nat -> (z < e)%nat -> (m <= a - s + (e - z))%nat -> LS1 s a z e = LS2 s a z e) -> cbs LS1 m thr ivs = cbs LS2 m thr ivs.
Proof. exact @cbs_ext_valid_arith. Qed.

Theorem C14_capa_asks_only_valid_cuts : forall (Sc1 Sc2 : nat -> nat -> list Z) (Sp1 Sp2 : nat -> list Z) (ac : Z) (bc : list Z) (ap : Z) (bp : list Z) (m M delay n : nat), (1 <= m)%nat -> (m <= M)%nat -> (forall s e : nat, (s + m <= e)%nat -> (e <= s + M)%nat -> (e <= n)%nat -> Sc1 s e = Sc2 s e) -> (forall t : nat, (t < n)%nat -> Sp1 t = Sp2 t) -> capa Sc1 Sp1 ac bc ap bp m M delay n = capa Sc2 Sp2 ac bc ap bp m M delay n.
Proof. exact @capa_ext_valid_maxlen. Qed.

Theorem C14_interval_cut_accepted : forall (ms : Z) (m s e n : nat), ms <= Z.of_nat m -> (s + m <= e)%nat -> (e <= n)%nat -> (1 <= m)%nat -> row_ok (Plain 2 ms) (Z.of_nat n) [Z.of_nat s; Z.of_nat e] = true.
Proof. exact @plain2_cut_ok. Qed.

Theorem C14_split_cut_accepted : forall (ms : Z) (m s k e n : nat), ms <= Z.of_nat m -> (s + m <= k)%nat -> (k + m <= e)%nat -> (e <= n)%nat -> (1 <= m)%nat -> row_ok (Plain 3 ms) (Z.of_nat n) [Z.of_nat s; Z.of_nat k; Z.of_nat e] = true.
Proof. exact @plain3_cut_ok. Qed.

Theorem C14_window_cut_accepted : forall (ms : Z) (b t n : nat), ms <= Z.of_nat b -> (b <= t)%nat -> (t + b <= n)%nat -> (1 <= b)%nat -> row_ok (Plain 3 ms) (Z.of_nat n) [Z.of_nat (t - b); Z.of_nat t; Z.of_nat (t + b)] = true.
Proof. exact @mw_cut_ok. Qed.

Theorem C14_local_cut_accepted : forall (ms : Z) (m s a z e n : nat), ms <= Z.of_nat m -> (s < a)%nat -> (a + m <= z)%nat -> (z < e)%nat -> (m <= a - s + (e - z))%nat -> (e <= n)%nat -> (1 <= m)%nat -> row_ok (Local ms) (Z.of_nat n) [Z.of_nat s; Z.of_nat a; Z.of_nat z; Z.of_nat e] = true.
Proof. exact @local_cut_ok. Qed.

Print Assumptions C14_pelt_asks_only_valid_cuts.
Print Assumptions C14_moving_window_asks_only_valid_cuts.
Print Assumptions C14_sbs_asks_only_valid_cuts.
Print Assumptions C14_cbs_asks_only_valid_cuts.
Print Assumptions C14_capa_asks_only_valid_cuts.
Print Assumptions C14_interval_cut_accepted.
Print Assumptions C14_split_cut_accepted.
Print Assumptions C14_window_cut_accepted.
Print Assumptions C14_local_cut_accepted.
