(** C07, transferred: the specification theorems of the greedy search for ANY number type whose comparison is a strict weak order on the
    values read (Proofs/GenericSpec.v), and their instances for binary64
    scores without NaN (Proofs/GenericInstances.v: PrimFloat.ltb is a strict weak order on non-NaN floats, infinities included). *)
From Coq Require Import List Floats.
From SK Require Import Lib.Base Model.Sbs Model.Generic Model.GenericF.
From SK Require Import Proofs.GenericRank Proofs.GenericOrder Proofs.GenericSpec Proofs.GenericInstances.
Import ListNotations.


Theorem C07_float_F64_swo : swo F64 nonnan.
Proof. exact @F64_swo. Qed.

Theorem C07_float_F64_C07_total : forall (CS : nat -> nat -> nat -> float) (m n : nat) (thr : float) (ivs : list (nat * nat)), (forall s e k : nat, In (s, e) ivs -> (s + m <= k)%nat -> (k + m <= e)%nat -> nonnan (CS s k e)) -> nonnan thr -> (thr <? 0)%float = false -> (1 <= m)%nat -> (forall s e : nat, In (s, e) ivs -> (s + 2 * m <= e <= n)%nat) -> exists r : list nat * list (nat * T F64), gsbs F64 CS m thr ivs = Some r.
Proof. exact @F64_C07_total. Qed.

Theorem C07_float_F64_C07_interval_scores : forall (CS : nat -> nat -> nat -> float) (m n : nat) (thr : float) (ivs : list (nat * nat)), (forall s e k : nat, In (s, e) ivs -> (s + m <= k)%nat -> (k + m <= e)%nat -> nonnan (CS s k e)) -> nonnan thr -> (thr <? 0)%float = false -> (1 <= m)%nat -> (forall s e : nat, In (s, e) ivs -> (s + 2 * m <= e <= n)%nat) -> forall (cpts : list nat) (am : list (nat * float)), gsbs F64 CS m thr ivs = Some (cpts, am) -> length am = length ivs /\ (forall i : nat, (i < length ivs)%nat -> let '(s, e) := nth i ivs (0%nat, 0%nat) in let '(k, v) := nth i am (0%nat, 0%float) in ((s + m <= k)%nat /\ (k + m <= e)%nat) /\ v = CS s k e /\ (forall k' : nat, (s + m <= k')%nat /\ (k' + m <= e)%nat -> (v <? CS s k' e)%float = false /\ ((k' < k)%nat -> (CS s k' e <? v)%float = true))).
Proof. exact @F64_C07_interval_scores. Qed.

Theorem C07_float_F64_C07_changepoints_supported : forall (CS : nat -> nat -> nat -> float) (m n : nat) (thr : float) (ivs : list (nat * nat)), (forall s e k : nat, In (s, e) ivs -> (s + m <= k)%nat -> (k + m <= e)%nat -> nonnan (CS s k e)) -> nonnan thr -> (thr <? 0)%float = false -> (1 <= m)%nat -> (forall s e : nat, In (s, e) ivs -> (s + 2 * m <= e <= n)%nat) -> forall (cpts : list nat) (am : list (nat * float)), gsbs F64 CS m thr ivs = Some (cpts, am) -> forall c : nat, In c cpts -> exists i : nat, (i < length ivs)%nat /\ fst (nth i am (0%nat, 0%float)) = c /\ (thr <? snd (nth i am (0%nat, 0)))%float = true /\ contains (nth i ivs (0%nat, 0%nat)) c = true.
Proof. exact @F64_C07_changepoints_supported. Qed.

Theorem C07_float_F64_C07_no_interval_left : forall (CS : nat -> nat -> nat -> float) (m n : nat) (thr : float) (ivs : list (nat * nat)), (forall s e k : nat, In (s, e) ivs -> (s + m <= k)%nat -> (k + m <= e)%nat -> nonnan (CS s k e)) -> nonnan thr -> (thr <? 0)%float = false -> (1 <= m)%nat -> (forall s e : nat, In (s, e) ivs -> (s + 2 * m <= e <= n)%nat) -> forall (cpts : list nat) (am : list (nat * float)), gsbs F64 CS m thr ivs = Some (cpts, am) -> forall i : nat, (i < length ivs)%nat -> (thr <? snd (nth i am (0%nat, 0)))%float = true -> exists c : nat, In c cpts /\ contains (nth i ivs (0%nat, 0%nat)) c = true.
Proof. exact @F64_C07_no_interval_left. Qed.

Theorem C07_float_F64_C07_changepoints_wellformed : forall (CS : nat -> nat -> nat -> float) (m n : nat) (thr : float) (ivs : list (nat * nat)), (forall s e k : nat, In (s, e) ivs -> (s + m <= k)%nat -> (k + m <= e)%nat -> nonnan (CS s k e)) -> nonnan thr -> (thr <? 0)%float = false -> (1 <= m)%nat -> (forall s e : nat, In (s, e) ivs -> (s + 2 * m <= e <= n)%nat) -> forall (cpts : list nat) (am : list (nat * float)), gsbs F64 CS m thr ivs = Some (cpts, am) -> (forall i : nat, (S i < length cpts)%nat -> (nthN cpts i + m <= nthN cpts (S i))%nat) /\ (forall c : nat, In c cpts -> (m <= c)%nat /\ (c + m <= n)%nat).
Proof. exact @F64_C07_changepoints_wellformed. Qed.

Theorem C07_float_F64_C07_threshold_monotone : forall (CS : nat -> nat -> nat -> float) (m n : nat) (thr : float) (ivs : list (nat * nat)), (forall s e k : nat, In (s, e) ivs -> (s + m <= k)%nat -> (k + m <= e)%nat -> nonnan (CS s k e)) -> nonnan thr -> (thr <? 0)%float = false -> (1 <= m)%nat -> (forall s e : nat, In (s, e) ivs -> (s + 2 * m <= e <= n)%nat) -> forall (cpts : list nat) (am : list (nat * float)), gsbs F64 CS m thr ivs = Some (cpts, am) -> forall (thr' : float) (cpts' : list nat) (am' : list (nat * T F64)), nonnan thr' -> (thr' <? thr)%float = false -> gsbs F64 CS m thr' ivs = Some (cpts', am') -> incl cpts' cpts.
Proof. exact @F64_C07_threshold_monotone. Qed.

Theorem C07_any_order_G07_interval_scores : forall (N : num) (ok : T N -> Prop), swo N ok -> ok (zero N) -> forall (CS : nat -> nat -> nat -> T N) (m n : nat) (thr : T N) (ivs : list (nat * nat)), sbs_table_ok N ok CS m ivs -> ok thr -> ltb N thr (zero N) = false -> (1 <= m)%nat -> (forall s e : nat, In (s, e) ivs -> (s + 2 * m <= e <= n)%nat) -> forall (cpts : list nat) (am : list (nat * T N)), gsbs N CS m thr ivs = Some (cpts, am) -> length am = length ivs /\ (forall i : nat, (i < length ivs)%nat -> let '(s, e) := nth i ivs (0%nat, 0%nat) in let '(k, v) := nth i am (0%nat, zero N) in ((s + m <= k)%nat /\ (k + m <= e)%nat) /\ v = CS s k e /\ (forall k' : nat, (s + m <= k')%nat /\ (k' + m <= e)%nat -> ltb N v (CS s k' e) = false /\ ((k' < k)%nat -> ltb N (CS s k' e) v = true))).
Proof. exact @G07_interval_scores. Qed.

Theorem C07_any_order_G07_changepoints_supported : forall (N : num) (ok : T N -> Prop), swo N ok -> ok (zero N) -> forall (CS : nat -> nat -> nat -> T N) (m n : nat) (thr : T N) (ivs : list (nat * nat)), sbs_table_ok N ok CS m ivs -> ok thr -> ltb N thr (zero N) = false -> (1 <= m)%nat -> (forall s e : nat, In (s, e) ivs -> (s + 2 * m <= e <= n)%nat) -> forall (cpts : list nat) (am : list (nat * T N)), gsbs N CS m thr ivs = Some (cpts, am) -> forall c : nat, In c cpts -> exists i : nat, (i < length ivs)%nat /\ fst (nth i am (0%nat, zero N)) = c /\ ltb N thr (snd (nth i am (0%nat, zero N))) = true /\ contains (nth i ivs (0%nat, 0%nat)) c = true.
Proof. exact @G07_changepoints_supported. Qed.

Theorem C07_any_order_G07_no_interval_left : forall (N : num) (ok : T N -> Prop), swo N ok -> ok (zero N) -> forall (CS : nat -> nat -> nat -> T N) (m n : nat) (thr : T N) (ivs : list (nat * nat)), sbs_table_ok N ok CS m ivs -> ok thr -> ltb N thr (zero N) = false -> (1 <= m)%nat -> (forall s e : nat, In (s, e) ivs -> (s + 2 * m <= e <= n)%nat) -> forall (cpts : list nat) (am : list (nat * T N)), gsbs N CS m thr ivs = Some (cpts, am) -> forall i : nat, (i < length ivs)%nat -> ltb N thr (snd (nth i am (0%nat, zero N))) = true -> exists c : nat, In c cpts /\ contains (nth i ivs (0%nat, 0%nat)) c = true.
Proof. exact @G07_no_interval_left. Qed.

Theorem C07_any_order_G07_threshold_monotone : forall (N : num) (ok : T N -> Prop), swo N ok -> ok (zero N) -> forall (CS : nat -> nat -> nat -> T N) (m n : nat) (thr : T N) (ivs : list (nat * nat)), sbs_table_ok N ok CS m ivs -> ok thr -> ltb N thr (zero N) = false -> (1 <= m)%nat -> (forall s e : nat, In (s, e) ivs -> (s + 2 * m <= e <= n)%nat) -> forall (cpts : list nat) (am : list (nat * T N)), gsbs N CS m thr ivs = Some (cpts, am) -> forall (thr' : T N) (cpts' : list nat) (am' : list (nat * T N)), ok thr' -> ltb N thr' thr = false -> gsbs N CS m thr' ivs = Some (cpts', am') -> incl cpts' cpts.
Proof. exact @G07_threshold_monotone. Qed.

Print Assumptions C07_float_F64_swo.
Print Assumptions C07_float_F64_C07_total.
Print Assumptions C07_float_F64_C07_interval_scores.
Print Assumptions C07_float_F64_C07_changepoints_supported.
Print Assumptions C07_float_F64_C07_no_interval_left.
Print Assumptions C07_float_F64_C07_changepoints_wellformed.
Print Assumptions C07_float_F64_C07_threshold_monotone.
Print Assumptions C07_any_order_G07_interval_scores.
Print Assumptions C07_any_order_G07_changepoints_supported.
Print Assumptions C07_any_order_G07_no_interval_left.
Print Assumptions C07_any_order_G07_threshold_monotone.
