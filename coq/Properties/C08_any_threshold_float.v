(** C08 for binary64 scores and ANY threshold: instances of Proofs/AnyThreshold.v (Proofs/AnyThresholdF.v). The changepoints are increasing and lie
    in [b, n - b], with no hypothesis on the numbers at all (NaN included). *)
From Coq Require Import List Sorted.
From SK Require Import Model.Generic Model.GenericF Model.GenericAny.
From SK Require Import Proofs.AnyThresholdF.
Import ListNotations.


Theorem C08_float_any_threshold_in_range : forall (CS : nat -> nat -> nat -> T F64) (b n : nat) (thr : T F64) (mdi c : nat), (2 * b <= n)%nat -> In c (snd (gmw_any F64 CS b n thr mdi)) -> (b <= c)%nat /\ (c + b <= n)%nat.
Proof. exact @F64_mw_any_in_range. Qed.

Theorem C08_float_any_threshold_sorted : forall (CS : nat -> nat -> nat -> T F64) (b n : nat) (thr : T F64) (mdi : nat), StronglySorted lt (snd (gmw_any F64 CS b n thr mdi)).
Proof. exact @F64_mw_any_sorted. Qed.

Print Assumptions C08_float_any_threshold_in_range.
Print Assumptions C08_float_any_threshold_sorted.
