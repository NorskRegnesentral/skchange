(** C07 for binary64 scores and ANY threshold: instances of Proofs/AnyThreshold.v (Proofs/AnyThresholdF.v). Totality and well-formedness need no
    hypothesis on the numbers at all (NaN included); the specification clauses need non-NaN scores and threshold. *)
From Coq Require Import List.
From SK Require Import Lib.Base Model.Sbs Model.Generic Model.GenericF Model.GenericAny.
From SK Require Import Proofs.GenericOrder Proofs.GenericInstances Proofs.AnyThresholdF.
Import ListNotations.


Theorem C07_float_any_threshold_total : forall (CS : nat -> nat -> nat -> T F64) (m : nat) (thr : T F64) (n : nat) (ivs : list (nat * nat)), (1 <= m)%nat -> (forall s e : nat, In (s, e) ivs -> (s + 2 * m <= e <= n)%nat) -> exists r : list nat * list (nat * T F64), gsbs_any F64 CS m thr ivs = Some r.
Proof. exact @F64_sbs_any_total. Qed.

Theorem C07_float_any_threshold_wellformed : forall (CS : nat -> nat -> nat -> T F64) (m : nat) (thr : T F64) (n : nat) (ivs : list (nat * nat)) (cpts : list nat) (am : list (nat * T F64)), (1 <= m)%nat -> (forall s e : nat, In (s, e) ivs -> (s + 2 * m <= e <= n)%nat) -> gsbs_any F64 CS m thr ivs = Some (cpts, am) -> (forall i : nat, (S i < length cpts)%nat -> (nthN cpts i < nthN cpts (S i))%nat /\ (nthN cpts i + m <= nthN cpts (S i))%nat) /\ (forall c : nat, In c cpts -> (m <= c)%nat /\ (c + m <= n)%nat) /\ (forall c : nat, In c cpts -> exists i : nat, (i < length ivs)%nat /\ fst (nth i am (0%nat, zero F64)) = c /\ contains (nth i ivs (0%nat, 0%nat)) c = true) /\ gamocs F64 CS m ivs = Some am.
Proof. exact @F64_sbs_any_wellformed. Qed.

Theorem C07_float_any_threshold_supported : forall (CS : nat -> nat -> nat -> T F64) (m n : nat) (thr : T F64) (ivs : list (nat * nat)), sbs_table_ok F64 nonnan CS m ivs -> nonnan thr -> (1 <= m)%nat -> (forall s e : nat, In (s, e) ivs -> (s + 2 * m <= e <= n)%nat) -> forall (cpts : list nat) (am : list (nat * T F64)), gsbs_any F64 CS m thr ivs = Some (cpts, am) -> forall c : nat, In c cpts -> exists i : nat, (i < length ivs)%nat /\ fst (nth i am (0%nat, zero F64)) = c /\ ltb F64 thr (snd (nth i am (0%nat, zero F64))) = true /\ contains (nth i ivs (0%nat, 0%nat)) c = true.
Proof. exact @F64_sbs_any_supported. Qed.

Theorem C07_float_any_threshold_no_interval_left : forall (CS : nat -> nat -> nat -> T F64) (m n : nat) (thr : T F64) (ivs : list (nat * nat)), sbs_table_ok F64 nonnan CS m ivs -> nonnan thr -> (1 <= m)%nat -> (forall s e : nat, In (s, e) ivs -> (s + 2 * m <= e <= n)%nat) -> forall (cpts : list nat) (am : list (nat * T F64)), gsbs_any F64 CS m thr ivs = Some (cpts, am) -> forall i : nat, (i < length ivs)%nat -> ltb F64 thr (snd (nth i am (0%nat, zero F64))) = true -> exists c : nat, In c cpts /\ contains (nth i ivs (0%nat, 0%nat)) c = true.
Proof. exact @F64_sbs_any_no_interval_left. Qed.

Theorem C07_float_any_threshold_monotone : forall (CS : nat -> nat -> nat -> T F64) (m n : nat) (thr : T F64) (ivs : list (nat * nat)), sbs_table_ok F64 nonnan CS m ivs -> nonnan thr -> (1 <= m)%nat -> (forall s e : nat, In (s, e) ivs -> (s + 2 * m <= e <= n)%nat) -> forall (cpts : list nat) (am : list (nat * T F64)), gsbs_any F64 CS m thr ivs = Some (cpts, am) -> forall (thr' : T F64) (cpts' : list nat) (am' : list (nat * T F64)), nonnan thr' -> ltb F64 thr' thr = false -> gsbs_any F64 CS m thr' ivs = Some (cpts', am') -> incl cpts' cpts.
Proof. exact @F64_sbs_any_threshold_monotone. Qed.

Print Assumptions C07_float_any_threshold_total.
Print Assumptions C07_float_any_threshold_wellformed.
Print Assumptions C07_float_any_threshold_supported.
Print Assumptions C07_float_any_threshold_no_interval_left.
Print Assumptions C07_float_any_threshold_monotone.
