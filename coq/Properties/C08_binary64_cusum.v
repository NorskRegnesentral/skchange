(** C08 END TO END in binary64, CUSUM score on one column: `gmw_any F64 (cusum_F xs) b n thr mdi` is the run the harness compares bit for bit with the real MovingWindow FROM THE DATA
    (`cusum_F` = the kernel twin, compared bit for bit with `CUSUM.evaluate` by C06).  Under the boolean premise `mw_cusum_trace_ok` (evaluated on every case of that stream) and a finite
    threshold of ANY sign: every published score is within the proved error `cusum_E` of the TRUE CUSUM statistic of the real numbers the floats denote; every reported changepoint's
    true statistic exceeds the threshold up to that error (soundness); every admissible position whose true statistic exceeds the threshold by more than the error lies in a maximal
    run above the threshold, and a run of at least min_detection_interval positions yields a changepoint at its first maximum (completeness). *)
From Coq Require Import Reals List Floats.
From SK Require Import Gen.KernelsR Proofs.RealLib Check.FloatKernelCheck2 Proofs.FloatRefine.
(* the list vocabulary of the detectors ([slice] on any list) is imported last: it shadows the real-number one *)
From SK Require Import Model.Mw Model.Generic Model.GenericF Model.GenericAny.
Import ListNotations.

From SK Require Import Proofs.MwSbsFloatCusum.


Theorem C08_binary64_cusum_scores : forall (xs : list PrimFloat.float) (b : nat) (thr : T F64) (mdi : nat), mw_cusum_trace_ok xs b = true -> let n := length xs in let scores := fst (gmw_any F64 (cusum_F xs) b n thr mdi) in length scores = n /\ (forall t : nat, (t < n)%nat -> ((b <= t)%nat /\ (t + b <= n)%nat -> nthV F64 scores t = cusum_F xs (t - b) t (t + b) /\ finF (nthV F64 scores t) = true /\ (Rabs (FR (nthV F64 scores t) - cusum_score_R (prefix (map FR xs)) (t - b) t (t + b)) <= cusum_E xs (t - b) t (t + b))%R) /\ (~ ((b <= t)%nat /\ (t + b <= n)%nat) -> nthV F64 scores t = 0%float)).
Proof. exact @mw_F64_cusum_scores. Qed.

Theorem C08_binary64_cusum_sound : forall (xs : list PrimFloat.float) (b : nat) (thr : PrimFloat.float) (mdi c : nat), mw_cusum_trace_ok xs b = true -> finF thr = true -> In c (snd (gmw_any F64 (cusum_F xs) b (length xs) thr mdi)) -> ((b <= c)%nat /\ (c + b <= length xs)%nat) /\ (thr <? cusum_F xs (c - b) c (c + b))%float = true /\ (cusum_score_R (prefix (map FR xs)) (c - b) c (c + b) > FR thr - cusum_E xs (c - b) c (c + b))%R.
Proof. exact @mw_F64_cusum_sound. Qed.

Theorem C08_binary64_cusum_complete : forall (xs : list PrimFloat.float) (b : nat) (thr : PrimFloat.float) (mdi t : nat), mw_cusum_trace_ok xs b = true -> finF thr = true -> (b <= t)%nat -> (t + b <= length xs)%nat -> (cusum_score_R (prefix (map FR xs)) (t - b) t (t + b) > FR thr + cusum_E xs (t - b) t (t + b))%R -> let n := length xs in let score := fun i : nat => cusum_F xs (i - b) i (i + b) in let stat := fun i : nat => cusum_score_R (prefix (map FR xs)) (i - b) i (i + b) in let err := fun i : nat => cusum_E xs (i - b) i (i + b) in (thr <? score t)%float = true /\ (exists a z : nat, In ((a - b)%nat, (z - b)%nat) (where_runs (map (fun v : PrimFloat.float => (thr <? v)%float) (slice b (n - b + 1) (gmw_scores F64 (cusum_F xs) b n)))) /\ (b <= a <= t)%nat /\ (t < z)%nat /\ (z + b <= n + 1)%nat /\ (forall i : nat, (a <= i < z)%nat -> (thr <? score i)%float = true) /\ (a = b \/ (thr <? score (a - 1)%nat)%float = false) /\ ((z + b)%nat = (n + 1)%nat \/ (thr <? score z)%float = false) /\ ((mdi <= z - a)%nat -> exists c : nat, In c (snd (gmw_any F64 (cusum_F xs) b n thr mdi)) /\ (a <= c < z)%nat /\ (forall i : nat, (a <= i < z)%nat -> (score c <? score i)%float = false) /\ (forall i : nat, (a <= i < c)%nat -> (score i <? score c)%float = true) /\ (forall i : nat, (a <= i < z)%nat -> (stat i <= stat c + err c + err i)%R))).
Proof. exact @mw_F64_cusum_complete. Qed.

Theorem C08_binary64_cusum_example_premise : mw_cusum_trace_ok demo_shift 3 = true.
Proof. exact @demo_mw_premise. Qed.

Theorem C08_binary64_cusum_example_sound : (2 <? cusum_F demo_shift 3 6 9)%float = true /\ (cusum_score_R (prefix (map FR demo_shift)) 3 6 9 > FR 2 - cusum_E demo_shift 3 6 9)%R.
Proof. exact @demo_mw_sound. Qed.

Print Assumptions C08_binary64_cusum_scores.
Print Assumptions C08_binary64_cusum_sound.
Print Assumptions C08_binary64_cusum_complete.
Print Assumptions C08_binary64_cusum_example_premise.
Print Assumptions C08_binary64_cusum_example_sound.
