(** C04 -- detections are well-formed and respect the configured length limits.

    Concrete well-formedness clauses for every detector model, for ARBITRARY score functions
    (no split / sub-additivity hypothesis): they follow from the structure of the search loops
    alone.  Statements: Proofs/WellFormed.v (unpacking pelt_adm, capa_wellformed, sbs_wellformed,
    cbs_wellformed, the moving-window range lemmas and affected_ok into the clauses of the
    property). *)
From Coq Require Import ZArith List Sorted.
From SK Require Import Lib.Base Model.Pelt Model.Capa Model.Sbs Model.Cbs Model.Mw Proofs.PeltSpec Proofs.CapaSpec.
From SK Require Import Properties.C02 Proofs.WellFormed.
Import ListNotations.


Theorem C04_admissible_means : forall (m : nat) (cpts : list nat) (n : nat), (1 <= m)%nat -> Adm m cpts n <-> (m <= n)%nat /\ (forall c : nat, In c cpts -> (m <= c)%nat /\ (c + m <= n)%nat) /\ (forall i : nat, (S i < length cpts)%nat -> (nthN cpts i + m <= nthN cpts (S i))%nat).
Proof. exact @adm_iff_concrete. Qed.

Theorem C04_pelt_changepoints : forall (C : nat -> nat -> Z) (pen : Z) (m n : nat), (1 <= m)%nat -> (2 * m <= n)%nat -> let cpts := snd (pelt_code C pen m n) in StronglySorted lt cpts /\ (forall c : nat, In c cpts -> (1 <= c <= n - 1)%nat /\ (m <= c)%nat /\ (c + m <= n)%nat) /\ (forall i : nat, (S i < length cpts)%nat -> (nthN cpts i + m <= nthN cpts (S i))%nat).
Proof. exact @pelt_wellformed. Qed.

Theorem C04_pelt_changepoints_any_delay : forall (C : nat -> nat -> Z) (pen : Z) (m delay n : nat), (1 <= m)%nat -> (2 * m <= n)%nat -> let cpts := snd (pelt C pen m delay n) in StronglySorted lt cpts /\ (forall c : nat, In c cpts -> (1 <= c <= n - 1)%nat /\ (m <= c)%nat /\ (c + m <= n)%nat) /\ (forall i : nat, (S i < length cpts)%nat -> (nthN cpts i + m <= nthN cpts (S i))%nat).
Proof. exact @pelt_wellformed_any_delay. Qed.

Theorem C04_pelt_count : forall (C : nat -> nat -> Z) (pen : Z) (m n : nat), (1 <= m)%nat -> (2 * m <= n)%nat -> ((length (snd (pelt_code C pen m n)) + 1) * m <= n)%nat.
Proof. exact @pelt_count. Qed.

Theorem C04_sbs_changepoints : forall (CS : nat -> nat -> nat -> Z) (m : nat) (thr : Z) (n : nat) (ivs : list (nat * nat)) (cpts : list nat) (am : list (nat * Z)), 0 <= thr -> (1 <= m)%nat -> (forall s e : nat, In (s, e) ivs -> (s + 2 * m <= e <= n)%nat) -> sbs CS m thr ivs = Some (cpts, am) -> StronglySorted lt cpts /\ (forall c : nat, In c cpts -> (1 <= c <= n - 1)%nat /\ (m <= c)%nat /\ (c + m <= n)%nat) /\ (forall i : nat, (S i < length cpts)%nat -> (nthN cpts i + m <= nthN cpts (S i))%nat).
Proof. exact @sbs_output_wellformed. Qed.

Theorem C04_moving_window_changepoints : forall (CS : nat -> nat -> nat -> Z) (b n : nat) (thr : Z) (mdi : nat), 0 <= thr -> (1 <= b)%nat -> let cpts := snd (mw CS b n thr mdi) in StronglySorted lt cpts /\ (forall c : nat, In c cpts -> (b <= c)%nat /\ (c + b <= n)%nat /\ (1 <= c <= n - 1)%nat).
Proof. exact @mw_output_wellformed. Qed.

Theorem C04_capa_anomalies : forall (Sc : nat -> nat -> list Z) (Sp : nat -> list Z) (ac : Z) (bc : list Z) (ap : Z) (bp : list Z) (m M delay n : nat), (2 <= m)%nat -> (m <= M)%nat -> forall (scores : list Z) (c p : list (nat * nat)), capa Sc Sp ac bc ap bp m M delay n = (scores, c, p) -> ((forall s e : nat, In (s, e) (capa_predict false c p) -> (s < e <= n)%nat /\ (e = S s \/ (s + m <= e <= s + M)%nat)) /\ (forall i : nat, (S i < length (capa_predict false c p))%nat -> (snd (nth i (capa_predict false c p) (0, 0)) <= fst (nth (S i) (capa_predict false c p) (0, 0)))%nat)) /\ ((forall s e : nat, In (s, e) (capa_predict true c p) -> (s < e <= n)%nat /\ (e = S s \/ (s + m <= e <= s + M)%nat)) /\ (forall i : nat, (S i < length (capa_predict true c p))%nat -> (snd (nth i (capa_predict true c p) (0, 0)) <= fst (nth (S i) (capa_predict true c p) (0, 0)))%nat)) /\ (forall s e : nat, In (s, e) (capa_predict true c p) -> e <> S s /\ (s + m <= e <= s + M)%nat /\ In (s, e) (capa_predict false c p)).
Proof. exact @capa_output_wellformed. Qed.

Theorem C04_capa_anomalies_disjoint : forall (Sc : nat -> nat -> list Z) (Sp : nat -> list Z) (ac : Z) (bc : list Z) (ap : Z) (bp : list Z) (m M delay n : nat), (2 <= m)%nat -> (m <= M)%nat -> forall (scores : list Z) (c p : list (nat * nat)), capa Sc Sp ac bc ap bp m M delay n = (scores, c, p) -> StronglySorted iv_before (capa_predict false c p) /\ StronglySorted iv_before (capa_predict true c p).
Proof. exact @capa_output_pairwise_disjoint. Qed.

Theorem C04_anomaly_sets : forall (m M : nat) (ivs : list (nat * nat)) (n : nat), (2 <= m)%nat -> (m <= M)%nat -> Valid m M (map to_anom ivs) n -> (forall s e : nat, In (s, e) ivs -> (s < e <= n)%nat /\ (e = S s \/ (s + m <= e <= s + M)%nat)) /\ (forall i : nat, (S i < length ivs)%nat -> (snd (nth i ivs (0, 0)) <= fst (nth (S i) ivs (0, 0)))%nat).
Proof. exact @valid_concrete. Qed.

Theorem C04_cbs_anomalies : forall (LS : nat -> nat -> nat -> nat -> Z) (m : nat) (thr : Z) (n : nat) (ivs anoms : list (nat * nat)) (am : list (nat * nat * Z)), 0 <= thr -> (1 <= m)%nat -> (forall s e : nat, In (s, e) ivs -> (e <= n)%nat) -> cbs LS m thr ivs = Some (anoms, am) -> (forall i : nat, (S i < length anoms)%nat -> (fst (CbsProofs.nthP anoms i) < fst (CbsProofs.nthP anoms (S i)))%nat /\ (snd (CbsProofs.nthP anoms i) <= fst (CbsProofs.nthP anoms (S i)))%nat) /\ (forall a z : nat, In (a, z) anoms -> (a < z)%nat /\ (1 <= a)%nat /\ (z <= n - 1)%nat /\ (z < n)%nat /\ (a + m <= z)%nat) /\ StronglySorted iv_before anoms.
Proof. exact @cbs_output_wellformed. Qed.

Theorem C04_mvcapa_columns : forall (sav : list Z) (alpha : Z) (betas : list Z), length betas = length sav -> (1 <= length sav)%nat -> affected sav alpha betas <> [] /\ NoDup (affected sav alpha betas) /\ (forall j : nat, In j (affected sav alpha betas) -> (j < length sav)%nat).
Proof. exact @affected_columns_wellformed. Qed.

Theorem C04_mvcapa_columns_count : forall (sav : list Z) (alpha : Z) (betas : list Z), length betas = length sav -> (1 <= length sav)%nat -> (1 <= length (affected sav alpha betas) <= length sav)%nat.
Proof. exact @affected_columns_count. Qed.

Theorem C04_event_labels : forall K i : nat, (i < K)%nat -> nth i (event_labels K) 0%nat = S i.
Proof. exact @event_labels_spec. Qed.

Theorem C04_range_index : forall K i : nat, (i < K)%nat -> nth i (range_index K) 0%nat = i.
Proof. exact @range_index_spec. Qed.

Theorem C04_checker_changepoints_sound : forall (m n : nat) (cpts : list nat), (1 <= m)%nat -> cpts_wf_b m n cpts = true -> StronglySorted lt cpts /\ (forall c : nat, In c cpts -> (1 <= c <= n - 1)%nat /\ (m <= c)%nat /\ (c + m <= n)%nat) /\ (forall i : nat, (S i < length cpts)%nat -> (nthN cpts i + m <= nthN cpts (S i))%nat).
Proof. exact @cpts_wf_b_sound. Qed.

Theorem C04_checker_intervals_sound : forall (m M n : nat) (ivs : list (nat * nat)), intervals_wf_b m M n ivs = true -> intervals_wf m M n ivs.
Proof. exact @intervals_wf_b_sound. Qed.

Print Assumptions C04_admissible_means.
Print Assumptions C04_pelt_changepoints.
Print Assumptions C04_pelt_changepoints_any_delay.
Print Assumptions C04_pelt_count.
Print Assumptions C04_sbs_changepoints.
Print Assumptions C04_moving_window_changepoints.
Print Assumptions C04_capa_anomalies.
Print Assumptions C04_capa_anomalies_disjoint.
Print Assumptions C04_anomaly_sets.
Print Assumptions C04_cbs_anomalies.
Print Assumptions C04_mvcapa_columns.
Print Assumptions C04_mvcapa_columns_count.
Print Assumptions C04_event_labels.
Print Assumptions C04_range_index.
Print Assumptions C04_checker_changepoints_sound.
Print Assumptions C04_checker_intervals_sound.
