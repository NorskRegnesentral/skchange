(** C03 END TO END in binary64, CAPA with the L2 saving on one column: from the float DATA to the anomalies.  `gcapa F64 F64_tiny (l2ScF l) (l2SpF l) acf [0] apf [0] m M (m-1) n` is
    the run the harness compares bit for bit with the real CAPA FROM THE DATA (no saving table handed over: `l2_saving_F` is the kernel twin, itself compared bit for bit with
    `L2Saving.evaluate` by C06).  All premises are boolean and evaluated by `vm_compute` on every case of that stream (Check/FloatRunCheck.v).  Conclusion: the reported anomalies are
    valid and their total penalised saving (over the real numbers the floats denote; the objective of `C03_builtin_l2_saving_end_to_end`) is within an explicit bound of the maximum. *)
From Coq Require Import Reals List PrimFloat.
From SK Require Import Model.Capa Model.CapaR Model.Generic Model.GenericF Model.GenericCapa Proofs.CapaSpec Proofs.CapaReal Proofs.RealLib Gen.KernelsR Proofs.FloatError Proofs.GenericCapaWf Proofs.FloatSaving Proofs.CapaFloat Proofs.PeltFloatL2 Proofs.CapaFloatL2.
Import ListNotations.


Theorem C03_binary64_l2_penalised_saving_shape : forall x alpha : float, gpenalise F64 F64_tiny [x] alpha [0%float] = (x + - alpha)%float.
Proof. exact @penalise_l2_shape. Qed.

Theorem C03_binary64_l2_objective_is_the_real_models : forall (xs : list R) (alpha : R) (s e : nat), PcR (l2Sc [xs]) alpha [0] s e = l2_saving_R (prefix xs) s e - alpha.
Proof. exact @l2_pc_is_PcR. Qed.

Theorem C03_binary64_l2_end_to_end : forall (l : list float) (acf apf Magf : float) (m M : nat) (Sc : R) (scoresF : list float) (c p : list (nat * nat)), let n := length l in (2 <= m)%nat -> (m <= M)%nat -> INR n * u53 <= 1 / 100 -> l2_saving_all_trace_ok l = true -> capa_trace_finite F64_tiny (l2ScF l) (l2SpF l) acf apf [0%float] [0%float] m M (m - 1) n = true -> capa_mag_ok F64_tiny (l2ScF l) (l2SpF l) acf apf [0%float] [0%float] m M (m - 1) n Magf = true -> (forall a T : nat, (a < T <= n)%nat -> l2_saving_scale (map FR l) a T <= Sc) -> gcapa F64 F64_tiny (l2ScF l) (l2SpF l) acf [0%float] apf [0%float] m M (m - 1) n = (scoresF, c, p) -> let pc := fun s e : nat => l2_saving_R (prefix (map FR l)) s e - FR acf in let pp := fun t : nat => l2_saving_R (prefix (map FR l)) t (S t) - FR apf in let out := map to_anom (capa_predict false c p) in let Mag := FR Magf / (1 - u53) in let delta := (42 / 10 * INR n + 5) * u53 * Sc + u53 * Mag in Valid m M out n /\ (forall l' : list anom, Valid m M l' n -> totalR pc pp l' <= totalR pc pp out + 3 * INR n * (delta + u53 * Mag)).
Proof. exact @capa_F64_l2_end_to_end. Qed.

Theorem C03_binary64_l2_final_score : forall (l : list float) (acf apf Magf : float) (m M : nat) (Sc : R) (scoresF : list float) (c p : list (nat * nat)), let n := length l in (2 <= m)%nat -> (m <= M)%nat -> (1 <= n)%nat -> INR n * u53 <= 1 / 100 -> l2_saving_all_trace_ok l = true -> capa_trace_finite F64_tiny (l2ScF l) (l2SpF l) acf apf [0%float] [0%float] m M (m - 1) n = true -> capa_mag_ok F64_tiny (l2ScF l) (l2SpF l) acf apf [0%float] [0%float] m M (m - 1) n Magf = true -> (forall a T : nat, (a < T <= n)%nat -> l2_saving_scale (map FR l) a T <= Sc) -> gcapa F64 F64_tiny (l2ScF l) (l2SpF l) acf [0%float] apf [0%float] m M (m - 1) n = (scoresF, c, p) -> let pc := fun s e : nat => l2_saving_R (prefix (map FR l)) s e - FR acf in let pp := fun t : nat => l2_saving_R (prefix (map FR l)) t (S t) - FR apf in let out := map to_anom (capa_predict false c p) in let Mag := FR Magf / (1 - u53) in let delta := (42 / 10 * INR n + 5) * u53 * Sc + u53 * Mag in Rabs (FR (nthV F64 scoresF (n - 1)) - totalR pc pp out) <= INR n * (delta + u53 * Mag).
Proof. exact @capa_F64_l2_final_score. Qed.

Theorem C03_binary64_l2_end_to_end_all_premises_boolean : forall (l : list float) (acf apf Magf Bf : float) (m M : nat) (scoresF : list float) (c p : list (nat * nat)), let n := length l in (2 <= m)%nat -> (m <= M)%nat -> INR n * u53 <= 1 / 100 -> l2_saving_all_trace_ok l = true -> capa_trace_finite F64_tiny (l2ScF l) (l2SpF l) acf apf [0%float] [0%float] m M (m - 1) n = true -> capa_mag_ok F64_tiny (l2ScF l) (l2SpF l) acf apf [0%float] [0%float] m M (m - 1) n Magf = true -> l2_absmax_ok l Bf = true -> gcapa F64 F64_tiny (l2ScF l) (l2SpF l) acf [0%float] apf [0%float] m M (m - 1) n = (scoresF, c, p) -> let pc := fun s e : nat => l2_saving_R (prefix (map FR l)) s e - FR acf in let pp := fun t : nat => l2_saving_R (prefix (map FR l)) t (S t) - FR apf in let out := map to_anom (capa_predict false c p) in let Mag := FR Magf / (1 - u53) in let Sc := (INR n * FR Bf) ^ 2 in let delta := (42 / 10 * INR n + 5) * u53 * Sc + u53 * Mag in Valid m M out n /\ (forall l' : list anom, Valid m M l' n -> totalR pc pp l' <= totalR pc pp out + 3 * INR n * (delta + u53 * Mag)).
Proof. exact @capa_F64_l2_end_to_end_absmax. Qed.

Theorem C03_binary64_l2_example_within_1e9_of_optimal : forall l' : list anom, Valid 2 4 l' 8 -> totalR (fun s e : nat => l2_saving_R (prefix e3_xsR) s e - 8) (fun t : nat => l2_saving_R (prefix e3_xsR) t (S t) - 12) l' <= 43 + 1 / 1000000000.
Proof. exact @e3_end_to_end_1e9. Qed.

Print Assumptions C03_binary64_l2_penalised_saving_shape.
Print Assumptions C03_binary64_l2_objective_is_the_real_models.
Print Assumptions C03_binary64_l2_end_to_end.
Print Assumptions C03_binary64_l2_final_score.
Print Assumptions C03_binary64_l2_end_to_end_all_premises_boolean.
Print Assumptions C03_binary64_l2_example_within_1e9_of_optimal.
