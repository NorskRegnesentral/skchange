(** C03 under INEXACT arithmetic: the pruned dynamic programme of CAPA / MVCAPA in which every rounded arithmetic step (candidate value opt[a] + penalised saving, point option,
    the sum on the left of the prune test) is an ARBITRARY function within eps of the exact expression (Model/CapaA.v; with the exact functions it IS capaR).  The output is valid
    whatever the values, the reported final score is within n eps of the TRUE total penalised saving of the reported anomalies, and that total is within 3 n eps of the optimum.
    The `_run` versions need the eps-hypotheses only at the values the run itself stores. *)
From Coq Require Import Reals List.
From SK Require Import Model.Capa Model.PeltR Model.CapaR Model.CapaA Proofs.CapaReal Proofs.CapaApprox.
Import ListNotations.


Theorem C03_inexact_model_with_exact_steps_is_the_real_model : forall (Sc : nat -> nat -> list R) (Sp : nat -> list R) (ac : R) (bc : list R) (ap : R) (bp : list R) (m M delay n : nat), capaA (fun (a T : nat) (g : R) => g + PcR Sc ac bc a T) (fun (t : nat) (g : R) => g + PpR Sp ap bp t) (fun (_ _ : nat) (c : R) => c + (ac + RealLib.sumR bc)) m M delay n = capaR Sc Sp ac bc ap bp m M delay n.
Proof. exact @capaA_exact. Qed.

Theorem C03_inexact_output_valid : forall (Vc : nat -> nat -> R -> R) (Vp : nat -> R -> R) (Wk : nat -> nat -> R -> R) (m M delay : nat), (2 <= m)%nat -> (m <= M)%nat -> forall (n : nat) (scores : list R) (c p : list (nat * nat)), capaA Vc Vp Wk m M delay n = (scores, c, p) -> CapaSpec.Valid m M (map CapaSpec.to_anom (capa_predict false c p)) n.
Proof. exact @capaA_wellformed. Qed.

Theorem C03_inexact_final_score_close_to_true_total : forall (Vc : nat -> nat -> R -> R) (Vp : nat -> R -> R) (Wk : nat -> nat -> R -> R) (m M delay : nat) (pc : nat -> nat -> R) (pp : nat -> R) (eps : R), (2 <= m)%nat -> (m <= M)%nat -> 0 <= eps -> (forall (a T : nat) (g : R), Rabs (Vc a T g - (g + pc a T)) <= eps) -> (forall (t : nat) (g : R), Rabs (Vp t g - (g + pp t)) <= eps) -> forall (n : nat) (scores : list R) (c p : list (nat * nat)), capaA Vc Vp Wk m M delay n = (scores, c, p) -> (1 <= n)%nat -> Rabs (nthR scores (n - 1) - totalR pc pp (map CapaSpec.to_anom (capa_predict false c p))) <= INR n * eps.
Proof. exact @capaA_final_close. Qed.

Theorem C03_inexact_output_near_optimal : forall (Vc : nat -> nat -> R -> R) (Vp : nat -> R -> R) (Wk : nat -> nat -> R -> R) (m M delay : nat) (pc : nat -> nat -> R) (pp : nat -> R) (K eps : R), (2 <= m)%nat -> (m <= M)%nat -> (m <= delay + 1)%nat -> (forall s k e : nat, (s + m <= k)%nat -> (k + m <= e)%nat -> (e <= s + M)%nat -> pc s e <= pc s k + K + pc k e) -> 0 <= eps -> (forall (a T : nat) (g : R), Rabs (Vc a T g - (g + pc a T)) <= eps) -> (forall (t : nat) (g : R), Rabs (Vp t g - (g + pp t)) <= eps) -> (forall (a T : nat) (c : R), Rabs (Wk a T c - (c + K)) <= eps) -> forall (n : nat) (scores : list R) (c p : list (nat * nat)), capaA Vc Vp Wk m M delay n = (scores, c, p) -> forall l : list CapaSpec.anom, CapaSpec.Valid m M l n -> totalR pc pp l <= totalR pc pp (map CapaSpec.to_anom (capa_predict false c p)) + 3 * INR n * eps.
Proof. exact @capaA_near_optimal. Qed.

Theorem C03_inexact_final_score_close_realised_values : forall (Vc : nat -> nat -> R -> R) (Vp : nat -> R -> R) (Wk : nat -> nat -> R -> R) (m M delay : nat) (pc : nat -> nat -> R) (pp : nat -> R) (eps : R) (n : nat) (scores : list R) (c p : list (nat * nat)), (2 <= m)%nat -> (m <= M)%nat -> 0 <= eps -> (forall a T : nat, (a < T <= n)%nat -> Rabs (Vc a T (Grun Vc Vp Wk m M delay n a) - (Grun Vc Vp Wk m M delay n a + pc a T)) <= eps) -> (forall t : nat, (t < n)%nat -> Rabs (Vp t (Grun Vc Vp Wk m M delay n t) - (Grun Vc Vp Wk m M delay n t + pp t)) <= eps) -> capaA Vc Vp Wk m M delay n = (scores, c, p) -> (1 <= n)%nat -> Rabs (nthR scores (n - 1) - totalR pc pp (map CapaSpec.to_anom (capa_predict false c p))) <= INR n * eps.
Proof. exact @capaA_final_close_run. Qed.

Theorem C03_inexact_output_near_optimal_realised_values : forall (Vc : nat -> nat -> R -> R) (Vp : nat -> R -> R) (Wk : nat -> nat -> R -> R) (m M delay : nat) (pc : nat -> nat -> R) (pp : nat -> R) (K eps : R) (n : nat) (scores : list R) (c p : list (nat * nat)), (2 <= m)%nat -> (m <= M)%nat -> (m <= delay + 1)%nat -> 0 <= eps -> (forall s k e : nat, (s + m <= k)%nat -> (k + m <= e)%nat -> (e <= s + M)%nat -> pc s e <= pc s k + K + pc k e) -> (forall a T : nat, (a < T <= n)%nat -> Rabs (Vc a T (Grun Vc Vp Wk m M delay n a) - (Grun Vc Vp Wk m M delay n a + pc a T)) <= eps) -> (forall t : nat, (t < n)%nat -> Rabs (Vp t (Grun Vc Vp Wk m M delay n t) - (Grun Vc Vp Wk m M delay n t + pp t)) <= eps) -> (forall a T : nat, (a < T <= n)%nat -> Rabs (Wk a T (Vc a T (Grun Vc Vp Wk m M delay n a)) - (Vc a T (Grun Vc Vp Wk m M delay n a) + K)) <= eps) -> capaA Vc Vp Wk m M delay n = (scores, c, p) -> forall l : list CapaSpec.anom, CapaSpec.Valid m M l n -> totalR pc pp l <= totalR pc pp (map CapaSpec.to_anom (capa_predict false c p)) + 3 * INR n * eps.
Proof. exact @capaA_near_optimal_run. Qed.

Theorem C03_inexact_scores_close_to_prefix_optima : forall (Vc : nat -> nat -> R -> R) (Vp : nat -> R -> R) (Wk : nat -> nat -> R -> R) (m M delay : nat) (pc : nat -> nat -> R) (pp : nat -> R) (K eps : R), (2 <= m)%nat -> (m <= M)%nat -> (m <= delay + 1)%nat -> (forall s k e : nat, (s + m <= k)%nat -> (k + m <= e)%nat -> (e <= s + M)%nat -> pc s e <= pc s k + K + pc k e) -> 0 <= eps -> (forall (a T : nat) (g : R), Rabs (Vc a T g - (g + pc a T)) <= eps) -> (forall (t : nat) (g : R), Rabs (Vp t g - (g + pp t)) <= eps) -> (forall (a T : nat) (c : R), Rabs (Wk a T c - (c + K)) <= eps) -> forall (n : nat) (scores : list R) (c p : list (nat * nat)), capaA Vc Vp Wk m M delay n = (scores, c, p) -> forall t : nat, (t < n)%nat -> GR pc pp m M (S t) - 2 * INR (S t) * eps <= nthR scores t <= GR pc pp m M (S t) + INR (S t) * eps.
Proof. exact @capaA_scores_near_optimal. Qed.

Theorem C03_inexact_hypotheses_satisfiable : forall (n : nat) (scores : list R) (c p : list (nat * nat)), capaA (VcP pc_ex (/ 1024)) (VpP pp_ex (/ 1024)) (WkP 3 (/ 1024)) 2 4 1 n = (scores, c, p) -> forall l : list CapaSpec.anom, CapaSpec.Valid 2 4 l n -> totalR pc_ex pp_ex l <= totalR pc_ex pp_ex (map CapaSpec.to_anom (capa_predict false c p)) + 3 * INR n * / 1024.
Proof. exact @capaA_concrete_instance. Qed.

Print Assumptions C03_inexact_model_with_exact_steps_is_the_real_model.
Print Assumptions C03_inexact_output_valid.
Print Assumptions C03_inexact_final_score_close_to_true_total.
Print Assumptions C03_inexact_output_near_optimal.
Print Assumptions C03_inexact_final_score_close_realised_values.
Print Assumptions C03_inexact_output_near_optimal_realised_values.
Print Assumptions C03_inexact_scores_close_to_prefix_optima.
Print Assumptions C03_inexact_hypotheses_satisfiable.
