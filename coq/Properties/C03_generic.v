(** C03: one definition of the CAPA / MVCAPA dynamic programme over an arbitrary record of operations (Model/GenericCapa.v); the integer model tied to the code and the
    real-valued model carrying the end-to-end theorem are its instances. *)
From Coq Require Import Reals List.
From SK Require Import Model.Capa Model.CapaR Model.Generic Model.GenericCapa Proofs.GenericR Proofs.GenericCapaZ Proofs.GenericCapaR.
Import ListNotations.


Theorem C03_generic_loop_at_Z_is_the_model : forall (Sc : nat -> nat -> list Z) (Sp : nat -> list Z) (ac : Z) (bc : list Z) (ap : Z) (bp : list Z) (m M delay n : nat), gcapa Zn (gtiny_le Zn 0%Z) Sc Sp ac bc ap bp m M delay n = capa Sc Sp ac bc ap bp m M delay n.
Proof. exact @gcapa_Z. Qed.

Theorem C03_generic_penalise_at_Z_is_the_model : forall (sav : list Z) (alpha : Z) (betas : list Z), gpenalise Zn (gtiny_le Zn 0%Z) sav alpha betas = penalise sav alpha betas.
Proof. exact @gpenalise_Z. Qed.

Theorem C03_generic_affected_at_Z_is_the_model : forall (sav : list Z) (alpha : Z) (betas : list Z), gaffected Zn sav alpha betas = affected sav alpha betas.
Proof. exact @gaffected_Z. Qed.

Theorem C03_generic_loop_at_R_is_the_real_model : forall (Sc : nat -> nat -> list R) (Sp : nat -> list R) (ac : R) (bc : list R) (ap : R) (bp : list R) (m M delay n : nat), gcapa Rn (gtiny_le Rn 0) Sc Sp ac bc ap bp m M delay n = capaR Sc Sp ac bc ap bp m M delay n.
Proof. exact @gcapa_R. Qed.

Print Assumptions C03_generic_loop_at_Z_is_the_model.
Print Assumptions C03_generic_penalise_at_Z_is_the_model.
Print Assumptions C03_generic_affected_at_Z_is_the_model.
Print Assumptions C03_generic_loop_at_R_is_the_real_model.
