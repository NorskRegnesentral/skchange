(** C08 -- moving window: symmetric two-sided scores and peak-of-run detections.
    [mw CS b n thr mdi] models moving_window_transform + where +
    get_moving_window_changepoints, with [b] samples X[t-b:t] before the split, for ANY aggregated
    change score [CS s k e]. *)
From Coq Require Import ZArith List Lia Sorted.
From SK Require Import Lib.Base Model.Mw Proofs.WhereRuns Proofs.MwProofs.
Import ListNotations.
Open Scope Z_scope.

From SK Require Import Check.Scores Check.MwCheck Proofs.CheckerSoundness Proofs.ValidCuts.
From SK Require Import Model.Generic Proofs.GenericZ.
(** score at t = change score between X[t-b:t] and X[t:t+b] for b <= t <= n-b, 0 elsewhere *)
Theorem C08_scores : forall CS b n t, (t < n)%nat ->
  length (mw_scores CS b n) = n /\
  nthZ (mw_scores CS b n) t = if ((b <=? t)%nat && (t + b <=? n)%nat)%bool then CS (t - b)%nat t (t + b)%nat else 0.
Proof. intros. split; [apply mw_scores_length|apply mw_scores_nth; assumption]. Qed.

(** [where] returns exactly the maximal runs *)
Theorem C08_runs_are_maximal : forall l a z, In (a, z) (where_runs l) <->
  (a < z <= length l)%nat /\ (forall i, (a <= i < z)%nat -> nth i l false = true) /\
  (a = 0%nat \/ nth (a - 1) l false = false) /\ (z = length l \/ nth z l false = false).
Proof. exact where_runs_spec. Qed.

(** the changepoints are exactly the first maxima of the maximal above-threshold runs of
    length >= min_detection_interval *)
Theorem C08_changepoints_are_run_peaks : forall scores thr mdi c,
  In c (mw_cpts scores thr mdi) <->
  exists a z, In (a, z) (where_runs (map (fun v => thr <? v) scores)) /\ (mdi <= z - a)%nat /\ (a <= c < z)%nat /\
    (forall i, (a <= i < z)%nat -> nthZ scores i <= nthZ scores c) /\
    (forall i, (a <= i < c)%nat -> nthZ scores i < nthZ scores c).
Proof. exact mw_cpts_spec. Qed.

Theorem C08_changepoints_sorted : forall scores thr mdi, StronglySorted lt (mw_cpts scores thr mdi).
Proof. exact mw_cpts_sorted. Qed.

(** changepoints lie in [b, n-b] (C04) and score above the threshold *)
Theorem C08_changepoints_in_range : forall CS b n thr mdi c, 0 <= thr ->
  In c (snd (mw CS b n thr mdi)) -> (b <= c /\ c + b <= n)%nat.
Proof. exact mw_cpts_range. Qed.
Theorem C08_changepoints_above_threshold : forall scores thr mdi c,
  In c (mw_cpts scores thr mdi) -> (c < length scores)%nat /\ thr < nthZ scores c.
Proof. exact mw_cpts_above. Qed.

(** reversing the series in time maps the score at t to n - t *)
Theorem C08_reversal : forall CS b n t, (1 <= t < n)%nat ->
  nthZ (mw_scores (fun s k e => CS (n - e) (n - k) (n - s))%nat b n) t = nthZ (mw_scores CS b n) (n - t)%nat.
Proof. exact mw_reversal_scores. Qed.

Theorem C08_ext : forall CS1 CS2 b n thr mdi, (forall s k e, CS1 s k e = CS2 s k e) -> mw CS1 b n thr mdi = mw CS2 b n thr mdi.
Proof. exact mw_ext. Qed.

(** the originally pinned left window X[t-b+1:t] is NOT the symmetric score *)
Definition mw_scores_pinned (CS : nat -> nat -> nat -> Z) (b n : nat) : list Z :=
  map (fun t => if ((b <=? t)%nat && (t + b <=? n)%nat)%bool then CS (t - b + 1)%nat t (t + b)%nat else 0) (seq 0 n).
Theorem C08_left_window_refuted : exists CS b n t, (b <= t /\ t + b <= n)%nat /\
  nthZ (mw_scores_pinned CS b n) t <> CS (t - b)%nat t (t + b)%nat.
Proof. exists (fun s k e => Z.of_nat s), 2%nat, 4%nat, 2%nat. split; [lia|]. vm_compute. discriminate. Qed.

Print Assumptions C08_scores.
Print Assumptions C08_runs_are_maximal.
Print Assumptions C08_changepoints_are_run_peaks.
Print Assumptions C08_changepoints_sorted.
Print Assumptions C08_changepoints_in_range.
Print Assumptions C08_changepoints_above_threshold.
Print Assumptions C08_reversal.
Print Assumptions C08_ext.
Print Assumptions C08_left_window_refuted.

(** what the boolean checkers that the harness evaluates on every recorded case accept, as
    propositions (Proofs/CheckerSoundness.v); the run depends on the score only at valid cuts
    (Proofs/ValidCuts.v) *)
Theorem C08_scores_checker_sound : forall c : mw_case, mw_scores_ok c = true -> length (mc_scores c) = mc_n c /\ (forall t : nat, (t < mc_n c)%nat -> (mc_b c <= t)%nat -> (t + mc_b c <= mc_n c)%nat -> nthZ (mc_scores c) t = cs_agg (mc_score c) (t - mc_b c) t (t + mc_b c)) /\ (forall t : nat, (t < mc_b c)%nat \/ (mc_n c < t + mc_b c)%nat -> nthZ (mc_scores c) t = 0) /\ mc_scores c = mw_scores (cs_agg (mc_score c)) (mc_b c) (mc_n c).
Proof. exact @mw_scores_ok_sound. Qed.

Theorem C08_wellformedness_checker_sound : forall c : mw_case, mw_wf_ok c = true -> StronglySorted lt (mc_cpts c) /\ (forall i j : nat, (i < j < length (mc_cpts c))%nat -> (nthN (mc_cpts c) i < nthN (mc_cpts c) j)%nat) /\ (forall cp : nat, In cp (mc_cpts c) -> ((mc_b c <= cp)%nat /\ (cp + mc_b c <= mc_n c)%nat) /\ mc_thr c < nthZ (mc_scores c) cp).
Proof. exact @mw_wf_ok_sound. Qed.

Theorem C08_model_equality_checker_sound : forall c : mw_case, mw_model_eq c = true -> mw (cs_agg (mc_score c)) (mc_b c) (mc_n c) (mc_thr c) (mc_mdi c) = (mc_scores c, mc_cpts c).
Proof. exact @mw_model_eq_sound. Qed.

Theorem C08_reversal_checker_sound : forall (n : nat) (sc screv : list Z), mw_reversal_ok (n, sc, screv) = true -> forall t : nat, (1 <= t < n)%nat -> nthZ screv t = nthZ sc (n - t).
Proof. exact @mw_reversal_ok_sound. Qed.

Theorem C08_only_valid_cuts_matter : forall (CS1 CS2 : nat -> nat -> nat -> Z) (b n : nat) (thr : Z) (mdi : nat), (forall t : nat, (b <= t)%nat -> (t + b <= n)%nat -> CS1 (t - b)%nat t (t + b)%nat = CS2 (t - b)%nat t (t + b)%nat) -> mw CS1 b n thr mdi = mw CS2 b n thr mdi.
Proof. exact @mw_ext_valid. Qed.

Print Assumptions C08_scores_checker_sound.
Print Assumptions C08_wellformedness_checker_sound.
Print Assumptions C08_model_equality_checker_sound.
Print Assumptions C08_reversal_checker_sound.
Print Assumptions C08_only_valid_cuts_matter.

Theorem C08_generic_loop_at_Z_is_the_model : forall (CS : nat -> nat -> nat -> T Zn) (b n : nat) (thr : T Zn) (mdi : nat), gmw Zn CS b n thr mdi = mw CS b n thr mdi.
Proof. exact @gmw_Z. Qed.

Print Assumptions C08_generic_loop_at_Z_is_the_model.
