(** C08 for ANY threshold: Model/GenericAny.v takes the runs over the admissible positions [b, n - b] only, as the code does.  It coincides with the model of Properties/C08.v
    for a non-negative threshold, and for EVERY threshold -- a tuned threshold can be slightly negative -- its changepoints are increasing and lie in [b, n - b]. *)
From Coq Require Import ZArith List Sorted.
From SK Require Import Model.Mw Model.Generic Model.GenericAny.
From SK Require Import Proofs.AnyThreshold.
Import ListNotations.


Theorem C08_any_threshold_changepoints_in_range : forall (N : num) (CS : nat -> nat -> nat -> T N) (b n : nat) (thr : T N) (mdi c : nat), (2 * b <= n)%nat -> In c (snd (gmw_any N CS b n thr mdi)) -> (b <= c)%nat /\ (c + b <= n)%nat.
Proof. exact @gmw_any_in_range. Qed.

Theorem C08_any_threshold_changepoints_sorted : forall (N : num) (CS : nat -> nat -> nat -> T N) (b n : nat) (thr : T N) (mdi : nat), StronglySorted lt (snd (gmw_any N CS b n thr mdi)).
Proof. exact @gmw_any_sorted. Qed.

Theorem C08_any_threshold_agrees_with_model : forall (CS : nat -> nat -> nat -> T Zn) (b n : nat) (thr : Z) (mdi : nat), 0 <= thr -> (2 * b <= n)%nat -> gmw_any Zn CS b n thr mdi = mw CS b n thr mdi.
Proof. exact @mw_any_Z. Qed.

Theorem C08_any_threshold_agrees_for_any_numbers : forall (N : num) (thr : T N) (CS : nat -> nat -> nat -> T N) (b n mdi : nat), ltb N thr (zero N) = false -> (2 * b <= n)%nat -> gmw_any N CS b n thr mdi = gmw N CS b n thr mdi.
Proof. exact @gmw_any_agrees. Qed.

Print Assumptions C08_any_threshold_changepoints_in_range.
Print Assumptions C08_any_threshold_changepoints_sorted.
Print Assumptions C08_any_threshold_agrees_with_model.
Print Assumptions C08_any_threshold_agrees_for_any_numbers.
